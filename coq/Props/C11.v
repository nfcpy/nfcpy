(* C11 - LLCP PDU encoding and decoding are mutually consistent (src/nfc/llcp/pdu.py, with repairs c11-1..4).
   Only statements here; proofs are in Proofs/Pdu*.v.  Model: Model/Pdu.v (decode, encode, pdu_len, valid, norm).
   All theorems are about decode with offset >= 0 on byte strings (bytes_ok). *)
From Coq Require Import ZArith List Bool.
From NV Require Import Base.Result Base.Bytes Model.Pdu
  Base.PyPrims Model.PduSpec Gen.PduLen Gen.PduK Gen.CollectK Gen.PduF Bridge.Pdu Bridge.PduF Proofs.PduBase Proofs.PduWin Proofs.PduLen Proofs.PduRt Proofs.PduTotal Proofs.PduAgf Proofs.PduSound.
Import ListNotations.
Open Scope Z_scope.

(* --- the reported length is the length of the encoding: for every PDU that encodes at all (valid or not) --- *)
Theorem C11_len_encode : forall p b, encode p = EOk b -> pdu_len p = len b.
Proof. exact len_encode. Qed.
Print Assumptions C11_len_encode.

(* --- round trip: every PDU with valid field values (all 15 classes; SAP 0..63, N(S)/N(R) 0..15, MIU 128..2175,
       RW 0..15 including 0, LTO, WKS, OPT, names 1..255 bytes, any payload; aggregates of non-aggregates whose
       encodings fit the 16-bit length field) encodes, and its encoding decodes to the same PDU, field by field --- *)
Theorem C11_decode_encode : forall p, valid p -> exists b, encode p = EOk b /\ decode b 0 (len b) = Ok p.
Proof. exact decode_encode. Qed.
Print Assumptions C11_decode_encode.
(* ... also when the encoding sits anywhere inside a larger buffer *)
Theorem C11_decode_encode_at : forall p pre post, valid p ->
  exists b, encode p = EOk b /\ decode (pre ++ b ++ post) (len pre) (len b) = Ok p.
Proof. exact decode_encode_at. Qed.
Print Assumptions C11_decode_encode_at.

(* --- decode is total: for every byte string, offset >= 0 and size it returns a PDU or DecodeError;
       never another exception (Crash), never a hang --- *)
Theorem C11_decode_total : forall data off size, 0 <= off -> bytes_ok data ->
  (exists p, decode data off size = Ok p) \/ decode data off size = Err DecodeError.
Proof. exact decode_total. Qed.
Print Assumptions C11_decode_total.

(* --- what decode returns has valid field values (after identifying an empty name/key/nonce with an absent one) --- *)
Theorem C11_decode_valid : forall data off size p, 0 <= off -> bytes_ok data ->
  decode data off size = Ok p -> valid (norm p).
Proof. exact decode_valid. Qed.
Print Assumptions C11_decode_valid.

(* --- a decoded PDU re-encodes; the encoding has the reported length and decodes to an equal PDU.
       Field-wise equal up to norm (an empty service name / ECPK / RN is not encoded, `if self.sn:`, and reads back as
       absent; norm p = p for every other PDU) ... --- *)
Theorem C11_decode_reencode : forall data off size p, 0 <= off -> bytes_ok data -> decode data off size = Ok p ->
  exists b', encode p = EOk b' /\ pdu_len p = len b' /\ decode b' 0 (len b') = Ok (norm p).
Proof. exact decode_reencode. Qed.
Print Assumptions C11_decode_reencode.
(* ... and equal in the sense of the PDU classes' own __eq__ (equality of encodings) without any identification *)
Theorem C11_decode_reencode_eq : forall data off size p, 0 <= off -> bytes_ok data -> decode data off size = Ok p ->
  exists b' p', encode p = EOk b' /\ decode b' 0 (len b') = Ok p' /\ encode p' = encode p.
Proof. exact decode_reencode_eq. Qed.
Print Assumptions C11_decode_reencode_eq.
Theorem C11_encode_norm : forall p, encode (norm p) = encode p.
Proof. exact encode_norm. Qed.
Print Assumptions C11_encode_norm.

(* --- a PDU is decoded from its own bytes only: the result for the window (offset, size) does not depend on
       what precedes or follows the window --- *)
Theorem C11_decode_local : forall pre w post, bytes_ok w ->
  decode (pre ++ w ++ post) (len pre) (len w) = decode w 0 (len w).
Proof. exact decode_local. Qed.
Print Assumptions C11_decode_local.
(* --- ... and the members of a decoded aggregate are exactly the results of decode on the members' own
       length-prefixed bytes, which together make up the aggregate's information field --- *)
Theorem C11_agf_local : forall data off size d s ps, 0 <= off -> bytes_ok data ->
  decode data off size = Ok (Agf d s ps) ->
  exists hdr subs, slice data off (off + size) = hdr ++ concat (map frame subs) /\ len hdr = 2 /\
                   Forall2 (fun e p => bytes_ok e /\ decode e 0 (len e) = Ok p) subs ps.
Proof. exact agf_local. Qed.
Print Assumptions C11_agf_local.

(* --- tie: the __len__ methods regenerated from src/nfc/llcp/pdu.py on this run are pdu_len --- *)
Theorem C11_bridge_len_symm : forall d s, gen_len_Symmetry = pdu_len (Symm d s).
Proof. intros d s. exact (bridge_len (Symm d s)). Qed.
Print Assumptions C11_bridge_len_symm.
Theorem C11_bridge_len_pax : forall d s v m w l o, gen_len_ParameterExchange v m w l o = pdu_len (Pax d s v m w l o).
Proof. intros d s v m w l o. exact (bridge_len (Pax d s v m w l o)). Qed.
Print Assumptions C11_bridge_len_pax.
Theorem C11_bridge_len_agf : forall d s ps, gen_len_AggregatedFrame (map pdu_len ps) = pdu_len (Agf d s ps).
Proof. intros d s ps. exact (bridge_len (Agf d s ps)). Qed.
Print Assumptions C11_bridge_len_agf.
Theorem C11_bridge_len_ui : forall d s data, gen_len_UnnumberedInformation data = pdu_len (UI d s data).
Proof. intros d s data. exact (bridge_len (UI d s data)). Qed.
Print Assumptions C11_bridge_len_ui.
Theorem C11_bridge_len_connect : forall d s miu rw sn, gen_len_Connect miu rw sn = pdu_len (Connect d s miu rw sn).
Proof. intros d s miu rw sn. exact (bridge_len (Connect d s miu rw sn)). Qed.
Print Assumptions C11_bridge_len_connect.
Theorem C11_bridge_len_disc : forall d s, gen_len_Disconnect = pdu_len (Disc d s).
Proof. intros d s. exact (bridge_len (Disc d s)). Qed.
Print Assumptions C11_bridge_len_disc.
Theorem C11_bridge_len_cc : forall d s miu rw, gen_len_ConnectionComplete miu rw = pdu_len (CC d s miu rw).
Proof. intros d s miu rw. exact (bridge_len (CC d s miu rw)). Qed.
Print Assumptions C11_bridge_len_cc.
Theorem C11_bridge_len_dm : forall d s r, gen_len_DisconnectedMode = pdu_len (DM d s r).
Proof. intros d s r. exact (bridge_len (DM d s r)). Qed.
Print Assumptions C11_bridge_len_dm.
Theorem C11_bridge_len_frmr : forall d s a b c e f g h i, gen_len_FrameReject = pdu_len (Frmr d s a b c e f g h i).
Proof. intros d s a b c e f g h i. exact (bridge_len (Frmr d s a b c e f g h i)). Qed.
Print Assumptions C11_bridge_len_frmr.
Theorem C11_bridge_len_snl : forall d s rq rs, gen_len_ServiceNameLookup rq rs = pdu_len (Snl d s rq rs).
Proof. intros d s rq rs. exact (bridge_len (Snl d s rq rs)). Qed.
Print Assumptions C11_bridge_len_snl.
Theorem C11_bridge_len_dps : forall d s e r, gen_len_DataProtectionSetup e r = pdu_len (Dps d s e r).
Proof. intros d s e r. exact (bridge_len (Dps d s e r)). Qed.
Print Assumptions C11_bridge_len_dps.
Theorem C11_bridge_len_info : forall d s ns nr data, gen_len_Information data = pdu_len (Info d s ns nr data).
Proof. intros d s ns nr data. exact (bridge_len (Info d s ns nr data)). Qed.
Print Assumptions C11_bridge_len_info.
Theorem C11_bridge_len_rr : forall d s nr, gen_len_NumberedProtocolDataUnit = pdu_len (RR d s nr).
Proof. intros d s nr. exact (bridge_len (RR d s nr)). Qed.
Print Assumptions C11_bridge_len_rr.
Theorem C11_bridge_len_rnr : forall d s nr, gen_len_NumberedProtocolDataUnit = pdu_len (RNR d s nr).
Proof. intros d s nr. exact (bridge_len (RNR d s nr)). Qed.
Print Assumptions C11_bridge_len_rnr.
Theorem C11_bridge_len_unknown : forall pt d s payload, gen_len_UnknownProtocolDataUnit payload = pdu_len (Unknown pt d s payload).
Proof. intros pt d s payload. exact (bridge_len (Unknown pt d s payload)). Qed.
Print Assumptions C11_bridge_len_unknown.


(* --- tie, round 2: the codec kernels regenerated from pdu.py on this run (Gen/PduK.v: header bit packing, the
       parameter codec with its length limits and reserved-bit masks, the size tests of decode() and of
       AggregatedFrame.decode incl. the nested-AGF guard, the Connect/CC encode tests and defaults, FRMR packing)
       are the expressions / functions of Model/Pdu.v.  MIUX test and mask: C10's kernels in Gen/CollectK.v --- *)
Theorem C11_bridge_encode_header pt d s :
  encode_header pt d s =
  if gen_pdu_hdr_neg d s then EEncodeError else if gen_pdu_hdr_big d s then EEncodeError
  else if in_range 0 65535 (gen_pdu_hdr_value d pt s) then EOk (gen_pdu_hdr_bytes d pt s) else ECrash StructErr.
Proof. exact (bridge_encode_header pt d s). Qed.
Print Assumptions C11_bridge_encode_header.
Theorem C11_bridge_encode_nheader pt d s ns nr :
  encode_nheader pt d s ns nr =
  edo h <- encode_header pt d s;
  if gen_pdu_seq_neg ns nr then EEncodeError else if gen_pdu_seq_big ns nr then EEncodeError
  else EOk (h ++ gen_pdu_seq_bytes ns nr).
Proof. exact (bridge_encode_nheader pt d s ns nr). Qed.
Print Assumptions C11_bridge_encode_nheader.
Theorem C11_bridge_decode_header data off size a b :
 rd data off = Some a -> rd data (off + 1) = Some b ->
  decode_header data off size =
  if gen_pdu_hdr_short size gen_pdu_hdr_size then Err DecodeError
  else Ok (gen_pdu_hdr_field0 data off, gen_pdu_hdr_field1 data off).
Proof. exact (bridge_decode_header data off size a b). Qed.
Print Assumptions C11_bridge_decode_header.
Theorem C11_bridge_decode_nheader data off size a b q :
  rd data off = Some a -> rd data (off + 1) = Some b -> rd data (off + 2) = Some q ->
  decode_nheader data off size =
  if gen_pdu_nhdr_short size gen_pdu_nhdr_size then Err DecodeError
  else Ok (gen_pdu_nhdr_field0 data off, gen_pdu_nhdr_field1 data off, gen_pdu_nhdr_field2 data off, gen_pdu_nhdr_field3 data off).
Proof. exact (bridge_decode_nheader data off size a b q). Qed.
Print Assumptions C11_bridge_decode_nheader.
Theorem C11_bridge_penc_types :
  gen_pdu_penc_u8_types = [gen_pdu_T_VERSION; gen_pdu_T_LTO; gen_pdu_T_RW; gen_pdu_T_OPT] /\
  gen_pdu_penc_u16_types = [gen_pdu_T_MIUX; gen_pdu_T_WKS] /\
  gen_pdu_penc_bytes_types = [gen_pdu_T_SN; gen_pdu_T_ECPK; gen_pdu_T_RN] /\
  [gen_pdu_T_VERSION; gen_pdu_T_MIUX; gen_pdu_T_WKS; gen_pdu_T_LTO; gen_pdu_T_RW; gen_pdu_T_SN; gen_pdu_T_OPT;
   gen_pdu_T_SDREQ; gen_pdu_T_SDRES; gen_pdu_T_ECPK; gen_pdu_T_RN] = [1; 2; 3; 4; 5; 6; 7; 8; 9; 10; 11].
Proof. exact (bridge_penc_types). Qed.
Print Assumptions C11_bridge_penc_types.
Theorem C11_bridge_param_encode t :
  param_encode t =
  match t with
  | TVersion v => if in_range 0 255 v then EOk (gen_pdu_penc_u8 gen_pdu_T_VERSION v) else EEncodeError
  | TMiux v => if in_range 0 65535 v then EOk (gen_pdu_penc_u16 gen_pdu_T_MIUX v) else EEncodeError
  | TWks v => if in_range 0 65535 v then EOk (gen_pdu_penc_u16 gen_pdu_T_WKS v) else EEncodeError
  | TLto v => if in_range 0 255 v then EOk (gen_pdu_penc_u8 gen_pdu_T_LTO v) else EEncodeError
  | TRw v => if in_range 0 255 v then EOk (gen_pdu_penc_u8 gen_pdu_T_RW v) else EEncodeError
  | TSn b => if gen_pdu_penc_bytes_long b then EEncodeError else EOk (gen_pdu_penc_bytes gen_pdu_T_SN b)
  | TOpt v => if in_range 0 255 v then EOk (gen_pdu_penc_u8 gen_pdu_T_OPT v) else EEncodeError
  | TSdreq tid sn => if gen_pdu_penc_sdreq_long sn then EEncodeError
                     else if in_range 0 255 tid then EOk (gen_pdu_penc_sdreq gen_pdu_T_SDREQ tid sn) else EEncodeError
  | TSdres tid sap => if in_range 0 255 tid && in_range 0 255 sap
                      then EOk (gen_pdu_penc_sdres gen_pdu_T_SDRES tid sap) else EEncodeError
  | TEcpk b => if gen_pdu_penc_bytes_long b then EEncodeError else EOk (gen_pdu_penc_bytes gen_pdu_T_ECPK b)
  | TRn b => if gen_pdu_penc_bytes_long b then EEncodeError else EOk (gen_pdu_penc_bytes gen_pdu_T_RN b)
  | TOther _ _ => EEncodeError
  end.
Proof. exact (bridge_param_encode t). Qed.
Print Assumptions C11_bridge_param_encode.
Theorem C11_bridge_param_decode data off size T L :
 rd data off = Some T -> rd data (off + 1) = Some L ->
  param_decode data off size =
  if off + 2 + L >? len data then Err DecodeError
  else if gen_pdu_pdec_exceeds L size then Err DecodeError
  else do t <- tlv_interp T L (slice data (off + 2) (off + 2 + L)); Ok (L, t).
Proof. exact (bridge_param_decode data off size T L). Qed.
Print Assumptions C11_bridge_param_decode.
Theorem C11_bridge_pdec_version L v :
  tlv_interp gen_pdu_T_VERSION L [v] =
  if gen_pdu_pdec_VERSION_badlen L then Err DecodeError else Ok (TVersion (gen_pdu_pdec_VERSION_raw [v])).
Proof. exact (bridge_pdec_version L v). Qed.
Print Assumptions C11_bridge_pdec_version.
Theorem C11_bridge_pdec_lto L v :
  tlv_interp gen_pdu_T_LTO L [v] =
  if gen_pdu_pdec_LTO_badlen L then Err DecodeError else Ok (TLto (gen_pdu_pdec_LTO_raw [v])).
Proof. exact (bridge_pdec_lto L v). Qed.
Print Assumptions C11_bridge_pdec_lto.
Theorem C11_bridge_pdec_wks L a b :
  tlv_interp gen_pdu_T_WKS L [a; b] =
  if gen_pdu_pdec_WKS_badlen L then Err DecodeError else Ok (TWks (gen_pdu_pdec_WKS_raw [a; b])).
Proof. exact (bridge_pdec_wks L a b). Qed.
Print Assumptions C11_bridge_pdec_wks.
Theorem C11_bridge_pdec_miux L a b :
 0 <= a < 256 -> 0 <= b < 256 ->
  tlv_interp gen_pdu_T_MIUX L [a; b] =
  if gen_pdu_pdec_MIUX_badlen L then Err DecodeError
  else Ok (TMiux (let V := gen_pdu_pdec_MIUX_raw [a; b] in
                  if negb (gen_c10_miux_reserved V =? 0) then gen_c10_miux_masked V else V)).
Proof. exact (bridge_pdec_miux L a b). Qed.
Print Assumptions C11_bridge_pdec_miux.
Theorem C11_bridge_pdec_rw L v :
 0 <= v < 256 ->
  tlv_interp gen_pdu_T_RW L [v] =
  if gen_pdu_pdec_RW_badlen L then Err DecodeError
  else Ok (TRw (let V := gen_pdu_pdec_RW_raw [v] in
                if negb (gen_pdu_pdec_RW_reserved V =? 0) then gen_pdu_pdec_RW_masked V else V)).
Proof. exact (bridge_pdec_rw L v). Qed.
Print Assumptions C11_bridge_pdec_rw.
Theorem C11_bridge_pdec_opt L v :
 0 <= v < 256 ->
  tlv_interp gen_pdu_T_OPT L [v] =
  if gen_pdu_pdec_OPT_badlen L then Err DecodeError
  else Ok (TOpt (let V := gen_pdu_pdec_OPT_raw [v] in
                 if negb (gen_pdu_pdec_OPT_reserved V =? 0) then gen_pdu_pdec_OPT_masked V else V)).
Proof. exact (bridge_pdec_opt L v). Qed.
Print Assumptions C11_bridge_pdec_opt.
Theorem C11_bridge_pdec_sdreq L tid sn :
  tlv_interp gen_pdu_T_SDREQ L (tid :: sn) = if gen_pdu_pdec_SDREQ_badlen L then Err DecodeError else Ok (TSdreq tid sn).
Proof. exact (bridge_pdec_sdreq L tid sn). Qed.
Print Assumptions C11_bridge_pdec_sdreq.
Theorem C11_bridge_pdec_sdres L a b :
  tlv_interp gen_pdu_T_SDRES L [a; b] = if gen_pdu_pdec_SDRES_badlen L then Err DecodeError else Ok (TSdres a b).
Proof. exact (bridge_pdec_sdres L a b). Qed.
Print Assumptions C11_bridge_pdec_sdres.
Theorem C11_bridge_pdec_bytes L V :
  tlv_interp gen_pdu_T_SN L V = Ok (TSn V) /\ tlv_interp gen_pdu_T_ECPK L V = Ok (TEcpk V) /\
  tlv_interp gen_pdu_T_RN L V = Ok (TRn V).
Proof. exact (bridge_pdec_bytes L V). Qed.
Print Assumptions C11_bridge_pdec_bytes.
Theorem C11_bridge_tlv_loop_step f step data off size st :
  tlv_loop (S f) step data off size st =
  if negb (gen_pdu_tlv_more size) then Ok st else
  do (L, t) <- param_decode data off size;
  tlv_loop f step data (gen_pdu_tlv_next_offset off L) (gen_pdu_tlv_next_size size L) (step st t).
Proof. exact (bridge_tlv_loop_step f step data off size st). Qed.
Print Assumptions C11_bridge_tlv_loop_step.
Theorem C11_bridge_decode_guard agf data off size :
  decode_gen agf data off size =
  if gen_pdu_dec_exceeds data off size then Err DecodeError
  else if gen_pdu_dec_short size then Err DecodeError else decode_gen agf data off size.
Proof. exact (bridge_decode_guard agf data off size). Qed.
Print Assumptions C11_bridge_decode_guard.
Theorem C11_bridge_decode_ptype data off a b :
 rd data off = Some a -> rd data (off + 1) = Some b ->
  gen_pdu_dec_ptype data off = Z.land (Z.shiftr (a * 256 + b) 6) 15.
Proof. exact (bridge_decode_ptype data off a b). Qed.
Print Assumptions C11_bridge_decode_ptype.
Theorem C11_bridge_type_map :
  gen_pdu_type_map =
  [(gen_pdu_ptype_Symmetry, 0); (gen_pdu_ptype_ParameterExchange, 1); (gen_pdu_ptype_AggregatedFrame, 2);
   (gen_pdu_ptype_UnnumberedInformation, 3); (gen_pdu_ptype_Connect, 4); (gen_pdu_ptype_Disconnect, 5);
   (gen_pdu_ptype_ConnectionComplete, 6); (gen_pdu_ptype_DisconnectedMode, 7); (gen_pdu_ptype_FrameReject, 8);
   (gen_pdu_ptype_ServiceNameLookup, 9); (gen_pdu_ptype_DataProtectionSetup, 10); (gen_pdu_ptype_Information, 11);
   (gen_pdu_ptype_ReceiveReady, 12); (gen_pdu_ptype_ReceiveNotReady, 13)] /\
  map fst gen_pdu_type_map = [0; 1; 2; 3; 4; 5; 6; 7; 8; 9; 10; 12; 13; 14].
Proof. exact (bridge_type_map). Qed.
Print Assumptions C11_bridge_type_map.
Theorem C11_bridge_unknown_ptype data off a b :
 rd data off = Some a -> rd data (off + 1) = Some b ->
  gen_pdu_unknown_ptype data off = Z.land (Z.lor (Z.shiftl a 2) (Z.shiftr b 6)) 15.
Proof. exact (bridge_unknown_ptype data off a b). Qed.
Print Assumptions C11_bridge_unknown_ptype.
Theorem C11_bridge_payloads data off size :
 0 <= off -> 0 <= off + size ->
  gen_pdu_ui_payload data off size = slice data (off + 2) (off + size) /\
  gen_pdu_info_payload data off size = slice data (off + 3) (off + size) /\
  gen_pdu_unknown_payload data off size = slice data (off + 2) (off + size).
Proof. exact (bridge_payloads data off size). Qed.
Print Assumptions C11_bridge_payloads.
Theorem C11_bridge_agf_step f data off size acc :
  agf_loop (S f) data off size acc =
  if negb (gen_pdu_agf_more size) then Ok acc else
  if gen_pdu_agf_lenshort size then Err DecodeError else
  match rd data off, rd data (off + 1) with
  | Some _, Some _ =>
      let n := gen_pdu_agf_len data off in
      if gen_pdu_agf_exceeds n size then Err DecodeError else
      do p <- decode_sub data (off + 2) n;
      agf_loop f data (gen_pdu_agf_next_offset off n) (gen_pdu_agf_next_size size n) (acc ++ [p])
  | _, _ => Err DecodeError
  end.
Proof. exact (bridge_agf_step f data off size acc). Qed.
Print Assumptions C11_bridge_agf_step.
Theorem C11_bridge_agf_member data moff n :
 0 <= moff ->
  decode_sub data moff n =
  if gen_pdu_agf_guard n && gen_pdu_agf_is_agf data moff then Err DecodeError else decode data moff n.
Proof. exact (bridge_agf_member data moff n). Qed.
Print Assumptions C11_bridge_agf_member.
Theorem C11_bridge_agf_tests n size off :
  gen_pdu_agf_exceeds n size = (n >? size - 2) /\ gen_pdu_agf_next_offset off n = off + 2 + n /\
  gen_pdu_agf_next_size size n = size - 2 - n /\ (forall d s, gen_pdu_agf_nonzero d s = negb (d =? 0) || negb (s =? 0)).
Proof. exact (bridge_agf_tests n size off). Qed.
Print Assumptions C11_bridge_agf_tests.
Theorem C11_bridge_agf_frame e :
 0 <= len e <= 65535 -> agf_body [e] = EOk (gen_pdu_agf_frame e).
Proof. exact (bridge_agf_frame e). Qed.
Print Assumptions C11_bridge_agf_frame.
Theorem C11_bridge_class_tests d s size :
  gen_pdu_symm_badsap d s = negb (d =? 0) || negb (s =? 0) /\ gen_pdu_symm_payload size = (size >=? 3) /\
  gen_pdu_pax_badsap d s = negb (d =? 0) || negb (s =? 0) /\ gen_pdu_snl_badsap d s = negb (d =? 1) || negb (s =? 1) /\
  gen_pdu_dps_badsap d s = negb (d =? 0) || negb (s =? 0) /\
  gen_pdu_symm_enc_badsap d s = negb (d =? 0) || negb (s =? 0) /\ gen_pdu_pax_enc_badsap d s = negb (d =? 0) || negb (s =? 0) /\
  gen_pdu_dps_enc_badsap d s = negb (d =? 0) || negb (s =? 0) /\ gen_pdu_agf_enc_nonzero d s = negb (d =? 0) || negb (s =? 0) /\
  gen_pdu_dm_badsize size = negb (size =? 3) /\ gen_pdu_frmr_badsize size = negb (size =? 6).
Proof. exact (bridge_class_tests d s size). Qed.
Print Assumptions C11_bridge_class_tests.
Theorem C11_bridge_symm data off size :
  dec_symm data off size =
  do (dsap, ssap) <- decode_header data off size;
  if gen_pdu_symm_badsap dsap ssap then Err DecodeError else
  if gen_pdu_symm_payload size then Err DecodeError else Ok (Symm dsap ssap).
Proof. exact (bridge_symm data off size). Qed.
Print Assumptions C11_bridge_symm.
Theorem C11_bridge_connect_encode d s miu rw sn :
  encode (Connect d s miu rw sn) =
  edo h <- encode_header gen_pdu_ptype_Connect d s;
  edo a <- (if gen_pdu_connect_enc_miux miu then param_encode (TMiux (gen_pdu_connect_enc_miux_arg miu)) else EOk []);
  edo b <- (if gen_pdu_connect_enc_rw rw then param_encode (TRw rw) else EOk []);
  edo c <- (if gen_pdu_connect_enc_sn sn then param_encode (TSn (match sn with Some x => x | None => [] end)) else EOk []);
  EOk (h ++ a ++ b ++ c).
Proof. exact (bridge_connect_encode d s miu rw sn). Qed.
Print Assumptions C11_bridge_connect_encode.
Theorem C11_bridge_cc_encode d s miu rw :
  encode (CC d s miu rw) =
  edo h <- encode_header gen_pdu_ptype_ConnectionComplete d s;
  edo a <- (if gen_pdu_cc_enc_miux miu then param_encode (TMiux (gen_pdu_cc_enc_miux_arg miu)) else EOk []);
  edo b <- (if gen_pdu_cc_enc_rw rw then param_encode (TRw rw) else EOk []);
  EOk (h ++ a ++ b).
Proof. exact (bridge_cc_encode d s miu rw). Qed.
Print Assumptions C11_bridge_cc_encode.
Theorem C11_bridge_connect_decode data off size d s miu rw sn x :
  dec_connect data off size =
    (do (dsap, ssap) <- decode_header data off size;
     tlv_loop (Z.to_nat (size - 2)) connect_step data (off + 2) (size - 2)
       (Connect dsap ssap gen_pdu_connect_default_miu gen_pdu_connect_default_rw None)) /\
  dec_cc data off size =
    (do (dsap, ssap) <- decode_header data off size;
     tlv_loop (Z.to_nat (size - 2)) cc_step data (off + 2) (size - 2)
       (CC dsap ssap gen_pdu_cc_default_miu gen_pdu_cc_default_rw)) /\
  connect_step (Connect d s miu rw sn) (TMiux x) = Connect d s (gen_pdu_connect_dec_miu x) rw sn /\
  cc_step (CC d s miu rw) (TMiux x) = CC d s (gen_pdu_cc_dec_miu x) rw.
Proof. exact (bridge_connect_decode data off size d s miu rw sn x). Qed.
Print Assumptions C11_bridge_connect_decode.
Theorem C11_bridge_frmr_encode d s fl pt ns nr vs vr vsa vra :
  encode (Frmr d s fl pt ns nr vs vr vsa vra) =
  edo h <- encode_header gen_pdu_ptype_FrameReject d s;
  if forallb (in_range 0 255) (gen_pdu_frmr_bytes fl pt ns nr vs vr vsa vra)
  then EOk (h ++ gen_pdu_frmr_bytes fl pt ns nr vs vr vsa vra) else ECrash StructErr.
Proof. exact (bridge_frmr_encode d s fl pt ns nr vs vr vsa vra). Qed.
Print Assumptions C11_bridge_frmr_encode.
Theorem C11_bridge_frmr_nibbles b :
 gen_pdu_frmr_hi b = Z.shiftr b 4 /\ gen_pdu_frmr_lo b = Z.land b 15.
Proof. exact (bridge_frmr_nibbles b). Qed.
Print Assumptions C11_bridge_frmr_nibbles.


(* --- tie, round 3: WHOLE functions.  Every decode classmethod, every encode method, decode_header / encode_header,
       Parameter.decode / Parameter.encode and the module-level decode() of pdu.py, translated statement by statement on
       this run (Gen/PduF.v), are the functions of Model/Pdu.v: the theorems above are about the translated source text.
       Hypotheses: offset >= 0, byte strings; offset + size >= 0 where a payload slice is taken; for the AGF classmethod
       called on its own, offset + size <= len data (decode() checks that before it dispatches) --- *)
Theorem C11_bridge_decode_header_f data off size :
  gen_decode_header data off size = decode_header data off size.
Proof. exact (Bridge.PduF.bridge_decode_header_f data off size). Qed.
Print Assumptions C11_bridge_decode_header_f.
Theorem C11_bridge_decode_nheader_f data off size :
  gen_decode_nheader data off size = decode_nheader data off size.
Proof. exact (Bridge.PduF.bridge_decode_nheader_f data off size). Qed.
Print Assumptions C11_bridge_decode_nheader_f.
Theorem C11_bridge_encode_header_f pt d s :
  gen_encode_header pt d s = encode_header pt d s.
Proof. exact (Bridge.PduF.bridge_encode_header_f pt d s). Qed.
Print Assumptions C11_bridge_encode_header_f.
Theorem C11_bridge_encode_nheader_f pt d s ns nr :
  gen_encode_nheader pt d s ns nr = encode_nheader pt d s ns nr.
Proof. exact (Bridge.PduF.bridge_encode_nheader_f pt d s ns nr). Qed.
Print Assumptions C11_bridge_encode_nheader_f.
Theorem C11_bridge_param_encode_f t :
  gen_param_encode t = param_encode t.
Proof. exact (Bridge.PduF.bridge_param_encode_f t). Qed.
Print Assumptions C11_bridge_param_encode_f.
Theorem C11_bridge_param_decode_f data off size :
  bytes_ok data ->
  gen_param_decode data off size = do (L, t) <- param_decode data off size; Ok (rd0 data off, L, t).
Proof. exact (Bridge.PduF.bridge_param_decode_f data off size). Qed.
Print Assumptions C11_bridge_param_decode_f.
Theorem C11_bridge_decode_Symmetry data off size :
  gen_decode_Symmetry data off size = dec_symm data off size.
Proof. exact (Bridge.PduF.bridge_decode_Symmetry data off size). Qed.
Print Assumptions C11_bridge_decode_Symmetry.
Theorem C11_bridge_decode_ParameterExchange data off size :
  bytes_ok data ->
  gen_decode_ParameterExchange data off size = dec_pax data off size.
Proof. exact (Bridge.PduF.bridge_decode_ParameterExchange data off size). Qed.
Print Assumptions C11_bridge_decode_ParameterExchange.
Theorem C11_bridge_decode_Connect data off size :
  bytes_ok data -> gen_decode_Connect data off size = dec_connect data off size.
Proof. exact (Bridge.PduF.bridge_decode_Connect data off size). Qed.
Print Assumptions C11_bridge_decode_Connect.
Theorem C11_bridge_decode_ConnectionComplete data off size :
  bytes_ok data ->
  gen_decode_ConnectionComplete data off size = dec_cc data off size.
Proof. exact (Bridge.PduF.bridge_decode_ConnectionComplete data off size). Qed.
Print Assumptions C11_bridge_decode_ConnectionComplete.
Theorem C11_bridge_decode_ServiceNameLookup data off size :
  bytes_ok data ->
  gen_decode_ServiceNameLookup data off size = dec_snl data off size.
Proof. exact (Bridge.PduF.bridge_decode_ServiceNameLookup data off size). Qed.
Print Assumptions C11_bridge_decode_ServiceNameLookup.
Theorem C11_bridge_decode_DataProtectionSetup data off size :
  bytes_ok data ->
  gen_decode_DataProtectionSetup data off size = dec_dps data off size.
Proof. exact (Bridge.PduF.bridge_decode_DataProtectionSetup data off size). Qed.
Print Assumptions C11_bridge_decode_DataProtectionSetup.
Theorem C11_bridge_decode_UnnumberedInformation data off size :
  0 <= off -> 0 <= off + size ->
  gen_decode_UnnumberedInformation data off size = dec_ui data off size.
Proof. exact (Bridge.PduF.bridge_decode_UnnumberedInformation data off size). Qed.
Print Assumptions C11_bridge_decode_UnnumberedInformation.
Theorem C11_bridge_decode_Disconnect data off size :
  gen_decode_Disconnect data off size = dec_disc data off size.
Proof. exact (Bridge.PduF.bridge_decode_Disconnect data off size). Qed.
Print Assumptions C11_bridge_decode_Disconnect.
Theorem C11_bridge_decode_DisconnectedMode data off size :
  gen_decode_DisconnectedMode data off size = dec_dm data off size.
Proof. exact (Bridge.PduF.bridge_decode_DisconnectedMode data off size). Qed.
Print Assumptions C11_bridge_decode_DisconnectedMode.
Theorem C11_bridge_decode_FrameReject data off size :
  gen_decode_FrameReject data off size = dec_frmr data off size.
Proof. exact (Bridge.PduF.bridge_decode_FrameReject data off size). Qed.
Print Assumptions C11_bridge_decode_FrameReject.
Theorem C11_bridge_decode_Information data off size :
  0 <= off -> 0 <= off + size ->
  gen_decode_Information data off size = dec_info data off size.
Proof. exact (Bridge.PduF.bridge_decode_Information data off size). Qed.
Print Assumptions C11_bridge_decode_Information.
Theorem C11_bridge_decode_ReceiveReady data off size :
  gen_decode_ReceiveReady data off size = dec_rr data off size.
Proof. exact (Bridge.PduF.bridge_decode_ReceiveReady data off size). Qed.
Print Assumptions C11_bridge_decode_ReceiveReady.
Theorem C11_bridge_decode_ReceiveNotReady data off size :
  gen_decode_ReceiveNotReady data off size = dec_rnr data off size.
Proof. exact (Bridge.PduF.bridge_decode_ReceiveNotReady data off size). Qed.
Print Assumptions C11_bridge_decode_ReceiveNotReady.
Theorem C11_bridge_decode_UnknownProtocolDataUnit data off size :
  0 <= off -> 0 <= off + size ->
  gen_decode_UnknownProtocolDataUnit data off size = dec_unknown data off size.
Proof. exact (Bridge.PduF.bridge_decode_UnknownProtocolDataUnit data off size). Qed.
Print Assumptions C11_bridge_decode_UnknownProtocolDataUnit.
Theorem C11_bridge_decode_AggregatedFrame_with dec data off size :
  0 <= off -> bytes_ok data -> off + size <= len data ->
  member_dec_ok dec data -> gen_decode_AggregatedFrame_with dec data off size = dec_agf data off size.
Proof. exact (Bridge.PduF.bridge_decode_AggregatedFrame_with dec data off size). Qed.
Print Assumptions C11_bridge_decode_AggregatedFrame_with.
Theorem C11_bridge_decode_fuel d data off size :
  0 <= off -> bytes_ok data ->
  gen_decode_fuel (S (S d)) data off size = decode data off size.
Proof. exact (Bridge.PduF.bridge_decode_fuel d data off size). Qed.
Print Assumptions C11_bridge_decode_fuel.
Theorem C11_bridge_decode data off size :
  0 <= off -> bytes_ok data -> gen_decode data off size = decode data off size.
Proof. exact (Bridge.PduF.bridge_decode data off size). Qed.
Print Assumptions C11_bridge_decode.
Theorem C11_bridge_decode_AggregatedFrame data off size :
  0 <= off -> bytes_ok data -> off + size <= len data ->
  gen_decode_AggregatedFrame data off size = dec_agf data off size.
Proof. exact (Bridge.PduF.bridge_decode_AggregatedFrame data off size). Qed.
Print Assumptions C11_bridge_decode_AggregatedFrame.
Theorem C11_bridge_encode : forall p, Gen.PduF.gen_encode p = encode p.
Proof. exact Bridge.PduF.bridge_encode. Qed.
Print Assumptions C11_bridge_encode.
Theorem C11_bridge_encode_Symmetry d s :
  gen_encode (Symm d s) = encode (Symm d s).
Proof. apply Bridge.PduF.bridge_encode. Qed.
Print Assumptions C11_bridge_encode_Symmetry.
Theorem C11_bridge_encode_ParameterExchange d s v m w l o :
  gen_encode (Pax d s v m w l o) = encode (Pax d s v m w l o).
Proof. apply Bridge.PduF.bridge_encode. Qed.
Print Assumptions C11_bridge_encode_ParameterExchange.
Theorem C11_bridge_encode_AggregatedFrame d s ps :
  gen_encode (Agf d s ps) = encode (Agf d s ps).
Proof. apply Bridge.PduF.bridge_encode. Qed.
Print Assumptions C11_bridge_encode_AggregatedFrame.
Theorem C11_bridge_encode_UnnumberedInformation d s b :
  gen_encode (UI d s b) = encode (UI d s b).
Proof. apply Bridge.PduF.bridge_encode. Qed.
Print Assumptions C11_bridge_encode_UnnumberedInformation.
Theorem C11_bridge_encode_Connect d s miu rw sn :
  gen_encode (Connect d s miu rw sn) = encode (Connect d s miu rw sn).
Proof. apply Bridge.PduF.bridge_encode. Qed.
Print Assumptions C11_bridge_encode_Connect.
Theorem C11_bridge_encode_Disconnect d s :
  gen_encode (Disc d s) = encode (Disc d s).
Proof. apply Bridge.PduF.bridge_encode. Qed.
Print Assumptions C11_bridge_encode_Disconnect.
Theorem C11_bridge_encode_ConnectionComplete d s miu rw :
  gen_encode (CC d s miu rw) = encode (CC d s miu rw).
Proof. apply Bridge.PduF.bridge_encode. Qed.
Print Assumptions C11_bridge_encode_ConnectionComplete.
Theorem C11_bridge_encode_DisconnectedMode d s r :
  gen_encode (DM d s r) = encode (DM d s r).
Proof. apply Bridge.PduF.bridge_encode. Qed.
Print Assumptions C11_bridge_encode_DisconnectedMode.
Theorem C11_bridge_encode_FrameReject d s a b c e f g h i :
  gen_encode (Frmr d s a b c e f g h i) = encode (Frmr d s a b c e f g h i).
Proof. apply Bridge.PduF.bridge_encode. Qed.
Print Assumptions C11_bridge_encode_FrameReject.
Theorem C11_bridge_encode_ServiceNameLookup d s rq rs :
  gen_encode (Snl d s rq rs) = encode (Snl d s rq rs).
Proof. apply Bridge.PduF.bridge_encode. Qed.
Print Assumptions C11_bridge_encode_ServiceNameLookup.
Theorem C11_bridge_encode_DataProtectionSetup d s e r :
  gen_encode (Dps d s e r) = encode (Dps d s e r).
Proof. apply Bridge.PduF.bridge_encode. Qed.
Print Assumptions C11_bridge_encode_DataProtectionSetup.
Theorem C11_bridge_encode_Information d s ns nr b :
  gen_encode (Info d s ns nr b) = encode (Info d s ns nr b).
Proof. apply Bridge.PduF.bridge_encode. Qed.
Print Assumptions C11_bridge_encode_Information.
Theorem C11_bridge_encode_ReceiveReady d s nr :
  gen_encode (RR d s nr) = encode (RR d s nr).
Proof. apply Bridge.PduF.bridge_encode. Qed.
Print Assumptions C11_bridge_encode_ReceiveReady.
Theorem C11_bridge_encode_ReceiveNotReady d s nr :
  gen_encode (RNR d s nr) = encode (RNR d s nr).
Proof. apply Bridge.PduF.bridge_encode. Qed.
Print Assumptions C11_bridge_encode_ReceiveNotReady.
Theorem C11_bridge_encode_UnknownProtocolDataUnit pt d s b :
  gen_encode (Unknown pt d s b) = encode (Unknown pt d s b).
Proof. apply Bridge.PduF.bridge_encode. Qed.
Print Assumptions C11_bridge_encode_UnknownProtocolDataUnit.

(* non-vacuity: concrete PDUs / byte strings meeting the hypotheses, including RW = 0 and the former over-reads *)
Example C11_nonvacuous :
  valid (Connect 4 32 128 0 None) /\ encode (Connect 4 32 128 0 None) = EOk [17; 32; 5; 1; 0] /\
  decode [17; 32; 5; 1; 0] 0 5 = Ok (Connect 4 32 128 0 None) /\ pdu_len (Connect 4 32 128 0 None) = 5 /\
  valid (Agf 0 0 [CC 4 32 2175 0; UI 1 2 [65; 66]; Snl 1 1 [(3, [65])] [(1, 16)]]) /\
  decode [0; 128; 0; 4; 17; 32; 6; 5; 0; 5; 12; 193; 65; 66; 67] 0 15 = Err DecodeError /\   (* TLV reaching into the next member *)
  decode [17; 32; 6; 5; 65; 66; 67; 68; 69] 0 4 = Err DecodeError /\                          (* TLV reaching beyond size *)
  decode [0; 128; 0; 5; 12; 193; 88; 89; 90] 0 6 = Err DecodeError /\                         (* member longer than the AGF *)
  decode [0; 128; 0; 4; 0; 128; 0; 0] 0 8 = Err DecodeError /\                                (* AGF inside AGF *)
  decode [0; 128; 0; 2; 0; 0; 0; 3; 12; 193; 65] 0 11 = Ok (Agf 0 0 [Symm 0 0; UI 3 1 [65]]).
Proof. vm_compute. repeat split. Qed.

(* --- soundness against the independent reading of the LLCP frame formats (Model/PduSpec.v: header fields by
       division, information field as a sequence of T-L-V parameters, every field = value of the LAST parameter of
       its type with reserved bits ignored, defaults MIU 128 / RW 1, aggregate = length-prefixed non-aggregates):
       whatever decode returns is what that reading assigns to the PDU's own bytes --- *)
Theorem C11_decode_sound : forall data off size p, 0 <= off -> bytes_ok data ->
  decode data off size = Ok p -> Model.PduSpec.denotes (slice data off (off + size)) p.
Proof. exact Proofs.PduSound.decode_sound. Qed.
Print Assumptions C11_decode_sound.
