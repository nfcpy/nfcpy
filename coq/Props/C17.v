(* C17 - LLCP addressing: binding, discovery and delivery reach the right socket.
   Only statements here; proofs are in Proofs/Addr.v, AddrInv.v, AddrStep.v, AddrThm.v, AddrMain.v.

   [reach blk ops sd] is the state of controller [sd] after ANY sequence [ops] of
   socket/bind/listen/accept/connect/sendto/rawsend/recvfrom/setsockopt/resolve/close calls on the two
   controllers and PDU transfers between them (Model/Addr.v: exec = fold_left step; histories that
   continue after a crashed call are included), for either version [blk] of DataLinkConnection.enqueue
   (c_enq_blocks: before / after fixes/c07-7; the harness tells the model which one the source is).  Abstract table: [bound_set c a] (sockets bound at a),
   [name_addr c n] (address a service name is bound to). *)
From Coq Require Import ZArith List Bool Permutation.
From NV Require Import Base.Result Base.Bytes Base.PyPrims Model.Addr Proofs.Addr Proofs.AddrInv Proofs.AddrStep
  Proofs.AddrThm Proofs.AddrMain Proofs.AddrDgram Gen.AddrK Bridge.Addr.
Import ListNotations.
Open Scope Z_scope.

(* --- bind_unique: a socket is bound to at most one SAP, once; the table and getsockname agree; an open
       bound socket is in the table; two names never share an address; a named address is in use --- *)
Theorem C17_bind_unique : forall blk ops sd,
  let c := get_side (exec blk ops) sd in
  (forall a b i, In i (bound_set c a) -> In i (bound_set c b) -> a = b) /\
  (forall a, NoDup (bound_set c a)) /\
  (forall a i, In i (bound_set c a) -> exists s, get_sock c i = Some s /\ s_addr s = Some a) /\
  (forall i s a, get_sock c i = Some s -> s_addr s = Some a -> s_state s <> StShutdown -> In i (bound_set c a)) /\
  (forall n1 n2 a, 2 <= a -> name_addr c n1 = Some a -> name_addr c n2 = Some a -> n1 = n2) /\
  (forall n a, name_addr c n = Some a -> 2 <= a -> bound_set c a <> []).
Proof. exact (fun blk ops sd => bind_unique_state _ (reach_wf blk ops sd)). Qed.
Print Assumptions C17_bind_unique.

(* ... in every step of every history an existing socket keeps its address, or gets one that no socket was bound to *)
Theorem C17_bind_unique_step : forall blk ops o sd,
  let c := get_side (exec blk ops) sd in
  let c' := get_side (exec blk (ops ++ [o])) sd in
  forall j sj, get_sock c j = Some sj -> exists sj', get_sock c' j = Some sj' /\
    (s_addr sj' = s_addr sj \/
     (s_addr sj = None /\ exists a, s_addr sj' = Some a /\ 2 <= a < 64 /\ bound_set c a = [])).
Proof. intros blk ops o sd. rewrite exec_app. exact (bind_unique_step _ o sd (exec_wf2 blk ops)). Qed.
Print Assumptions C17_bind_unique_step.

Theorem C17_bind_twice : forall blk ops sd i s a arg, get_sock (reach blk ops sd) i = Some s -> s_addr s = Some a ->
  do_bind (reach blk ops sd) i arg = (reach blk ops sd, Err (LlcpError EINVAL)).
Proof. exact (fun blk ops sd => bind_twice _). Qed.
Print Assumptions C17_bind_twice.

(* --- bind_ranges: outcome of bind() on an unbound socket in any reachable state (AddrMain.bind_outcome):
       anonymous -> least free address of 32..63 or EAGAIN; integer -> EFAULT out of 0..63, the address if free
       (32..63, or any for a raw access point) else EADDRINUSE, EACCES for 0..31 on ordinary sockets;
       name -> EFAULT if malformed, EADDRINUSE if the name is bound, well-known name -> its fixed address 4 if
       free else EADDRINUSE, other names -> least free address of 16..31 (else EADDRNOTAVAIL, see below) --- *)
Theorem C17_bind_ranges : forall blk ops sd i s arg c' r,
  get_sock (reach blk ops sd) i = Some s -> s_addr s = None -> do_bind (reach blk ops sd) i arg = (c', r) ->
  bind_outcome (reach blk ops sd) i s arg c' r.
Proof. exact (fun blk ops sd => bind_spec _ (reach_wf blk ops sd)). Qed.
Print Assumptions C17_bind_ranges.

(* the full statement "a failing bind has errno EADDRINUSE, EACCES, EFAULT or EAGAIN" is false of the code:
   exhaustion of the 16 named addresses raises EADDRNOTAVAIL (tests/test_llcp_llc.py pins that value) *)
Theorem C17_bind_errno_refuted :
  exists blk ops sd i s n, get_sock (reach blk ops sd) i = Some s /\ s_addr s = None /\ name_valid n = true /\
    snd (do_bind (reach blk ops sd) i (BName n)) = Err (LlcpError EADDRNOTAVAIL) /\ ~ documented EADDRNOTAVAIL.
Proof. exact bind_errno_undocumented. Qed.
Print Assumptions C17_bind_errno_refuted.
(* strongest true statement: documented errno for every failing bind except exactly that input class *)
Theorem C17_bind_errno_partial : forall blk ops sd i s arg c' e,
  get_sock (reach blk ops sd) i = Some s -> s_addr s = None -> do_bind (reach blk ops sd) i arg = (c', Err e) ->
  (exists x, e = LlcpError x /\ documented x) \/
  (exists n, arg = BName n /\ name_valid n = true /\ name_addr (reach blk ops sd) n = None /\ wks n = None /\
             none_free (reach blk ops sd) 16 32 /\ e = LlcpError EADDRNOTAVAIL).
Proof. exact (fun blk ops sd => bind_errno _ (reach_wf blk ops sd)). Qed.
Print Assumptions C17_bind_errno_partial.

(* --- close_frees: closing the last socket frees the address and its name, nothing else changes;
       closing another socket keeps both; same when a waiting close() completes; the name can be bound again --- *)
Theorem C17_close_frees : forall blk ops sd i s a c' r,
  get_sock (reach blk ops sd) i = Some s -> s_addr s = Some a -> s_pend s = PdNone ->
  bound_set (reach blk ops sd) a = [i] -> sock_close s <> None -> do_close (reach blk ops sd) i = (c', r) ->
  r = Ok OUnit /\ bound_set c' a = [] /\ is_free c' a = true /\ (forall n, name_addr c' n <> Some a) /\
  (forall b, b <> a -> sap_get c' b = sap_get (reach blk ops sd) b) /\
  (forall n b, b <> a -> (name_addr c' n = Some b <-> name_addr (reach blk ops sd) n = Some b)).
Proof. exact (fun blk ops sd => close_last _ (reach_wf blk ops sd)). Qed.
Print Assumptions C17_close_frees.
Theorem C17_close_not_last : forall blk ops sd i s a c' r l,
  get_sock (reach blk ops sd) i = Some s -> s_addr s = Some a -> s_pend s = PdNone ->
  bound_set (reach blk ops sd) a = l -> (exists j, j <> i /\ In j l) -> sock_close s <> None ->
  do_close (reach blk ops sd) i = (c', r) ->
  r = Ok OUnit /\ bound_set c' a = remove_id l i /\ bound_set c' a <> [] /\ c_snl c' = c_snl (reach blk ops sd).
Proof. exact (fun blk ops sd => close_not_last _ (reach_wf blk ops sd)). Qed.
Print Assumptions C17_close_not_last.
Theorem C17_close_pending_frees : forall blk ops sd i s' a,
  (exists s, get_sock (reach blk ops sd) i = Some s /\ evolves s s') -> s_addr s' = Some a -> s_recvq s' <> [] ->
  bound_set (reach blk ops sd) a = [i] ->
  let c' := fst (finish_close (reach blk ops sd) i s') in
  bound_set c' a = [] /\ is_free c' a = true /\ (forall n, name_addr c' n <> Some a) /\
  (forall n b, b <> a -> (name_addr c' n = Some b <-> name_addr (reach blk ops sd) n = Some b)).
Proof. exact (fun blk ops sd => close_pending_completes _ (reach_wf blk ops sd)). Qed.
Print Assumptions C17_close_pending_frees.
Theorem C17_rebind_after_close : forall blk ops sd j s n,
  get_sock (reach blk ops sd) j = Some s -> s_addr s = None -> name_valid n = true -> wks n = None ->
  name_addr (reach blk ops sd) n = None -> (exists a, 16 <= a < 32 /\ bound_set (reach blk ops sd) a = []) ->
  exists a, least_free (reach blk ops sd) 16 32 a /\ snd (do_bind (reach blk ops sd) j (BName n)) = Ok OUnit /\
            name_addr (fst (do_bind (reach blk ops sd) j (BName n))) n = Some a.
Proof. exact (fun blk ops sd j s n => rebind_after_close _ j s n (reach_wf blk ops sd)). Qed.
Print Assumptions C17_rebind_after_close.

(* --- resolve_exact: a name in the table means exactly: sockets are bound at that address, each either bound
       under this name or accepted from it; absent name: no socket in the table is bound under it.  Service
       discovery answers that address (0 = absent).  CONNECT by name reaches the listening socket bound under the
       name and no other, or a DM reports absence (AddrMain.connect_by_name_outcome) --- *)
Theorem C17_name_meaning : forall blk ops sd n,
  match name_addr (reach blk ops sd) n with
  | Some a => (n = name_sdp /\ a = 1) \/
              (2 <= a < 64 /\ bound_set (reach blk ops sd) a <> [] /\
               forall i, In i (bound_set (reach blk ops sd) a) -> exists s, get_sock (reach blk ops sd) i = Some s /\ s_addr s = Some a /\
                 (s_bname s = Some n \/ (s_bname s = None /\ nolisten (s_state s))))
  | None => forall a i s, In i (bound_set (reach blk ops sd) a) -> get_sock (reach blk ops sd) i = Some s -> s_bname s <> Some n
  end.
Proof. exact (fun blk ops sd => name_addr_meaning _ (reach_wf blk ops sd)). Qed.
Print Assumptions C17_name_meaning.
Theorem C17_resolve_answer : forall blk ops sd rq rs c' r, dispatch (reach blk ops sd) (PSnl rq rs) = (c', r) ->
  sd_sdres c' = sd_sdres (reach blk ops sd) ++
                map (fun x => (fst x, match name_addr (reach blk ops sd) (snd x) with Some a => a | None => 0 end)) rq /\
  c_sap c' = c_sap (reach blk ops sd) /\ c_snl c' = c_snl (reach blk ops sd) /\ c_socks c' = c_socks (reach blk ops sd).
Proof. exact (fun blk ops sd => sdreq_answer _ (reach_wf blk ops sd)). Qed.
Print Assumptions C17_resolve_answer.
Theorem C17_connect_by_name : forall blk ops sd ssap n c' r, dispatch (reach blk ops sd) (PConnect 1 ssap (Some n)) = (c', r) ->
  connect_by_name_outcome (reach blk ops sd) ssap n c' r.
Proof. exact (fun blk ops sd ssap n c' r => connect_by_name _ ssap n c' r (reach_wf blk ops sd)). Qed.
Print Assumptions C17_connect_by_name.

(* --- datagram_exact.
   End to end (C17_datagram_exact_guarded, Proofs/AddrDgram.v): sender = datagram socket i of controller X, receiver =
   datagram socket r of the peer controller.  Ghost history computed along the history by AddrDgram.gupd:
     g_sent  PUI a s msg for every sendto(msg, a) accepted on i;   g_rcvd  PUI a s data for every (data, s) that
     recvfrom on r returned;   g_drop  datagrams discarded by exactly these rules: (1) close() of i discards what is
     still in its send queue, (2) close() of r discards what is still in its receive queue, (3) a datagram from s for a
     that is transferred and does not enter the receive queue of r is discarded.  When a transferred datagram enters
     the queue is C17_datagram_arrival_rule: it is appended, unchanged, iff a socket is bound at its DSAP whose peer
     filter admits the source, the payload is not longer than the link MIU and the queue holds fewer than SO_RCVBUF
     entries; the NEWLY ARRIVING datagram is the one that is dropped on overflow, the queue is left as it is.
   Guard AddrDgram.compat, required of the state at the END of the history (it then held all along, because sockets keep
   type and address): i and r are datagram sockets, unbound or bound at s resp. a; NO OTHER socket of X is bound at s
   and no other socket of the peer at a (the two addresses are not re-used by other sockets); controller X has NO RAW
   ACCESS POINT socket (a raw access point can put UI PDUs with any source address on the link).
   The statement without the address re-use guard (per address instead of per socket) is not proved.
   Conclusion: g_rcvd ++ (datagrams from s waiting in r's receive queue) ++ (datagrams for a waiting in i's send queue)
   is an order-preserving sub-list of g_sent, and g_sent is a permutation of that list plus g_drop: what recvfrom
   returned is, in order, what sendto accepted minus what is still queued and minus what rules 1-3 discarded; nothing
   else is lost, duplicated, altered or delivered elsewhere.
   Per step: a dispatched UI PDU is appended unchanged to the receive queue of one socket bound at its DSAP, or to none;
   sendto queues exactly (dest, own address, message) at the tail; collect takes the head of a queue of a socket bound at
   that SAP; the peer dispatches exactly the collected PDU; recvfrom returns the head.  In every reachable state a
   datagram waiting in a receive queue is addressed to that socket's address and one waiting in a send queue carries
   that socket's address as source (C17_datagram_queues). --- *)
Theorem C17_datagram_exact_guarded : forall X i r s a blk ops,
  compat X i r s a (exec blk ops) ->
  let g := snd (grun X i r s a blk ops) in
  let st := exec blk ops in
  let kept := g_rcvd g ++ inq X r s st ++ outq X i a st in
  sub kept (g_sent g) /\ Permutation (g_sent g) (kept ++ g_drop g).
Proof. exact datagram_end_to_end. Qed.
Print Assumptions C17_datagram_exact_guarded.
Theorem C17_datagram_received_in_order : forall X i r s a blk ops,
  compat X i r s a (exec blk ops) -> sub (g_rcvd (snd (grun X i r s a blk ops))) (g_sent (snd (grun X i r s a blk ops))).
Proof. exact datagram_received_in_order. Qed.
Print Assumptions C17_datagram_received_in_order.
Theorem C17_datagram_all_received : forall X i r s a blk ops,
  compat X i r s a (exec blk ops) ->
  let g := snd (grun X i r s a blk ops) in
  g_drop g = [] -> inq X r s (exec blk ops) = [] -> outq X i a (exec blk ops) = [] -> g_rcvd g = g_sent g.
Proof. exact datagram_all_received. Qed.
Print Assumptions C17_datagram_all_received.
(* without raw access points a UI PDU leaves a controller only from the send queue of the datagram socket bound at its source *)
Theorem C17_ui_origin : forall c a' miu d ss data c', wf c -> (forall j sj, get_sock c j = Some sj -> s_type sj <> TRaw) ->
  collect1 c a' miu = Some (PUI d ss data, c') ->
  exists k sk rest, get_sock c k = Some sk /\ s_type sk = TLdl /\ s_addr sk = Some ss /\
                    s_sendq sk = PUI d ss data :: rest /\ get_sock c' k = Some (set_sendq sk rest).
Proof. exact collect_ui_origin. Qed.
Print Assumptions C17_ui_origin.
Theorem C17_datagram_queues : forall blk ops sd i s p, get_sock (reach blk ops sd) i = Some s -> s_type s = TLdl ->
  (In p (s_recvq s) -> exists d sa data, p = PUI d sa data /\ s_addr s = Some d) /\
  (In p (s_sendq s) -> exists d data a, p = PUI d a data /\ s_addr s = Some a).
Proof. exact (fun blk ops sd => datagram_queues _ (reach_wf blk ops sd)). Qed.
Print Assumptions C17_datagram_queues.
Theorem C17_datagram_arrival_rule : forall blk ops sd d sa data c' r, dispatch (reach blk ops sd) (PUI d sa data) = (c', r) ->
  datagram_outcome (reach blk ops sd) d sa data c' r.
Proof. exact (fun blk ops sd => datagram_dispatch _ (reach_wf blk ops sd)). Qed.
Print Assumptions C17_datagram_arrival_rule.
Theorem C17_datagram_sendto : forall blk ops sd i s msg d c', get_sock (reach blk ops sd) i = Some s -> s_type s = TLdl ->
  do_sendto (reach blk ops sd) i msg d = (c', Ok (OBool true)) ->
  exists s' a, get_sock c' i = Some s' /\ s_addr s' = Some a /\ (s_addr s = None \/ s_addr s = Some a) /\
               s_sendq s' = s_sendq s ++ [PUI d a msg] /\ s_recvq s' = s_recvq s /\
               (s_peer s = None \/ s_peer s = Some 0 \/ s_peer s = Some d) /\ len msg <= link_miu.
Proof. exact (fun blk ops sd => datagram_sendto _ (reach_wf blk ops sd)). Qed.
Print Assumptions C17_datagram_sendto.
Theorem C17_collect_head : forall blk ops sd a miu p c', collect1 (reach blk ops sd) a miu = Some (p, c') ->
  (exists i s s', In i (bound_set (reach blk ops sd) a) /\ get_sock (reach blk ops sd) i = Some s /\ s_addr s = Some a /\
                  get_sock c' i = Some s' /\
                  (exists rest, s_sendq s = p :: rest /\ (s_sendq s' = rest \/ s_sendq s' = [])) /\
                  forall k, k <> i -> get_sock c' k = get_sock (reach blk ops sd) k) \/
  (exists l sl, sap_get (reach blk ops sd) a = Sap l (p :: sl) /\ sap_get c' a = Sap l sl /\ c_socks c' = c_socks (reach blk ops sd)) \/
  (a = 1 /\ c_socks c' = c_socks (reach blk ops sd)).
Proof. exact (fun blk ops sd => collect_head _ (reach_wf blk ops sd)). Qed.
Print Assumptions C17_collect_head.
Theorem C17_link_same_pdu : forall st from a miu st' p evs, step st (XXfer from a miu) = (st', Ok (OXfer (Some p) evs)) ->
  exists c1, collect1 (get_side st from) a miu = Some (p, c1) /\
             dispatch (get_side (set_side st from c1) (other from)) p = (get_side st' (other from), Ok evs).
Proof. exact xfer_same_pdu. Qed.
Print Assumptions C17_link_same_pdu.
Theorem C17_datagram_recvfrom : forall c i s c' data ssap, get_sock c i = Some s -> s_type s = TLdl ->
  do_recvfrom c i = (c', Ok (ODgram data ssap)) ->
  exists d q, s_recvq s = PUI d ssap data :: q /\ get_sock c' i = Some (set_recvq s q).
Proof. exact datagram_recvfrom. Qed.
Print Assumptions C17_datagram_recvfrom.

(* --- tie: the allocation logic regenerated from src/nfc/llcp/llc.py on this run (Gen/AddrK.v, functions of the
       occupancy list occ = [x is None for x in self.sap]) is what the model computes.  Every reachable controller has
       64 slots (C17_bridge_table_len), which is the only premise. --- *)
Theorem C17_bridge_table_len : forall blk ops sd, length (c_sap (reach blk ops sd)) = 64%nat.
Proof. exact (fun blk ops sd => wf_len _ (reach_wf blk ops sd)). Qed.
Print Assumptions C17_bridge_table_len.
Theorem C17_bridge_wks : forall n, gen_c17_wks n = wks n.
Proof. exact bridge_wks. Qed.
Print Assumptions C17_bridge_wks.
Theorem C17_bridge_sap_is_none : forall c a, length (c_sap c) = 64%nat -> 0 <= a < 64 -> occ_free (occ_of c) a = is_free c a.
Proof. exact bridge_occ_free. Qed.
Print Assumptions C17_bridge_sap_is_none.
Theorem C17_bridge_scan : forall c lo hi, length (c_sap c) = 64%nat -> 0 <= lo -> lo <= hi -> hi <= 64 ->
  option_map (fun k => lo + k) (sap_index_none (occ_of c) lo hi) = first_free c (zrange lo hi).
Proof. exact bridge_scan. Qed.
Print Assumptions C17_bridge_scan.
Theorem C17_bridge_bind_by_none : forall c i s, length (c_sap c) = 64%nat ->
  match bind_none c i s with (c', Some _) => ok c' OUnit | (c', None) => llerr c' EAGAIN end =
  match gen_c17_bind_by_none (occ_of c) with
  | inl (a, _) => ok (place c i s a) OUnit
  | inr e => llerr c e
  end.
Proof. exact bridge_bind_by_none. Qed.
Print Assumptions C17_bridge_bind_by_none.
Theorem C17_bridge_bind_by_addr : forall c i s a, length (c_sap c) = 64%nat ->
  bind_addr c i s a =
  match gen_c17_bind_by_addr (occ_of c) (stype_eqb (s_type s) TRaw) a with
  | inl (a', _) => ok (place c i s a') OUnit
  | inr e => llerr c e
  end.
Proof. exact bridge_bind_by_addr. Qed.
Print Assumptions C17_bridge_bind_by_addr.
Theorem C17_bridge_bind_by_name : forall c i s n, length (c_sap c) = 64%nat ->
  bind_name c i s n =
  match gen_c17_bind_by_name (occ_of c) (name_valid n)
                             (match lookup (c_snl c) n with Some _ => true | None => false end) n with
  | inl (a, true) => ok (set_snl (place c i (set_bname s (Some n)) a) (c_snl c ++ [(n, a)])) OUnit
  | inl (a, false) => ok (place c i s a) OUnit
  | inr e => llerr c e
  end.
Proof. exact bridge_bind_by_name. Qed.
Print Assumptions C17_bridge_bind_by_name.
Theorem C17_bridge_do_bind : forall c i s arg, get_sock c i = Some s ->
  do_bind c i arg =
  match s_addr s with
  | Some _ => llerr c gen_c17_bind_twice
  | None => match arg with
            | BNone => match bind_none c i s with (c', Some _) => ok c' OUnit | (c', None) => llerr c' EAGAIN end
            | BAddr a => bind_addr c i s a
            | BName n => bind_name c i s n
            | BBad => llerr c gen_c17_bind_badtype
            end
  end.
Proof. exact bridge_do_bind. Qed.
Print Assumptions C17_bridge_do_bind.
Theorem C17_bridge_remove_socket : forall c a i,
  sap_remove c a i =
  match sap_get c a with
  | Sap l sl =>
      if gen_c17_remove_frees (len (remove_id l i))
      then set_snl (sap_set c a SapNone) (filter (fun kv => negb (gen_c17_name_dropped (snd kv) a)) (c_snl c))
      else sap_set c a (Sap (remove_id l i) sl)
  | _ => c
  end.
Proof. exact bridge_remove. Qed.
Print Assumptions C17_bridge_remove_socket.
Theorem C17_bridge_sap_enqueue : forall c a l sl p,
  sap_enqueue c a l sl p =
  if is_connect p then
    match pick_sock c l (fun s => sstate_eqb (s_state s) StListen) with
    | Some (i, s) => sock_enqueue c i s p
    | None => (sap_set c a (Sap l (sl ++ [PDM (pdu_ssap p) (pdu_dsap p) gen_c17_dm_unbound])), Ok [])
    end
  else
    match pick_sock c l (fun s => gen_c17_peer_match (pdu_ssap p) (s_peer s)) with
    | Some (i, s) => sock_enqueue c i s p
    | None => if is_dlc_pdu p
              then (sap_set c a (Sap l (sl ++ [PDM (pdu_ssap p) (pdu_dsap p) gen_c17_dm_inactive])), Ok [])
              else (c, Ok [])
    end.
Proof. exact bridge_sap_enqueue. Qed.
Print Assumptions C17_bridge_sap_enqueue.
Theorem C17_bridge_connect_by_name : forall c ssap sn,
  dispatch c (PConnect 1 ssap sn) =
  let addr := match sn with Some n => lookup (c_snl c) n | None => None end in
  if gen_c17_cbn_absent addr (match addr with Some a => is_free c a | None => false end)
  then (set_dmpdu c (sd_dmpdu c ++ [PDM ssap 1 (gen_c17_cbn_reason (match sn with None => true | Some _ => false end))]), Ok [])
  else let a := match addr with Some a => a | None => 0 end in
       let p := PConnect a ssap None in
       match sap_get c (pdu_dsap p) with
       | SapNone => (c, Ok [])
       | SapSD => sd_enqueue c p
       | Sap l sl => sap_enqueue c (pdu_dsap p) l sl p
       end.
Proof. exact bridge_connect_by_name. Qed.
Print Assumptions C17_bridge_connect_by_name.

(* nfc.llcp.socket.Socket hands its arguments to the controller unchanged (0, '', b'', None are not reinterpreted) *)
Theorem C17_bridge_socket_bind : forall c i arg, gen_c17_Socket_bind (do_bind c) i arg = do_bind c i arg.
Proof. exact bridge_socket_bind. Qed.
Print Assumptions C17_bridge_socket_bind.
Theorem C17_bridge_socket_connect : forall c i d, gen_c17_Socket_connect (do_connect c) i d = do_connect c i d.
Proof. exact bridge_socket_connect. Qed.
Print Assumptions C17_bridge_socket_connect.
Theorem C17_bridge_socket_sendto : forall c i msg d (flags : unit),
  gen_c17_Socket_sendto (fun i msg d (_ : unit) => do_sendto c i msg d) i msg d flags = do_sendto c i msg d.
Proof. exact bridge_socket_sendto. Qed.
Print Assumptions C17_bridge_socket_sendto.
Theorem C17_bridge_socket_others : forall c i b n k,
  gen_c17_Socket_listen (do_listen c) i b = do_listen c i b /\
  gen_c17_Socket_accept (do_accept c) i = do_accept c i /\
  gen_c17_Socket_recvfrom (do_recvfrom c) i = do_recvfrom c i /\
  gen_c17_Socket_close (do_close c) i = do_close c i /\
  gen_c17_Socket_getsockname (fun i => lstep c (LGetsockname i)) i = lstep c (LGetsockname i) /\
  gen_c17_Socket_setsockopt (fun i (_ : unit) v => do_rcvbuf c i v) i tt b = do_rcvbuf c i b /\
  gen_c17_Socket_resolve (fun n => do_resolve c n k) n = do_resolve c n k.
Proof. exact bridge_socket_others. Qed.
Print Assumptions C17_bridge_socket_others.

(* non-vacuity of the end-to-end theorem: sender B1 (bound at 33), receiver A0 (bound at 40, SO_RCVBUF 1): three datagrams
   are accepted, the second arrives while the first is still queued and is dropped (rule 3), the third stays in the send
   queue; the guard holds for this history *)
Definition dg_demo : list op :=
  [XLoc SA (LSocket TLdl); XLoc SA (LBind 0 (BAddr 40)); XLoc SB (LSocket TDlc); XLoc SB (LSocket TLdl);
   XLoc SB (LSendto 1 [1] 40); XLoc SB (LSendto 1 [2] 40); XLoc SB (LSendto 1 [3] 40);
   XXfer SB 32 248; XXfer SB 32 248; XLoc SA (LRecvfrom 0)].
Example C17_datagram_exact_nonvacuous :
  snd (grun SB 1 0 32 40 true dg_demo) = mkG [PUI 40 32 [1]; PUI 40 32 [2]; PUI 40 32 [3]] [PUI 40 32 [1]] [PUI 40 32 [2]] /\
  inq SB 0 32 (exec true dg_demo) = [] /\ outq SB 1 40 (exec true dg_demo) = [PUI 40 32 [3]] /\
  compat SB 1 0 32 40 (exec true dg_demo).
Proof.
  split; [vm_compute; reflexivity|]. split; [vm_compute; reflexivity|]. split; [vm_compute; reflexivity|].
  unfold compat. split; [|split; [|split; [|split]]].
  - intros si H. vm_compute in H. inversion H. split; [reflexivity | right; reflexivity].
  - intros sr H. vm_compute in H. inversion H. split; [reflexivity | right; reflexivity].
  - intros j sj H A. destruct j as [|[|[|j]]]; vm_compute in H; inversion H; subst; try reflexivity; vm_compute in A; discriminate.
  - intros j sj H A. destruct j as [|[|j]]; vm_compute in H; inversion H; subst; try reflexivity; vm_compute in A; discriminate.
  - intros j sj H. destruct j as [|[|[|j]]]; vm_compute in H; inversion H; subst; discriminate.
Qed.

(* non-vacuity: a concrete history - bind by name, listen, connect by name from the peer, transfer, accept;
   a datagram sent and received; close frees address 16 and the name *)
Definition nm_a : name := nm 0.
Definition demo : list op :=
  [XLoc SA (LSocket TDlc); XLoc SA (LBind 0 (BName nm_a)); XLoc SA (LListen 0 1);
   XLoc SB (LSocket TDlc); XLoc SB (LConnect 0 (DName nm_a)); XXfer SB 32 248; XLoc SA (LAccept 0);
   XLoc SB (LSocket TLdl); XLoc SA (LSocket TLdl); XLoc SA (LBind 2 (BAddr 40));
   XLoc SB (LSendto 1 [1; 2; 3] 40); XXfer SB 33 248; XLoc SA (LRecvfrom 2)].
Example C17_nonvacuous :
  snd (run (init_sys true) demo) =
    [Ok (OSock 0); Ok OUnit; Ok OUnit; Ok (OSock 0); Ok OPending;
     Ok (OXfer (Some (PConnect 1 32 (Some nm_a))) [EvEnq 0 (PConnect 16 32 None)]); Ok (OSock 1);
     Ok (OSock 1); Ok (OSock 2); Ok OUnit; Ok (OBool true);
     Ok (OXfer (Some (PUI 40 33 [1; 2; 3])) [EvEnq 2 (PUI 40 33 [1; 2; 3])]); Ok (ODgram [1; 2; 3] 33)] /\
  bound_set (fst (exec true demo)) 16 = [1%nat; 0%nat] /\ name_addr (fst (exec true demo)) nm_a = Some 16 /\
  name_valid nm_a = true /\
  (let c := fst (exec false [XLoc SA (LSocket TLdl); XLoc SA (LBind 0 (BName nm_a))]) in
   bound_set c 16 = [0%nat] /\ name_addr (fst (do_close c 0)) nm_a = None /\ is_free (fst (do_close c 0)) 16 = true).
Proof. vm_compute. repeat split. Qed.
