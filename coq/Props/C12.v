(* C12 - ISO-DEP exchanges each APDU exactly once or reports a tag error.
   Only statements here; proofs are in Proofs/IsoDep*.v and Bridge/IsoDep.v.

   Reader  = IsoDepInitiator.exchange of tt4.py at HEAD b65ae89: fixes/c12-wtx-*.diff applied ([repaired k]; the R(ACK)
             budget fix_rack is not assumed), S(WTX) without WTXM -> PROTOCOL_ERROR (c08-03), and the shared budget
             [mx = Some max_extra_blocks] (65538) for S(WTX) requests + chained response blocks per exchange (c08-19):
             [exchangex] returns the outcome and the final value of the counter n_extra.  Safety theorems hold for
             EVERY budget (mx arbitrary, None = no budget); exactness theorems need the budget to cover what the card
             announces, [need_extra] = its S(WTX) requests + the chained blocks of its response, plus one per faulty
             round; beyond the budget the result is the documented error ([C12_isodep_over_budget]).
   Card    = [picc_absorb]: ISO/IEC 14443-4 block rules, ANY application [app], ANY S(WTX) plan.
   Air     = ANY script of (request fate, response fate) in {deliver, lose, corrupt}.
   [in_step pn c]: reader and card block numbers in step - after activation and after every
   successful exchange ([C12_isodep_result_sound] re-establishes it), so the theorems apply to every
   exchange of a session up to and including the first one that fails.  What happens after a failed
   exchange is the known finding witnessed by [C12_after_failed_exchange_refuted]. *)
From Coq Require Import ZArith QArith List Bool.
From NV Require Import Base.Result Base.Bytes Model.IsoDep Model.TagAct Gen.IsoDepK Proofs.IsoDep Proofs.IsoDepSync Proofs.IsoDepLegacy
  Proofs.IsoDepBudget Proofs.IsoDepApdu Proofs.IsoDepStream Proofs.IsoDepSession Bridge.IsoDep.
Import ListNotations.
Open Scope Z_scope.

(* no block the reader puts on the air exceeds the frame size: PCB + INF + 2 EDC bytes <= miu + 3 = FSC,
   for every command length, fault script, WTX plan, budget and fuel *)
Theorem C12_isodep_block_bound : forall app k kc cmd pn c, repaired k -> params_ok k kc -> in_step pn c -> 0 < len cmd ->
  forall mx fuel sc, Forall (fun b => len b + 2 <= miu k + 3) (o_blocks (fst (exchangex app fuel k mx kc cmd pn c sc))).
Proof. exact exchangex_block_bound. Qed.
Print Assumptions C12_isodep_block_bound.

(* ... and FSC as derived at activation never exceeds the card's frame size or what the device can send *)
Theorem C12_isodep_activation_fsc : forall fsci fwti max_send max_recv,
  let p := t4_params fsci fwti max_send max_recv in
  a_fsc p <= fsc_of (if fsci >? 8 then 8 else fsci) /\ a_fsc p <= Z.max max_send (a_fsc p) /\
  (a_fsc p <= max_send \/ a_fsc p = fsc_of (if fsci >? 8 then 8 else fsci)) /\ a_miu p = a_fsc p - 3.
Proof. exact t4_params_fsc. Qed.
Print Assumptions C12_isodep_activation_fsc.

(* without faults: every command size and response size (chaining both ways), S(WTX) at any and every opportunity -
   the APDU is executed exactly once and its complete response is returned, for every card that needs at most
   m = max_extra_blocks (65538 at HEAD) S(WTX) requests + chained response blocks in this exchange *)
Theorem C12_isodep_nofault_exact : forall app k kc cmd pn c, repaired k -> params_ok k kc -> in_step pn c -> 0 < len cmd ->
  forall m fuel sc, nofault sc -> need_extra app kc cmd c <= m -> enough_fuel app k cmd c fuel ->
  let o := fst (exchangex app fuel k (Some m) kc cmd pn c sc) in
  o_res o = Ok (response app c cmd) /\ execs (o_card o) = execs c ++ [cmd] /\ in_step (o_pni o) (o_card o).
Proof. exact exchangex_nofault_exact. Qed.
Print Assumptions C12_isodep_nofault_exact.

(* for EVERY fault script, budget and fuel: the card executes the APDU at most once, and nothing else *)
Theorem C12_isodep_at_most_once : forall app k kc cmd pn c, repaired k -> params_ok k kc -> in_step pn c -> 0 < len cmd ->
  forall mx fuel sc, let o := fst (exchangex app fuel k mx kc cmd pn c sc) in
  execs (o_card o) = execs c \/ execs (o_card o) = execs c ++ [cmd].
Proof. exact exchangex_at_most_once. Qed.
Print Assumptions C12_isodep_at_most_once.

(* for EVERY fault script and budget: a returned value is the complete response of the single execution of this APDU
   (never truncated, duplicated or stale) and leaves reader and card in step; anything else is
   Type4TagCommandError - no raw clf error, no crash; Hang only if the fuel was below the bound *)
Theorem C12_isodep_result_sound : forall app k kc cmd pn c, repaired k -> params_ok k kc -> in_step pn c -> 0 < len cmd ->
  forall mx fuel sc, let o := fst (exchangex app fuel k mx kc cmd pn c sc) in
  match o_res o with
  | Ok r => r = response app c cmd /\ execs (o_card o) = execs c ++ [cmd] /\ in_step (o_pni o) (o_card o)
  | Err (TagCommandError _) => True
  | Hang => Z.of_nat fuel < fuel_bound app k cmd (execs c) c
  | _ => False
  end.
Proof. exact exchangex_result_sound. Qed.
Print Assumptions C12_isodep_result_sound.

(* for EVERY fault script and budget the exchange ends within fuel_bound = O((|cmd| + |response|) * budget + #WTX)
   rounds: the reader never hangs against the conformant card *)
Theorem C12_isodep_terminates : forall app k kc cmd pn c, repaired k -> params_ok k kc -> in_step pn c -> 0 < len cmd ->
  forall mx fuel sc, enough_fuel app k cmd c fuel ->
  let o := fst (exchangex app fuel k mx kc cmd pn c sc) in
  o_res o = Ok (response app c cmd) \/ exists e, o_res o = Err (TagCommandError e).
Proof. exact exchangex_terminates. Qed.
Print Assumptions C12_isodep_terminates.

(* "any pattern of lost or corrupted blocks the recovery rules can absorb": EVERY script with at most F faulty
   rounds (any kind, anywhere in the exchange, chaining and WTX included) is absorbed and yields the exact result
   when 2F-1 <= retry budget (budget 1: one fault, 3: two, 5: three) and the card's needs plus F (a repeated S(WTX)
   per faulty round) are within max_extra_blocks; F = 0 is the fault-free case.
   (The code counts R(ACK)-triggered retransmissions against the same retry budget, hence 2F-1; patterns beyond
   this bound that the monitor classifies as absorbable are checked by the harness only.) *)
Theorem C12_isodep_absorbs : forall app k kc cmd pn c, repaired k -> params_ok k kc -> in_step pn c -> 0 < len cmd ->
  forall m fuel sc F, faults sc <= F -> 2 * F - 1 <= n_nak k -> 2 * F - 1 <= n_ack k ->
  need_extra app kc cmd c + F <= m -> enough_fuel app k cmd c fuel ->
  let o := fst (exchangex app fuel k (Some m) kc cmd pn c sc) in
  o_res o = Ok (response app c cmd) /\ execs (o_card o) = execs c ++ [cmd] /\ in_step (o_pni o) (o_card o).
Proof. exact exchangex_absorbs. Qed.
Print Assumptions C12_isodep_absorbs.

(* the budget made explicit.  Counted without budget (mx = None) n_extra never exceeds what the card announces plus
   one per faulty round; while that is within m the exchange at HEAD IS the exchange of the reader without budget;
   once the reader without budget would count more than m, the result at HEAD is Type4TagCommandError(PROTOCOL_ERROR)
   - and by C12_isodep_at_most_once the APDU has still been executed at most once *)
Theorem C12_isodep_extra_count : forall app k kc cmd pn c, repaired k -> params_ok k kc -> in_step pn c -> 0 < len cmd ->
  forall fuel sc, snd (exchangex app fuel k None kc cmd pn c sc) <= need_extra app kc cmd c + faults sc.
Proof. exact exchangex_count. Qed.
Print Assumptions C12_isodep_extra_count.
Theorem C12_isodep_budget_transparent : forall app k kc cmd pn c, repaired k -> params_ok k kc -> in_step pn c -> 0 < len cmd ->
  forall m fuel sc, need_extra app kc cmd c + faults sc <= m ->
  fst (exchangex app fuel k (Some m) kc cmd pn c sc) = exchange app fuel k kc cmd pn c sc.
Proof. exact exchangex_transparent. Qed.
Print Assumptions C12_isodep_budget_transparent.
Theorem C12_isodep_over_budget : forall app k kc cmd pn c m fuel sc, 0 <= m ->
  m < snd (exchangex app fuel k None kc cmd pn c sc) ->
  o_res (fst (exchangex app fuel k (Some m) kc cmd pn c sc)) = Err (TagCommandError E_PROTOCOL).
Proof. intros app k kc cmd pn c. exact (exchangex_over_budget app k kc cmd pn c). Qed.
Print Assumptions C12_isodep_over_budget.

(* Type4Tag.send_apdu on top: a returned value is the response of the single execution of the encoded APDU with
   status word 9000 stripped (check_status) or included; anything else is Type4TagCommandError (status word or
   transmission failure) or the documented ValueError before anything is sent *)
Theorem C12_send_apdu_sound : forall app k mx kc cla ins p1 p2 data mrl check pn c,
  repaired k -> params_ok k kc -> in_step pn c ->
  forall fuel sc, let o := send_apdux app fuel k mx kc cla ins p1 p2 data mrl check pn c sc in
  match apdu_build cla ins p1 p2 data mrl with
  | Ok a =>
      (execs (o_card o) = execs c \/ execs (o_card o) = execs c ++ [a]) /\
      match o_res o with
      | Ok r => execs (o_card o) = execs c ++ [a] /\ in_step (o_pni o) (o_card o) /\
                (if check then response app c a = r ++ [144; 0] else response app c a = r)
      | Err (TagCommandError _) => True
      | Hang => Z.of_nat fuel < fuel_bound app k a (execs c) c
      | _ => False
      end
  | _ => o_res o = Err ValueError /\ o_card o = c /\ o_blocks o = []
  end.
Proof. exact send_apdu_sound. Qed.
Print Assumptions C12_send_apdu_sound.

(* ---- sessions: APDUs exchanged one after the other on the same tag object and card; all rounds draw their fates
   from ONE script ([session1]: each exchange continues where the previous one stopped) ----
   [sess_spec app e cmds outs], for the card log e before the session, says for the i-th exchange, as long as all
   earlier ones returned a value:  Ok r ->  (b) r is the response to its own command, (a) the log grew by exactly that
   command, (c) reader and card are in step again, and the rest of the session satisfies the spec;
   Type4TagCommandError (or fuel exhausted) -> the log grew by at most that one command, and NOTHING is claimed
   about later exchanges; raw clf errors and crashes do not occur. *)
Theorem C12_session_sound : forall app k mx kc, repaired k -> params_ok k kc ->
  forall cmds fuel sc pn c, in_step pn c -> Forall (fun x => 0 < len (fst x)) cmds ->
  sess_spec app (execs c) cmds (session1 app fuel k mx kc pn c cmds sc).
Proof. exact session_sound. Qed.
Print Assumptions C12_session_sound.
(* hence: if every exchange returned a value, the values are the responses to their own commands, in order, and the
   card's log is exactly the list of commands, each executed once, in order - for every script and every WTX plan *)
Theorem C12_session_all_ok : forall app k mx kc, repaired k -> params_ok k kc ->
  forall cmds fuel sc pn c, in_step pn c -> Forall (fun x => 0 < len (fst x)) cmds ->
  let outs := session1 app fuel k mx kc pn c cmds sc in
  Forall (fun o => is_ok (o_res o) = true) outs ->
  map o_res outs = expected app (execs c) cmds /\ final_log (execs c) outs = execs c ++ map fst cmds.
Proof. exact session_all_ok. Qed.
Print Assumptions C12_session_all_ok.
(* the boundary made explicit: the known finding is the exchange AFTER the first failed one.  Budget 1, one script
   DL DL DL: exchange 1 fails with TIMEOUT_ERROR (the session theorem holds and claims nothing beyond it);
   exchange 2 - a single lost block - executes its APDU twice and returns the second execution's response *)
Theorem C12_session_boundary_refuted :
  sess_spec demo_app [] boundary_cmds boundary_session /\
  map o_res boundary_session = [Err (TagCommandError E_TIMEOUT); Ok (demo_app 2 [255; 2; 0; 5])] /\
  map (fun o => execs (o_card o)) boundary_session = [[[255; 1; 0; 5]]; [[255; 1; 0; 5]; [255; 2; 0; 5]; [255; 2; 0; 5]]].
Proof. exact session_boundary. Qed.
Print Assumptions C12_session_boundary_refuted.

(* ---- the reader as pinned (fix flags off) violates the property: concrete runs ---- *)
(* S(WTX) answered outside the try: one lost block, within the budget, escapes as raw nfc.clf.TimeoutError *)
Theorem C12_legacy_wtx_raw_timeout_refuted :
  o_res (exchange demo_app 50 k_legacy kc16 [255; 0; 0; 5] 0 (picc_init [[1]]) [(FD, FD); (FD, FL)]) = Err TimeoutError.
Proof. exact legacy_wtx_raw_timeout. Qed.
Print Assumptions C12_legacy_wtx_raw_timeout_refuted.
(* S(WTX) while the card chains its response: the exchange fails without any fault *)
Theorem C12_legacy_wtx_chaining_refuted :
  exists e, o_res (exchange demo_app 50 k_legacy kc16 [255; 0; 0; 30] 0 (picc_init [[]; [3]]) []) = Err (TagCommandError e).
Proof. exact legacy_wtx_chaining_fails. Qed.
Print Assumptions C12_legacy_wtx_chaining_refuted.
(* outside C12 (non-conformant responder, recorded for C08): without fixes/c12-rack-retransmit-budget.diff
   a responder that keeps answering R(ACK) with the other block number makes the reader send for ever *)
Theorem C12_rack_loop_unbudgeted_refuted : forall k cmd, fix_rack k = false -> 0 < miu k -> 0 < len cmd ->
  forall fuel, run_stream fuel k cmd (pcd_start k cmd 0) (fun _ => ARx [163]) 0 = Hang.
Proof. exact rack_loop_unbudgeted. Qed.
Print Assumptions C12_rack_loop_unbudgeted_refuted.

(* outside C12, for C08 ("a tag can never make the reader loop"): with all three repairs the reader stops against
   ANY responder [s] (the n-th clf.exchange yields [s n], whatever was sent) that uses at most W of the two means
   the standard gives a card to keep the reader waiting (S(WTX), chained response blocks) *)
Theorem C12_isodep_terminates_any_responder : forall k cmd,
  fix_wtx_try k = true -> fix_wtx_chain k = true -> fix_rack k = true -> 0 < miu k -> 0 <= n_nak k -> 0 <= n_ack k ->
  forall pn s W fuel, 0 < len cmd -> (forall N, wild s N <= W) ->
  (CC k + 1) * (len cmd + 2 + W) + CC k <= Z.of_nat fuel ->
  run_stream fuel k cmd (pcd_start k cmd pn) s 0 <> Hang.
Proof. exact stream_terminates. Qed.
Print Assumptions C12_isodep_terminates_any_responder.
(* ... an S(WTX) block without WTXM byte raised IndexError (data[1]) in the pinned reader; at HEAD
   (fixes/c08-03, flags on) it is Type4TagCommandError(PROTOCOL_ERROR); for C08 *)
Theorem C12_short_wtx_crash_refuted :
  run_stream 5 k_legacy [0; 164; 0; 0] (pcd_start k_legacy [0; 164; 0; 0] 0) (fun _ => ARx [242]) 0 = Crash IndexErr /\
  run_stream 5 k_repaired [0; 164; 0; 0] (pcd_start k_repaired [0; 164; 0; 0] 0) (fun _ => ARx [242]) 0
    = Err (TagCommandError E_PROTOCOL).
Proof. exact short_wtx_crash. Qed.
Print Assumptions C12_short_wtx_crash_refuted.

(* ---- known finding, not cured by the repairs: an exchange that follows a FAILED one ---- *)
(* reader and card may be out of step ([in_step] fails); one lost block then makes the card execute the
   APDU twice, or the caller gets the previous command's response *)
Theorem C12_after_failed_exchange_refuted :
  (map o_res after_failure_session = [Err (TagCommandError E_TIMEOUT); Ok (demo_app 2 [255; 2; 0; 5])] /\
   map (fun o => execs (o_card o)) after_failure_session = [[[255; 1; 0; 5]]; [[255; 1; 0; 5]; [255; 2; 0; 5]; [255; 2; 0; 5]]]) /\
  (map o_res after_failure_stale = [Err (TagCommandError E_TIMEOUT); Ok (demo_app 0 [255; 1; 0; 5])] /\
   map (fun o => execs (o_card o)) after_failure_stale = [[[255; 1; 0; 5]]; [[255; 1; 0; 5]]]).
Proof. exact (conj after_failed_exchange_duplicate after_failed_exchange_stale). Qed.
Print Assumptions C12_after_failed_exchange_refuted.

(* ---- tie: the kernels regenerated from src/nfc/tag/tt4.py on this run (Gen/IsoDepK.v) are the model ---- *)
(* Type4ATag.__init__, whole body, for EVERY answer to select: ProtocolError or (RATS command, fsc, fwt) *)
Theorem C12_bridge_t4a_init : forall ms mr ats,
  gen_t4a_init ms mr ats =
  match ats_fsci_fwi ats with
  | Ok (fsci, fwi) => let p := t4_params fsci fwi ms mr in Some (rats_cmd mr, a_fsc p, fwt_q (a_fwti p))
  | _ => None
  end.
Proof. exact bridge_t4a_init. Qed.
Print Assumptions C12_bridge_t4a_init.
Theorem C12_bridge_t4a_params_wellformed : forall ms mr tl t0 ta tb rest p,
  Z.land t0 32 <> 0 -> Z.land t0 16 <> 0 -> t4a_params (tl :: t0 :: ta :: tb :: rest) ms mr = Ok p ->
  gen_t4a_init ms mr (tl :: t0 :: ta :: tb :: rest) = Some (rats_cmd mr, a_fsc p, fwt_q (a_fwti p)).
Proof. exact bridge_t4a_params_wellformed. Qed.
Print Assumptions C12_bridge_t4a_params_wellformed.
(* Type4BTag.__init__, whole body *)
Theorem C12_bridge_t4b_init : forall ms mr sensb attrib,
  gen_t4b_init ms mr sensb attrib =
  if len sensb <? 12 then None
  else let p := t4_params (Z.shiftr (nth 10 sensb 0) 4) (Z.shiftr (nth 11 sensb 0) 4) ms mr in
       Some (attrib_cmd sensb mr, a_fsc p, fwt_q (a_fwti p)).
Proof. exact bridge_t4b_init. Qed.
Print Assumptions C12_bridge_t4b_init.
(* IsoDepInitiator.__init__: miu = fsc - 3 and min(int(1/fwt), 5) (exact rationals) are the model's a_miu / a_retry *)
Theorem C12_bridge_t4_dep : forall fsci fwi ms mr,
  let p := t4_params fsci fwi ms mr in
  gen_dep_miu (a_fsc p) = a_miu p /\ gen_n_retry_ack (fwt_q (a_fwti p)) = a_retry p /\
  gen_n_retry_nak (gen_n_retry_ack (fwt_q (a_fwti p))) = a_retry p.
Proof. exact bridge_t4_dep. Qed.
Print Assumptions C12_bridge_t4_dep.
Theorem C12_bridge_errno :
  gen_TIMEOUT_ERROR = E_TIMEOUT /\ gen_RECEIVE_ERROR = E_RECEIVE /\ gen_PROTOCOL_ERROR = E_PROTOCOL /\
  gen_send_errno_timeout = E_TIMEOUT /\ gen_send_errno_txerr = E_RECEIVE /\ gen_send_errno_proto = E_PROTOCOL /\
  gen_recv_errno_timeout = E_TIMEOUT /\ gen_recv_errno_txerr = E_RECEIVE /\ gen_recv_errno_proto = E_PROTOCOL.
Proof. exact bridge_errno. Qed.
Print Assumptions C12_bridge_errno.
(* the PCB constructions and bit tests of exchange() are the model's predicates *)
Theorem C12_bridge_blocks : forall k cmd pn off,
  gen_more cmd off (miu k) = more_at k cmd off /\ gen_pfb (gen_more cmd off (miu k)) pn = [pfb_at k cmd pn off] /\
  gen_send_data (gen_pfb (gen_more cmd off (miu k)) pn) cmd off (miu k) = iblock k cmd pn off /\
  gen_retransmit_data (gen_pfb (gen_more cmd off (miu k)) pn) cmd off (miu k) = iblock k cmd pn off /\
  gen_presence_nak pn = [Z.lor 178 pn] /\ gen_send_rnak_txerr pn = [Z.lor 178 pn] /\ gen_send_rnak_timeout pn = [Z.lor 178 pn] /\
  gen_rack pn = [Z.lor 162 pn] /\ gen_recv_rack_txerr pn = [Z.lor 162 pn] /\ gen_recv_rack_timeout pn = [Z.lor 162 pn] /\
  gen_toggle_ack pn = toggle pn /\ gen_toggle_inf pn = toggle pn /\ gen_toggle_recv pn = toggle pn.
Proof.
  intros. split; [apply bridge_more|]. split; [apply bridge_pfb|].
  split; [apply bridge_iblock|]. split; [apply bridge_iblock|].
  pose proof (bridge_rblocks pn). pose proof (bridge_toggle pn). tauto.
Qed.
Print Assumptions C12_bridge_blocks.
Theorem C12_bridge_tests : forall b0 inf pn i n,
  gen_send_is_wtx (b0 :: inf) = is_wtx b0 /\ gen_recv_is_wtx (b0 :: inf) = is_wtx b0 /\
  gen_retransmit (b0 :: inf) pn i n = (is_rack_other pn b0 && (i <=? n + 1)) /\
  gen_send_bad_bn (b0 :: inf) pn = negb (Z.land b0 1 =? pn) /\ gen_recv_bad_bn (b0 :: inf) pn = negb (Z.land b0 1 =? pn) /\
  gen_is_ack (b0 :: inf) = (Z.land b0 254 =? 162) /\ gen_is_inf (b0 :: inf) = (Z.land b0 238 =? 2) /\
  gen_chaining (b0 :: inf) = negb (Z.land b0 16 =? 0) /\
  gen_send_empty (b0 :: inf) = false /\ gen_recv_empty (b0 :: inf) = false /\
  gen_send_empty [] = true /\ gen_recv_empty [] = true.
Proof. exact bridge_tests. Qed.
Print Assumptions C12_bridge_tests.
(* ... and, composed along the control skeleton the generator matched statement by statement, they ARE the
   model's transition function (all three repairs in, S(WTX) without WTXM -> PROTOCOL_ERROR as at HEAD) *)
Theorem C12_bridge_pcd_start : forall k cmd pn, 0 < miu k -> 0 < len cmd ->
  pcd_start k cmd pn = mkp pn (PSend 0 1 (gen_send_data (gen_pfb (gen_more cmd 0 (miu k)) pn) cmd 0 (miu k))).
Proof. exact bridge_pcd_start. Qed.
Print Assumptions C12_bridge_pcd_start.
Theorem C12_bridge_absorb_send : forall k cmd, fix_wtx_try k = true -> fix_rack k = true ->
  forall pn off i d0 a, pcd_absorb k cmd (mkp pn (PSend off i d0)) a = k_absorb_send k cmd pn off i a.
Proof. exact bridge_absorb_send. Qed.
Print Assumptions C12_bridge_absorb_send.
Theorem C12_bridge_absorb_recv : forall k cmd, fix_wtx_chain k = true ->
  forall pn i d0 rsp a, pcd_absorb k cmd (mkp pn (PRecv i d0 rsp)) a = k_absorb_recv k pn i rsp a.
Proof. exact bridge_absorb_recv. Qed.
Print Assumptions C12_bridge_absorb_recv.

(* granted timeouts: with the echo of an S(WTX) request goes (data[1] & 0x3F) * fwt = blk_timeout x fwt, with every
   other block the caller's timeout (default fwt + 49152/fc); the harness compares what reaches the device with this *)
Theorem C12_bridge_timeouts : forall b0 b1 inf fwt pn k cmd off, is_wtx b0 = true -> bit pn ->
  gen_send_wtx_timeout (b0 :: b1 :: inf) fwt = Qmult (inject_Z (blk_timeout (b0 :: b1 :: inf))) fwt /\
  gen_recv_wtx_timeout (b0 :: b1 :: inf) fwt = Qmult (inject_Z (blk_timeout (b0 :: b1 :: inf))) fwt /\
  gen_default_timeout fwt gen_delta_fwt = Qplus fwt (Qdiv (inject_Z 49152) (inject_Z 13560000)) /\
  blk_timeout (iblock k cmd pn off) = 0 /\ blk_timeout [Z.lor 178 pn] = 0 /\ blk_timeout [Z.lor 162 pn] = 0.
Proof. exact bridge_timeouts. Qed.
Print Assumptions C12_bridge_timeouts.

(* the shared budget (b65ae89): constant, counter and tests, and the model's budgeted transition function *)
Theorem C12_bridge_extra : forall n m,
  gen_max_extra_blocks = MAX_EXTRA_BLOCKS /\ gen_extra_init = 0 /\
  gen_send_extra_incr n = n + 1 /\ gen_recv_extra_incr n = n + 1 /\ gen_chain_extra_incr n = n + 1 /\
  gen_send_extra_over n m = over (Some m) n /\ gen_recv_extra_over n m = over (Some m) n /\
  gen_chain_extra_over n m = over (Some m) n /\ gen_chain_errno_over = E_PROTOCOL.
Proof. exact bridge_extra. Qed.
Print Assumptions C12_bridge_extra.
Theorem C12_bridge_absorb_send_x : forall k cmd, fix_wtx_try k = true -> fix_rack k = true ->
  forall pn off i d0 n m a,
  pcd_absorb_x k (Some m) cmd {| xp := mkp pn (PSend off i d0); nx := n |} a = k_absorb_send_x k cmd pn off i n m a.
Proof. exact bridge_absorb_send_x. Qed.
Print Assumptions C12_bridge_absorb_send_x.
Theorem C12_bridge_absorb_recv_x : forall k cmd, fix_wtx_chain k = true ->
  forall pn i d0 rsp n m a,
  pcd_absorb_x k (Some m) cmd {| xp := mkp pn (PRecv i d0 rsp); nx := n |} a = k_absorb_recv_x k pn i rsp n m a.
Proof. exact bridge_absorb_recv_x. Qed.
Print Assumptions C12_bridge_absorb_recv_x.

(* non-vacuity: a 20-byte command and 20-byte response over FSC 16 (chaining both ways), two S(WTX),
   four faulty rounds, budget 3 - meets every hypothesis above and completes *)
Example C12_nonvacuous :
  (repaired k_nv /\ params_ok k_nv kc16 /\ in_step 0 nv_card /\ 0 < len nv_cmd /\ enough_fuel demo_app k_nv nv_cmd nv_card 900) /\
  (let o := exchange demo_app 900 k_nv kc16 nv_cmd 0 nv_card nv_script in
   o_res o = Ok (demo_app 0 nv_cmd) /\ execs (o_card o) = [nv_cmd] /\ length (o_blocks o) = 10%nat).
Proof. exact (conj nv_hyps nv_run). Qed.

(* non-vacuity (sessions): three exchanges from the activated state - a 20-byte command / 20-byte response chained both
   ways with one lost block (absorbed), a short one, a 30-byte response with an S(WTX) - all return their own responses *)
Example C12_session_nonvacuous :
  map o_res nvs_session = [Ok (demo_app 0 nv_cmd); Ok (demo_app 1 [255; 9; 0; 3]); Ok (demo_app 2 [255; 3; 0; 30])] /\
  final_log [] nvs_session = [nv_cmd; [255; 9; 0; 3]; [255; 3; 0; 30]] /\
  map (fun o => length (o_blocks o)) nvs_session = [5%nat; 1%nat; 4%nat].
Proof. exact nvs_run. Qed.

(* non-vacuity at HEAD: the exchange of C12_nonvacuous under max_extra_blocks = 65538 (it needs 3 of the budget, the
   script has 4 faulty rounds), and the same exchange under a budget of 2: PROTOCOL_ERROR, executed once *)
Example C12_budget_nonvacuous :
  need_extra demo_app kc16 nv_cmd nv_card = 3 /\ faults nv_script = 4 /\
  (let o := exchangex demo_app 900 k_nv (Some MAX_EXTRA_BLOCKS) kc16 nv_cmd 0 nv_card nv_script in
   o_res (fst o) = Ok (demo_app 0 nv_cmd) /\ execs (o_card (fst o)) = [nv_cmd] /\ snd o = 3) /\
  (let o := exchangex demo_app 900 k_nv (Some 2) kc16 nv_cmd 0 nv_card nv_script in
   o_res (fst o) = Err (TagCommandError E_PROTOCOL) /\ execs (o_card (fst o)) = [nv_cmd]).
Proof. exact nvx_run. Qed.
