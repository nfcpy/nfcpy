(* C13 - Drivers report RF and host-link failures only as documented errors.
   Only statements here; proofs are in Skel/ExnCheck.v, Bridge/C13Skel.v, Proofs/DrvMap.v. *)
From Coq Require Import ZArith List Bool String.
From NV Require Import Skel.ExnSyntax Skel.ExnCheck Gen.DriverSkel Bridge.C13Skel Model.DrvMap Proofs.DrvMap.
Import ListNotations.
Open Scope Z_scope.

(* --- the analysis is sound: every exception class that escapes in the semantics of the skeleton
       language (closed under abrupt exit) is in the computed set --- *)
Theorem C13_exncheck_sound : forall P f ok, closedb P f ok = true -> forall c, can_escape P f c -> In c ok.
Proof. exact exncheck_sound. Qed.
Print Assumptions C13_exncheck_sound.

(* --- its instances on the skeletons regenerated from the sources on this run: along explicit
       raise/handler flow only TimeoutError, BrokenLinkError, TransmissionError, ProtocolError,
       (CommunicationError) or IOError leave ContactlessFrontend.exchange --- *)
Theorem C13_pn53x_exchange_closed :
  exchange_documented prog_pn532 doc_classes /\ exchange_documented prog_pn533 doc_classes /\
  exchange_documented prog_rcs956 doc_classes /\ exchange_documented prog_acr122 doc_classes /\
  exchange_documented prog_arygon_b doc_classes.
Proof. exact pn53x_exchange_closed_lemma. Qed.
Print Assumptions C13_pn53x_exchange_closed.

(* PN531 / Arygon-A: the same, plus the visible NotImplementedError of the inherited Type 1 stub
   (selected only by a Type 1 target, which these drivers cannot activate) *)
Theorem C13_pn531_exchange_closed :
  exchange_documented prog_pn531 doc_classes_no_tt1 /\ exchange_documented prog_arygon_a doc_classes_no_tt1.
Proof. exact pn531_exchange_closed_lemma. Qed.
Print Assumptions C13_pn531_exchange_closed.

Theorem C13_rcs380_exchange_closed : exchange_documented prog_rcs380 doc_classes.
Proof. exact rcs380_exchange_closed_lemma. Qed.
Print Assumptions C13_rcs380_exchange_closed.

Theorem C13_udp_exchange_closed : exchange_documented prog_udp doc_classes.
Proof. exact udp_exchange_closed_lemma. Qed.
Print Assumptions C13_udp_exchange_closed.

(* --- status -> exception maps (hand model, tied by the injection correspondence) --- *)
(* all 256 chipset status codes, both directions, every status-bearing host command *)
Theorem C13_pn53x_map_total : forall d c code rest, 0 <= code < 256 ->
  DrvMap.allowed (pn53x_status_outcome d c (code :: rest)) = true.
Proof. intros d c code rest _. apply pn53x_map_total_any. Qed.
Print Assumptions C13_pn53x_map_total.

(* in fact whatever the response payload is (any length, any values) *)
Theorem C13_pn53x_map_total_any : forall d c payload, DrvMap.allowed (pn53x_status_outcome d c payload) = true.
Proof. exact pn53x_map_total_any. Qed.
Print Assumptions C13_pn53x_map_total_any.

(* ReadRegister answers (register preparation, Type 1 / Type 3 register paths): any number of values *)
Theorem C13_pn53x_readreg_total : forall d with_status nregs payload,
  DrvMap.allowed (pn53x_readreg_outcome d with_status nregs payload) = true.
Proof. exact pn53x_readreg_total. Qed.
Print Assumptions C13_pn53x_readreg_total.

(* register VALUES on the register-programmed paths: any CommIRq / DivIRq / FIFOLevel / FIFOData values *)
Theorem C13_pn53x_tt3_poll_total : forall commirq divirq level (fifo : list Z), Z.of_nat (List.length fifo) = level ->
  poll_allowed (tt3_poll commirq divirq level fifo) = true.
Proof. exact tt3_poll_total. Qed.
Print Assumptions C13_pn53x_tt3_poll_total.
Theorem C13_pn53x_tt1_fifo_total : forall level crc_ok, 0 <= level < 256 ->
  DrvMap.allowed (tt1_fifo_outcome level crc_ok) = true.
Proof. exact tt1_fifo_total. Qed.
Print Assumptions C13_pn53x_tt1_fifo_total.
Theorem C13_pn53x_tt1_fifo_data : forall level crc_ok,
  tt1_fifo_outcome level crc_ok = OData -> 3 <= level <= 64 /\ crc_ok = true.
Proof. exact tt1_fifo_data. Qed.
Print Assumptions C13_pn53x_tt1_fifo_data.

Theorem C13_pn53x_errframe_total : forall d, DrvMap.allowed (pn53x_errframe_outcome d) = true.
Proof. exact pn53x_errframe_total. Qed.
Print Assumptions C13_pn53x_errframe_total.

(* timeout as TimeoutError, other RF errors as TransmissionError (initiator);
   field loss as BrokenLinkError (target) *)
Theorem C13_pn53x_initiator_classify : forall code rest, 0 <= code < 256 ->
  pn53x_status_outcome Initiator InCommunicateThru (code :: rest) =
    if code =? 0 then OData else if code =? 1 then ORaise XTimeout else ORaise XTransmission.
Proof. exact pn53x_initiator_classify. Qed.
Print Assumptions C13_pn53x_initiator_classify.
Theorem C13_pn53x_target_classify : forall code rest, 0 <= code < 256 ->
  pn53x_status_outcome Target TgGetInitiatorCommand (code :: rest) =
    if code =? 0 then OData
    else if (code =? 10) || (code =? 41) || (code =? 49) then ORaise XBrokenLink else ORaise XTransmission.
Proof. exact pn53x_target_classify. Qed.
Print Assumptions C13_pn53x_target_classify.

(* all 32-bit RC-S380 communication status words, by bit-mask reasoning *)
Theorem C13_rcs380_map_total : forall d w, 0 <= w < 2 ^ 32 -> DrvMap.allowed (rcs380_status_outcome d w) = true.
Proof. exact rcs380_map_total_lemma. Qed.
Print Assumptions C13_rcs380_map_total.
Theorem C13_rcs380_initiator_classify : forall w, w <> 0 ->
  rcs380_status_outcome Initiator w = ORaise (if Z.testbit w 7 then XTimeout else XTransmission).
Proof. exact rcs380_initiator_classify. Qed.
Print Assumptions C13_rcs380_initiator_classify.
Theorem C13_rcs380_target_classify : forall w, w <> 0 ->
  rcs380_status_outcome Target w =
    ORaise (if Z.testbit w 10 then XBrokenLink else if Z.testbit w 7 then XTimeout else XTransmission).
Proof. exact rcs380_target_classify. Qed.
Print Assumptions C13_rcs380_target_classify.
(* the four status bytes the driver looks at and the word of the model agree *)
Theorem C13_rcs380_bytes_word : forall d b0 b1 b2 b3,
  0 <= b0 < 256 -> 0 <= b1 < 256 -> 0 <= b2 < 256 -> 0 <= b3 < 256 ->
  rcs380_bytes_outcome d b0 b1 b2 b3 = rcs380_status_outcome d (le32 b0 b1 b2 b3).
Proof. exact rcs380_bytes_word. Qed.
Print Assumptions C13_rcs380_bytes_word.

(* InCommRF / TgCommRF answered with a payload of any length, also one too short for the status word *)
Theorem C13_rcs380_payload_total : forall d payload, DrvMap.allowed (rcs380_payload_outcome d payload) = true.
Proof. exact rcs380_payload_total. Qed.
Print Assumptions C13_rcs380_payload_total.

(* any UDP datagram is data, RFOFF (BrokenLinkError) or a TransmissionError *)
Theorem C13_udp_datagram_total : forall d, DrvMap.allowed (udp_outcome d) = true.
Proof. exact udp_total. Qed.
Print Assumptions C13_udp_datagram_total.

(* non-vacuity: the exchange skeleton has an escaping run; the maps produce every documented class *)
Example C13_nonvacuous :
  can_escape prog_pn532 entry C_IOError /\
  pn53x_status_outcome Initiator InCommunicateThru [1] = ORaise XTimeout /\
  pn53x_status_outcome Target TgGetInitiatorCommand [41] = ORaise XBrokenLink /\
  rcs380_status_outcome Target 1024 = ORaise XBrokenLink /\
  rcs380_status_outcome Initiator (128 + 4) = ORaise XTimeout /\
  udp_outcome [49; 48; 54; 65; 32; 122; 122] = ORaise XTransmission.
Proof. split; [exact exchange_can_raise_ioerror|]. vm_compute. repeat split. Qed.
