(* C09 - When the LLCP link ends no application thread is left waiting.
   Only statements here; the model is Model/LlcLife.v (multi-thread transition system: any number of
   application threads, the link thread, schedules = lists of labels), proofs in Proofs/LlcLifeSeg.v
   (one lock-hold segment) and Proofs/LlcLife.v (inductive invariant, all schedules).
   Variant Fixed = nfcpy after fixes/c09-1..8; variant Orig = the unrepaired code where it differs.

   Liveness is stated as safety: "blocked => not shut down, or a notification is pending" is an
   inductive invariant, so after the shutdown transition every thread is runnable and each of its
   own steps ends the call within a fixed bound.  That the runnable threads are actually scheduled
   (CPython's scheduler is fair, Condition.wait() has no lost wake-ups of its own) is assumed. *)
From Coq Require Import ZArith List Bool Arith.
From NV Require Import Base.Result Model.LlcLife Proofs.LlcLifeSeg Proofs.LlcLife Proofs.LlcLifeOwn.
Import ListNotations.

(* --- one lock-hold segment of the repaired code (the semantic WaitCheck conditions) --------------- *)
(* (i) a wait() is only reached when the guard evaluated in the same hold found the socket open *)
Theorem C09_wait_guard_in_hold : forall p s tm orc c q,
  o_act (seg Fixed p s tm orc) = AWait c q -> st (o_sock (seg Fixed p s tm orc)) <> SHUTDOWN.
Proof. exact seg_wait_open. Qed.
Print Assumptions C09_wait_guard_in_hold.
(* (ii) a segment that moves the object to SHUTDOWN notifies all conditions of the object *)
Theorem C09_shutdown_notifies_all : forall p s tm orc,
  st s <> SHUTDOWN -> st (o_sock (seg Fixed p s tm orc)) = SHUTDOWN ->
  o_nall (seg Fixed p s tm orc) = close_conds (kd s).
Proof. exact seg_shut_notifies. Qed.
Print Assumptions C09_shutdown_notifies_all.

(* --- all schedules, any number of threads ------------------------------------------------------------- *)
(* a thread blocked on condition c of object o => o is not shut down (un-notified waiters only:
   Blocked _ _ _ true is a pending notification) *)
Theorem C09_blocked_implies_open : forall sched t o c p,
  let g := run (init Fixed) sched in
  ts (thr g t) = Blocked o c p false -> st (sk g o) <> SHUTDOWN.
Proof. exact blocked_implies_open. Qed.
Print Assumptions C09_blocked_implies_open.

(* after terminate() has completed (s1) no thread waits, and none newly blocks whatever follows (s2) *)
Theorem C09_no_thread_left_waiting : forall s1 s2 t,
  lpc (run (init Fixed) s1) = LDone -> waiting (run (init Fixed) (s1 ++ s2)) t = false.
Proof. exact no_thread_left_waiting. Qed.
Print Assumptions C09_no_thread_left_waiting.

(* every call that was blocked when the link ended has been notified and, within 4 steps of its own
   thread, returns a value or raises nfc.llcp.Error *)
Theorem C09_blocked_calls_return : forall s1 t o c p b,
  let g := run (init Fixed) s1 in
  lpc g = LDone -> ts (thr g t) = Blocked o c p b ->
  b = true /\ forall orcs, 4 <= length orcs ->
    exists r, ts (thr (run g (map (TRun t) orcs)) t) = Done r /\ good r = true.
Proof. exact blocked_calls_return. Qed.
Print Assumptions C09_blocked_calls_return.

(* every socket API call made after termination: no step enters a wait, every result is a value
   (None / False / ...) or Err (LlcpError e) *)
Theorem C09_after_shutdown_total : forall s1 s2 l t,
  lpc (run (init Fixed) s1) = LDone ->
  let g := run (init Fixed) (s1 ++ s2) in
  match ts (thr (step g l) t) with
  | Blocked _ _ _ false => False
  | Done r => ts (thr g t) = Done r \/ good r = true
  | _ => True
  end.
Proof. exact after_shutdown_total. Qed.
Print Assumptions C09_after_shutdown_total.

(* ... and it completes within rank p <= 4 steps of its thread *)
Theorem C09_calls_complete : forall n g t o p,
  Inv g -> lpc g = LDone ->
  (ts (thr g t) = At o p \/ exists c, ts (thr g t) = Blocked o c p true) ->
  rank p <= n -> forall orcs, n <= length orcs ->
  exists r, ts (thr (run g (map (TRun t) orcs)) t) = Done r /\ good r = true.
Proof. exact calls_complete. Qed.
Print Assumptions C09_calls_complete.
Theorem C09_inv_reachable : forall sched, Inv (run (init Fixed) sched).
Proof. exact reach_inv. Qed.
Print Assumptions C09_inv_reachable.

(* SNEP / handover servers: the calls of the accept and serve loops raise nfc.llcp.Error after
   termination (the loops are left through their handler), and every server thread has exited
   after at most 16 of its own steps *)
Theorem C09_server_calls_raise : forall n g t o p,
  Inv g -> lpc g = LDone ->
  (ts (thr g t) = At o p \/ exists c, ts (thr g t) = Blocked o c p true) ->
  srv_class p = true -> rank p <= n -> forall orcs, n <= length orcs ->
  exists r, ts (thr (run g (map (TRun t) orcs)) t) = Done r /\ is_llcp r = true.
Proof. exact server_calls_raise. Qed.
Print Assumptions C09_server_calls_raise.
Theorem C09_servers_exit : forall n g t w,
  Inv g -> lpc g = LDone -> is_server (mode (thr g t)) = true -> active (ts (thr g t)) ->
  mu (thr g t) <= n -> forall orcs, n <= length orcs ->
  exists k how, k <= n /\ mode (thr (srv_run t w (firstn k orcs) g) t) = MExit how.
Proof. exact servers_exit. Qed.
Print Assumptions C09_servers_exit.
Theorem C09_server_measure_bound : forall th, mu th <= 16.
Proof. exact mu_bound. Qed.
Print Assumptions C09_server_measure_bound.

(* single consumer: a socket accepted by a server's accept loop is referred to by one thread only (the
   loop, then the serve thread it starts) - for all schedules *)
Theorem C09_served_socket_single_consumer : forall sched t1 t2 o,
  let g := run (init Fixed) sched in
  srv (sk g o) = true -> In o (tref (thr g t1)) -> In o (tref (thr g t2)) -> t1 = t2.
Proof. exact served_socket_single_consumer. Qed.
Print Assumptions C09_served_socket_single_consumer.
(* hence the recv() a serve loop issues after poll('recv') returned True never waits and never returns
   None (no `bytearray(None)` / `request += None` TypeError at the end of the link): in that phase the
   thread is about to call / inside recv(), or holds its result: data or nfc.llcp.Error *)
Theorem C09_serve_recv_never_none : forall sched t c,
  let g := run (init Fixed) sched in
  mode (thr g t) = MServe c 1 ->
  ts (thr g t) = At c PRecv0 \/ ts (thr g t) = At c PRecv1
  \/ exists r, ts (thr g t) = Done r /\ (r = Ok VData \/ is_llcp r = true).
Proof. exact serve_recv_never_none. Qed.
Print Assumptions C09_serve_recv_never_none.

(* --- the unrepaired code violates the property: concrete schedules (also replayed on the real code
       by the scheduler harness) ------------------------------------------------------------------------ *)
Theorem C09_unrepaired_lost_wakeup :
  let g := lost_wakeup Orig in
  lpc g = LDone /\ ts (thr g 5) = Blocked 1 RecvReady PRecv2 false /\ st (sk g 1) = SHUTDOWN.
Proof. exact orig_lost_wakeup. Qed.
Print Assumptions C09_unrepaired_lost_wakeup.
Theorem C09_unrepaired_connect_after_termination_hangs :
  let g := late_connect Orig in lpc g = LDone /\ ts (thr g 7) = Blocked 2 RecvReady PConn2 false.
Proof. exact orig_late_connect_hangs. Qed.
Print Assumptions C09_unrepaired_connect_after_termination_hangs.
Theorem C09_unrepaired_resolve_after_termination_crashes :
  ts (thr (late_resolve Orig) 7) = Done (Crash AttributeErr).
Proof. exact orig_late_resolve_crashes. Qed.
Print Assumptions C09_unrepaired_resolve_after_termination_crashes.

(* the unrepaired link-thread enqueue (state test outside the lock) could queue a CC to a closed socket;
   connect() then revives it.  With the queue empty (invariant of the repaired code) it raises EPIPE *)
Theorem C09_unrepaired_enqueue_revives_closed_socket :
  let closed_with_cc := mkSock DLC SHUTDOWN true true true [ICC] 0 1 1 0 0 false in
  st (o_sock (seg Fixed PConn2 closed_with_cc false true)) = ESTABLISHED /\
  o_act (seg Fixed PConn2 (set_rq closed_with_cc []) false true) = ARet (Err (LlcpError EPIPE)).
Proof. exact revive_needs_empty_queue. Qed.
Print Assumptions C09_unrepaired_enqueue_revives_closed_socket.

(* non-vacuity: four threads blocked in recv (raw), accept, connect and resolve; the link terminates;
   all four are notified and return / raise; a call issued afterwards returns at once *)
Definition demo : gstate :=
  run (init Fixed)
    [TIssue 1 (ONew RAW); TNext 1 0; TIssue 1 (ONew DLC); TNext 1 0; TIssue 1 (ONew DLC); TNext 1 0;
     TIssue 1 (OBind 1); TRun 1 true; TRun 1 true; TNext 1 0;
     TIssue 1 (OListen 2); TRun 1 true; TRun 1 true; TRun 1 true; TNext 1 0;
     TIssue 10 (ORecv 1); TRun 10 true; TRun 10 true;
     TIssue 11 (OAccept 2); TRun 11 true;
     TIssue 12 (OConnect 3); TRun 12 true; TRun 12 true; TRun 12 true;
     TIssue 13 OResolve; TRun 13 false; TRun 13 false].
Definition demo_end : gstate := run demo [LTermBegin; LTermPop 1; LTermClose; LTermPop 2; LTermClose; LTermPop 3; LTermClose; LTermSd; LTermEnd].
Definition demo_after : gstate :=
  run demo_end [TRun 10 true; TRun 11 true; TRun 12 true; TRun 13 true; TIssue 14 (ORecv 1); TRun 14 true].
Example C09_nonvacuous :
  (waiting demo 10 && waiting demo 11 && waiting demo 12 && waiting demo 13 = true) /\
  lpc demo_end = LDone /\
  (waiting demo_end 10 || waiting demo_end 11 || waiting demo_end 12 || waiting demo_end 13 = false) /\
  ts (thr demo_after 10) = Done (Err (LlcpError EPIPE)) /\
  ts (thr demo_after 11) = Done (Err (LlcpError EPIPE)) /\
  ts (thr demo_after 12) = Done (Err (LlcpError EPIPE)) /\
  ts (thr demo_after 13) = Done (Ok VNone) /\
  ts (thr demo_after 14) = Done (Err (LlcpError EBADF)).
Proof.
  (* Thread 14 is idle when it issues its call because no label before names it.  Evaluating that instead
     looks its state up through every notification made since the start, twice at each one (wake_all),
     so it is shown by run_idle and the TIssue step is rewritten before the schedules are evaluated. *)
  set (s4 := [TRun 10 true; TRun 11 true; TRun 12 true; TRun 13 true]).
  assert (H : thr (run demo_end s4) 14 = mkThread Idle MApp)
    by (repeat (apply run_idle; [|reflexivity|reflexivity]); reflexivity).
  rewrite (run_app demo_end s4 [TIssue 14 (ORecv 1); TRun 14 true] : demo_after = _), !run_cons,
    (issue_idle _ 14 (ORecv 1) 1 PRecv0 H eq_refl).
  vm_compute. repeat split.
Qed.
