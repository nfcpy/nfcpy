(* C01 (block tags part) - NDEF write then read round-trips: Type 3 Tag, Type 4 Tag.
   Only statements here; proofs are in Proofs/T3T.v, Proofs/T4T.v (and Proofs/Chunks.v). *)
From Coq Require Import ZArith List Bool.
From NV Require Import Base.Result Base.Bytes Base.PyPrims Proofs.Chunks Model.T3T Model.T4T Proofs.T3T Proofs.T3TEmu Proofs.T4T.
Import ListNotations.
Open Scope Z_scope.

(* --- Type 3: for every well-formed tag (pt_wf = t3_wf: valid attribute block with version 1.x, Nbr >= 1 served by the
   tag, Nbw >= 1 with min(Nbw, 13) accepted by the tag, the Nmaxb declared blocks exist, WriteF = 00h, RWFlag <> 0,
   write service present), every message length 0 .. 16*Nmaxb and every content: the tag is read as NDEF tag with
   capacity 16*Nmaxb, the assignment succeeds, and a fresh reader of the resulting memory returns exactly the data
   (same capacity). *)
Theorem C01_t3_write_read : forall t a d, pt_wf t a -> p_budget t < 0 -> len d <= a_nmaxb a * 16 ->
  exists old t',
    pt_read_ndef t = (Ok (Ndef true true (a_nmaxb a * 16) old), t) /\
    pt_set_octets (Ndef true true (a_nmaxb a * 16) old) t d = (Ok tt, t') /\
    pt_fresh (p_mem t') (p_maxr t) (p_maxw t) true = Ok (Ndef true true (a_nmaxb a * 16) d).
Proof. exact t3_write_read_pt. Qed.
Print Assumptions C01_t3_write_read.

(* --- the library's own emulated Type 3 Tag: the same statement for a Type3Tag reader whose command frames are
   answered by Type3TagEmulation.process_command over an application memory array (em_wf = t3_wf with the
   emulation's limits: 15 blocks per read, 13 per write) *)
Theorem C01_t3emu_write_read : forall s a d, em_wf s a -> e_budget s < 0 -> len d <= a_nmaxb a * 16 ->
  exists old s',
    em_read_ndef s = (Ok (Ndef true true (a_nmaxb a * 16) old), s) /\
    em_set_octets (Ndef true true (a_nmaxb a * 16) old) s d = (Ok tt, s') /\
    em_fresh (e_mem s') = Ok (Ndef true true (a_nmaxb a * 16) d).
Proof. exact t3emu_write_read. Qed.
Print Assumptions C01_t3emu_write_read.

(* the attribute values of a tag whose memory consists of bytes are in range (the wf_aok premise is not a restriction) *)
Theorem C01_t3_attrs_in_range : forall d a, bytes_ok d -> attr_parse d = Some a -> attrs_ok a.
Proof. exact attr_parse_ok. Qed.
Print Assumptions C01_t3_attrs_in_range.

Theorem C01_t3_capacity_sound : forall t a, pt_wf t a -> 16 + a_nmaxb a * 16 <= len (p_mem t).
Proof. exact t3_capacity_sound_pt. Qed.
Print Assumptions C01_t3_capacity_sound.

(* data longer than the capacity: ValueError, the tag state (memory, command log) is untouched *)
Theorem C01_t3_oversize_rejected : forall t r cap old d, len d > cap ->
  pt_set_octets (Ndef r true cap old) t d = (Err ValueError, t).
Proof. exact t3_oversize_rejected_pt. Qed.
Print Assumptions C01_t3_oversize_rejected.

(* --- Type 4: for every well-formed card (t4_wf), stored NLEN within the capacity, every length 0 .. capacity *)
Theorem C01_t4_write_read : forall c i d, t4_wf c i -> nlen_ok c i -> len d <= i_cap i ->
  exists old cw c', t4_read_ndef (new_session c) = (Ok (Ndef true true (i_cap i) old, Some i), cw) /\
    t4_set_octets (Ndef true true (i_cap i) old) (Some i) cw d = (Ok tt, c') /\ same_cc c c' /\
    t4_fresh c' = Ok (Ndef true true (i_cap i) d).
Proof. exact t4_write_read_sess. Qed.
Print Assumptions C01_t4_write_read.

(* t4_wf holds for every capability container of mapping version 2 (NDEF File Control TLV, 2-byte NLEN) with
   application 2.0 or 1.0 and of mapping version 3 (extended TLV, 4-byte NLEN): all MLe >= NLEN size, all MLc >= 1,
   all file sizes (the usable part being limited to the 16 bit offset range) *)
Theorem C01_t4_wf_mapping2 : forall ver e1 e0 l1 l0 f1 f2 s1 s0 file v1 app sel b lg,
  ver = 16 \/ ver = 32 \/ ver = 48 -> list_eqb [f1; f2] cc_fid = false ->
  let mle := e1 * 256 + e0 in let mlc := l1 * 256 + l0 in let mfs := be [s1; s0] in
  2 <= mle -> 1 <= mlc -> 2 <= mfs -> Z.min mfs 65536 <= len file ->
  t4_wf (mkCard (cc2 ver e1 e0 l1 l0 f1 f2 s1 s0 0 0) [f1; f2] file true v1 app sel b lg)
        (mkInfo (Z.min mle 256) (Z.min mlc 255) (Z.min mfs 65536 - 2) true true 2 [f1; f2] 12).
Proof. intros until lg. intro Hv. exact (t4_wf_cc2 ver e1 e0 l1 l0 f1 f2 s1 s0 file true v1 app sel b lg Hv eq_refl). Qed.
Print Assumptions C01_t4_wf_mapping2.
Theorem C01_t4_wf_mapping2_app1 : forall ver e1 e0 l1 l0 f1 f2 s1 s0 file app sel b lg,
  ver = 16 \/ ver = 32 \/ ver = 48 -> list_eqb [f1; f2] cc_fid = false ->
  let mle := e1 * 256 + e0 in let mlc := l1 * 256 + l0 in let mfs := be [s1; s0] in
  2 <= mle -> 1 <= mlc -> 2 <= mfs -> Z.min mfs 65536 <= len file ->
  t4_wf (mkCard (cc2 ver e1 e0 l1 l0 f1 f2 s1 s0 0 0) [f1; f2] file false true app sel b lg)
        (mkInfo (Z.min mle 256) (Z.min mlc 255) (Z.min mfs 65536 - 2) true true 2 [f1; f2] 0).
Proof. intros until lg. intro Hv. exact (t4_wf_cc2 ver e1 e0 l1 l0 f1 f2 s1 s0 file false true app sel b lg Hv eq_refl). Qed.
Print Assumptions C01_t4_wf_mapping2_app1.
Theorem C01_t4_wf_mapping3 : forall ver e1 e0 l1 l0 f1 f2 s3 s2 s1 s0 file v1 app sel b lg,
  ver = 16 \/ ver = 32 \/ ver = 48 -> list_eqb [f1; f2] cc_fid = false ->
  let mle := e1 * 256 + e0 in let mlc := l1 * 256 + l0 in let mfs := be [s3; s2; s1; s0] in
  4 <= mle -> 1 <= mlc -> 4 <= mfs -> Z.min mfs 65536 <= len file ->
  t4_wf (mkCard (cc3 ver e1 e0 l1 l0 f1 f2 s3 s2 s1 s0 0 0) [f1; f2] file true v1 app sel b lg)
        (mkInfo (Z.min mle 256) (Z.min mlc 255) (Z.min mfs 65536 - 4) true true 4 [f1; f2] 12).
Proof. exact t4_wf_cc3. Qed.
Print Assumptions C01_t4_wf_mapping3.

Theorem C01_t4_capacity_sound : forall c i, t4_wf c i -> i_nlen i + i_cap i <= len (c_file c).
Proof. exact t4_capacity_sound. Qed.
Print Assumptions C01_t4_capacity_sound.

Theorem C01_t4_oversize_rejected : forall r cap old oi c d, len d > cap ->
  t4_set_octets (Ndef r true cap old) (Some oi) c d = (Err ValueError, c).
Proof. exact t4_oversize_rejected. Qed.
Print Assumptions C01_t4_oversize_rejected.

(* non-vacuity: a concrete Type 3 tag (Nbr 4, Nbw 3, Nmaxb 5) and a concrete Type 4 card (mapping 2, MLe 59, MLc 5,
   file 64 bytes) meet the hypotheses, and the round trip computes *)
Definition ex_t3 : ptag :=
  mkPtag (attr_build (mkAttrs 16 4 3 5 0 1 0) ++ repeat 238 80) 4 13 true (-1) [].
Definition ex_t4 : card :=
  mkCard (cc2 32 0 59 0 5 225 4 0 64 0 0) [225; 4] ([0; 0] ++ repeat 238 62) true false false 0 (-1) [].
Example C01_blk_nonvacuous :
  pt_wf ex_t3 (mkAttrs 16 4 3 5 0 1 0) /\
  em_wf (mkEmu (p_mem ex_t3) (-1) []) (mkAttrs 16 4 3 5 0 1 0) /\
  (let d := [209; 1; 1; 85; 0] ++ repeat 7 60 in
   pt_fresh (p_mem (snd (pt_set_octets (Ndef true true 80 []) ex_t3 d))) 4 13 true = Ok (Ndef true true 80 d)) /\
  t4_wf ex_t4 (mkInfo 59 5 62 true true 2 [225; 4] 12) /\ nlen_ok ex_t4 (mkInfo 59 5 62 true true 2 [225; 4] 12) /\
  (let d := [209; 1; 1; 85; 0] ++ repeat 7 40 in
   t4_fresh (snd (t4_set_octets (Ndef true true 62 []) (Some (mkInfo 59 5 62 true true 2 [225; 4] 12))
                                (file_sess ex_t4 (c_file ex_t4)) d)) = Ok (Ndef true true 62 d)).
Proof.
  split; [constructor; vm_compute; try reflexivity; try (split; congruence); try (intuition congruence)|].
  split; [constructor; vm_compute; try reflexivity; try (split; congruence); try (intuition congruence)|].
  split; [vm_compute; reflexivity|].
  split; [apply (t4_wf_cc2 32 0 59 0 5 225 4 0 64 _ true); vm_compute; try reflexivity; try congruence; auto|].
  split; [vm_compute; split; congruence|]. vm_compute. reflexivity.
Qed.
