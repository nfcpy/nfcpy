(* C05 - LLCP connections deliver in order, exactly once, within the window.
   Only statements here; the model is Model/Dlc.v, the proofs are in Proofs/DlcBase.v (one
   direction), Proofs/Dlc.v (system invariant, induction over op lists), Proofs/DlcCor.v.
   All theorems quantify over ALL op lists (every interleaving of send / recv / setsockopt busy /
   poll acks / dequeue / sendack / deliver on both sides), all windows 0..15 on each side, all MIUs,
   all message contents, all dequeue miu/icv arguments. *)
From Coq Require Import ZArith List Bool Lia.
From NV Require Import Base.Result Base.Bytes Model.Dlc Proofs.DlcBase Proofs.Dlc Proofs.DlcCor Proofs.DlcLive.
Import ListNotations.
Open Scope Z_scope.

(* the sliding-window invariant of DESIGN.md A.2, for both directions, in every reachable state *)
Theorem dlc_inv_reachable : forall c ops, cfg_ok c -> Inv (run c ops).
Proof. exact inv_reachable. Qed.
Print Assumptions dlc_inv_reachable.

(* messages accepted by sd.send = messages returned by the peer's recv ++ peer's receive queue ++
   I PDUs on the wire ++ I PDUs in the send queue, all in order, each exactly once; both directions *)
Theorem dlc_in_order_exactly_once : forall c ops sd, cfg_ok c ->
  let s := run c ops in let h := outs (init c) ops in
  accepted sd h = returned (other sd) h ++ rq (get_ep s (other sd)) ++ map snd (Is (get_w s sd)) ++ map snd (Is (sq (get_ep s sd))).
Proof. exact in_order_exactly_once. Qed.
Print Assumptions dlc_in_order_exactly_once.

Theorem dlc_returned_prefix_of_accepted : forall c ops sd, cfg_ok c ->
  let h := outs (init c) ops in exists rest, accepted sd h = returned (other sd) h ++ rest.
Proof. exact returned_prefix_of_accepted. Qed.
Print Assumptions dlc_returned_prefix_of_accepted.

(* sequence numbers: the I PDUs in flight are numbered consecutively modulo 16 from the number of
   I PDUs the receiver has taken so far, which is what V(R) holds modulo 16 *)
Theorem dlc_sequence_numbers : forall c ops sd, cfg_ok c ->
  let s := run c ops in
  let fl := Is (get_w s sd) ++ Is (sq (get_ep s sd)) in
  fl = number (gR (get_g s sd)) (map snd fl) /\
  vr (get_ep s (other sd)) = gR (get_g s sd) mod 16 /\
  len (returned (other sd) (outs (init c) ops)) + len (rq (get_ep s (other sd))) = gR (get_g s sd).
Proof. exact sequence_numbers. Qed.
Print Assumptions dlc_sequence_numbers.

(* unacknowledged I PDUs <= RW announced by the peer, in every reachable state, across wrap-around *)
Theorem dlc_window_respected : forall c ops sd, cfg_ok c ->
  let s := run c ops in let x := get_ep s sd in let y := get_ep s (other sd) in
  let S := len (accepted sd (outs (init c) ops)) in let SA := gSA (get_g s sd) in
  0 <= S - SA <= rwl y /\ rwr x = rwl y /\ rwl y <= 15 /\
  vs x = S mod 16 /\ vsa x = SA mod 16 /\ (vs x - vsa x) mod 16 = S - SA /\
  len (Is (sq x)) + len (Is (get_w s sd)) + len (rq y) + confs y <= rwl y.
Proof. exact window_respected. Qed.
Print Assumptions dlc_window_respected.

(* an accepted I PDU always finds room: nothing discarded, no FRMR, recv never raises, both ends
   stay ESTABLISHED, no FRMR PDU anywhere *)
Theorem dlc_no_overflow : forall c ops, cfg_ok c ->
  forallb (fun e => negb (bad1 e)) (outs (init c) ops) = true /\
  let s := run c ops in
  est (epa s) = true /\ est (epb s) = true /\ flagged s = false /\
  forallb notF (wab s ++ wba s ++ sq (epa s) ++ sq (epb s)) = true.
Proof. exact no_overflow. Qed.
Print Assumptions dlc_no_overflow.

(* messages larger than the connection MIU are refused with EMSGSIZE and change nothing *)
Theorem dlc_emsgsize : forall c ops sd m, cfg_ok c ->
  let s := run c ops in
  smiu (get_ep s sd) = rmiu (get_ep s (other sd)) /\
  (smiu (get_ep s sd) < len m -> step_full s (Send sd m) = (s, OSend (Err (LlcpError EMSGSIZE)))) /\
  (len m <= smiu (get_ep s sd) ->
     snd (step_full s (Send sd m)) = OSend (Ok true) \/
     (step_full s (Send sd m) = (s, OSend (Err (LlcpError EWOULDBLOCK))) /\
      len (accepted sd (outs (init c) ops)) - gSA (get_g s sd) = rwl (get_ep s (other sd)))).
Proof. exact emsgsize. Qed.
Print Assumptions dlc_emsgsize.

(* send_window_slots / recv_window_slots compute the true number of free window slots *)
Theorem dlc_window_slots_true : forall c ops sd, cfg_ok c ->
  let s := run c ops in let x := get_ep s sd in let y := get_ep s (other sd) in let g := get_g s sd in
  send_window_slots x = rwl y - (len (sent g) - gSA g) /\
  recv_window_slots y = rwl y - (gR g - gRA g) /\
  0 <= len (sent g) - gSA g <= rwl y /\ 0 <= gR g - gRA g <= rwl y.
Proof. exact window_slots_true. Qed.
Print Assumptions dlc_window_slots_true.

(* progress: from every reachable state a finite continuation consisting only of dequeue / deliver /
   recv steps (no further send) returns every accepted message to the peer application, both
   directions - so with the prefix theorem: exactly once, in order, nothing left behind *)
Theorem dlc_progress : forall c ops, cfg_ok c -> exists ops', Forall no_send ops' /\
  let h := outs (init c) (ops ++ ops') in
  returned B h = accepted A h /\ returned A h = accepted B h.
Proof. exact progress. Qed.
Print Assumptions dlc_progress.

(* llc.collect() without aggregation (dequeue, then sendack if nothing) is a sequence of ops of the
   alphabet, hence covered by all theorems above *)
Theorem dlc_collect_is_ops : forall s sd miu, exists ops, fst (collect1 s sd miu) = fold_left step ops s.
Proof. exact collect1_ops. Qed.
Print Assumptions dlc_collect_is_ops.

(* the ghost history used by the invariant is the observable history (no invariant needed) *)
Theorem dlc_ghost_is_observable : forall ops s sd,
  sent (get_g (fold_left step ops s) sd) = sent (get_g s sd) ++ accepted sd (outs s ops) /\
  dlv (get_g (fold_left step ops s) (other sd)) = dlv (get_g s (other sd)) ++ returned sd (outs s ops).
Proof. intros; split; [apply sent_run | rewrite dlv_run, other_other; reflexivity]. Qed.
Print Assumptions dlc_ghost_is_observable.

(* non-vacuity: 40 messages in each direction through windows 3 / 2 (two and a half wrap-arounds of
   the sequence numbers), piggy-backed and explicit acknowledgements, busy toggling: everything
   accepted is returned, in order, and the state variables have wrapped *)
Definition round (i : Z) : list op :=
  [Send A [i; 1]; Send B [i; 2]; SetBusy B (Z.even i); Deq A 128 0; Deliver B; Recv B; Deq B 128 0; Deliver A; Recv A;
   Deq B 128 0; Deliver A; Ack A; Deliver B; Ack B; Deliver A; Deq A 128 0; Deliver B].
Definition demo_cfg := {| rw_a := 3; miu_a := 128; rw_b := 2; miu_b := 128 |}.
Definition demo_ops := flat_map round (map Z.of_nat (seq 0 40)) ++ [Deq B 128 0; Deliver A; Recv A; Deq B 128 0; Deliver A; Recv A].
Example dlc_nonvacuous :
  cfg_ok demo_cfg /\
  let h := outs (init demo_cfg) demo_ops in let s := run demo_cfg demo_ops in
  len (accepted A h) = 40 /\ returned B h = accepted A h /\
  len (accepted B h) = 40 /\ returned A h = accepted B h /\
  vs (epa s) = 40 mod 16 /\ vr (epb s) = 40 mod 16 /\
  snd (step_full s (Send A (repeat 0 129))) = OSend (Err (LlcpError EMSGSIZE)).
Proof. split; [unfold cfg_ok, demo_cfg; cbn; lia|]. vm_compute. repeat split. Qed.
