(* C20 - Tag authentication and MAC-protected reads cannot be fooled.
   Only statements here; proofs are in Proofs/AuthMac.v, AuthTag.v, AuthLiteS.v, AuthNtag.v, AuthDefects.v, DesKat.v.
   Models: Model/Des.v (FIPS 46-3 DES, 2-key 3DES-CBC), Model/FelicaMac.v (reader over an abstract
   channel `xchg`, card model `ftag`, `honest` = the undisturbed channel), Model/Ntag.v. *)
From Coq Require Import ZArith List Bool.
From NV Require Import Base.Result Base.Bytes Base.PyPrims Model.Des Model.FelicaMac Model.Ntag Model.AuthRun
  Proofs.DesKat Proofs.AuthMac Proofs.AuthTag Proofs.AuthLiteS Proofs.AuthNtag Proofs.AuthDefects
  Base.PyAuth Gen.AuthK Bridge.Auth.
Import ListNotations.
Open Scope Z_scope.

(* --- the DES model reproduces the published known answers (NBS SP 500-20, FIPS 81) --- *)
Theorem C20_des_known_answers :
  des_encrypt [0x13;0x34;0x57;0x79;0x9B;0xBC;0xDF;0xF1] [0x01;0x23;0x45;0x67;0x89;0xAB;0xCD;0xEF] = [0x85;0xE8;0x13;0x54;0x0F;0x0A;0xB4;0x05] /\
  des_encrypt [1;1;1;1;1;1;1;1] [0x80;0;0;0;0;0;0;0] = [0x95;0xF8;0xA5;0xE5;0xDD;0x31;0xD9;0x00] /\
  des_encrypt [0x80;1;1;1;1;1;1;1] [0;0;0;0;0;0;0;0] = [0x95;0xA8;0xD7;0x28;0x13;0xDA;0xA9;0x4D] /\
  des_encrypt [0x10;0x46;0x91;0x34;0x89;0x98;0x01;0x31] [0;0;0;0;0;0;0;0] = [0x88;0xD5;0x5E;0x54;0xF5;0x4C;0x97;0xB4] /\
  des_encrypt [0x7C;0xA1;0x10;0x45;0x4A;0x1A;0x6E;0x57] [0x01;0xA1;0xD6;0xD0;0x39;0x77;0x67;0x42] = [0x69;0x0F;0x5B;0x0D;0x9A;0x26;0x93;0x9B] /\
  des_decrypt [0x01;0x23;0x45;0x67;0x89;0xAB;0xCD;0xEF] [0x3F;0xA4;0x0E;0x8A;0x98;0x4D;0x48;0x15] = [0x4E;0x6F;0x77;0x20;0x69;0x73;0x20;0x74].
Proof. exact (conj des_kat_classic (conj des_kat_varplain (conj des_kat_varkey (conj des_kat_perm (conj des_kat_subst des_kat_decrypt))))). Qed.
Print Assumptions C20_des_known_answers.

(* --- DES cannot distinguish keys that differ only in parity bits: this is the sense in which
       "the tag holds the key derived from the password" is read for FeliCa --- *)
Theorem C20_des_key_parity : forall k1 k2 iv d, (16 <= length k1)%nat -> key_equiv k1 k2 ->
  tdes_cbc_encrypt k1 iv d = tdes_cbc_encrypt k2 iv d.
Proof. exact tdes_cbc_key_equiv. Qed.
Print Assumptions C20_des_key_parity.

(* --- mac_read_sound: for EVERY channel behaviour (any modification of any response), read_with_mac
       returns data d only if what was received is d ++ mac ++ tail with MAC(sk, iv, d) = mac --- *)
Theorem C20_mac_read_sound : forall (T : Type) (xchg : T -> list Z -> T * xres) idm blocks (s s' : T * rstate) d,
  read_with_mac xchg idm blocks s = (s', Ok (Some d)) ->
  exists sk iv mac tail,
    r_sk (snd s) = Some sk /\ r_iv (snd s) = Some iv /\
    read_blocks xchg idm (blocks ++ [129]) s = (s', Ok (d ++ mac ++ tail)) /\
    len mac = 8 /\ len tail = 8 /\ len d = 16 * len blocks /\
    generate_mac d sk iv false = Ok mac.
Proof. exact @read_with_mac_sound. Qed.
Print Assumptions C20_mac_read_sound.

(* ... any modification of data or MAC that breaks the MAC equation is detected (no data returned) *)
Theorem C20_mac_read_detects : forall (T : Type) (xchg : T -> list Z -> T * xres) idm blocks (s s' : T * rstate) sk iv d mac tail,
  r_sk (snd s) = Some sk -> r_iv (snd s) = Some iv ->
  read_blocks xchg idm (blocks ++ [129]) s = (s', Ok (d ++ mac ++ tail)) -> len mac = 8 -> len tail = 8 ->
  generate_mac d sk iv false <> Ok mac ->
  exists r, read_with_mac xchg idm blocks s = (s', r) /\ forall d', r <> Ok (Some d').
Proof. exact @read_with_mac_detects. Qed.
Print Assumptions C20_mac_read_detects.

(* ... and genuine data is returned *)
Theorem C20_mac_read_complete : forall (T : Type) (xchg : T -> list Z -> T * xres) idm blocks (s s' : T * rstate) sk iv d mac tail,
  r_sk (snd s) = Some sk -> r_iv (snd s) = Some iv ->
  read_blocks xchg idm (blocks ++ [129]) s = (s', Ok (d ++ mac ++ tail)) -> len mac = 8 -> len tail = 8 ->
  generate_mac d sk iv false = Ok mac ->
  read_with_mac xchg idm blocks s = (s', Ok (Some d)).
Proof. exact @read_with_mac_complete. Qed.
Print Assumptions C20_mac_read_complete.

(* --- FelicaLite.authenticate over EVERY channel: the result is the comparison of the received MAC
       with the MAC under the session key derived from the password and the challenge --- *)
Theorem C20_auth_any_channel : forall (T : Type) (xchg : T -> list Z -> T * xres) idm pw rc key (s s1 s2 : T * rstate) idb mac tail m,
  felica_key pw = Ok key ->
  write_without_mac xchg idm (rev_halves rc) 128 (fst s, mkR (r_sk (snd s)) (r_iv (snd s)) false) = (s1, Ok tt) ->
  read_without_mac xchg idm [130; 129] s1 = (s2, Ok (idb ++ mac ++ tail)) -> len mac = 8 -> len tail = 8 ->
  generate_mac idb (session_key key rc) (firstn 8 rc) false = Ok m ->
  lite_authenticate xchg idm pw rc s =
    ((fst s2, if list_eqb mac m then mkR (Some (session_key key rc)) (Some (firstn 8 rc)) true
              else mkR (r_sk (snd s)) (r_iv (snd s)) false), Ok (list_eqb mac m)).
Proof. exact @lite_authenticate_generic. Qed.
Print Assumptions C20_auth_any_channel.

(* --- auth_iff_mac: against the card (undisturbed channel), authenticate(pw) is True exactly when the
       MAC under the key derived from pw equals the MAC the card computed under its own key --- *)
Theorem C20_auth_iff_mac : forall tg st pw rc key,
  ft_wf tg -> length rc = 16%nat -> felica_key pw = Ok key ->
  exists b, snd (lite_authenticate honest (ft_idm tg) pw rc (tg, st)) = Ok b /\
    (b = true <->
     generate_mac (ft_mem tg 130) (session_key key rc) (firstn 8 rc) false =
     generate_mac (ft_mem tg 130) (session_key (ft_ck tg) rc) (firstn 8 rc) false).
Proof. exact lite_auth_iff_mac. Qed.
Print Assumptions C20_auth_iff_mac.

(* --- auth_same_key: the card holds the key derived from pw (modulo parity bits) -> True, and the
       reader then holds the session key --- *)
Theorem C20_auth_same_key : forall tg st pw rc key,
  ft_wf tg -> length rc = 16%nat -> felica_key pw = Ok key -> key_equiv key (ft_ck tg) ->
  snd (lite_authenticate honest (ft_idm tg) pw rc (tg, st)) = Ok true /\
  snd (fst (lite_authenticate honest (ft_idm tg) pw rc (tg, st))) = mkR (Some (session_key key rc)) (Some (firstn 8 rc)) true.
Proof. exact lite_auth_same_key. Qed.
Print Assumptions C20_auth_same_key.

(* --- auth_other_key: under the ideal-MAC premise (the MAC over this ID block under this challenge
       determines the card key up to parity) a card holding another key is rejected.  The premise is
       the first hypothesis of the theorem; cryptographic strength itself is not proved. --- *)
Theorem C20_auth_other_key : forall idb rc,
  (forall k1 k2,
     generate_mac idb (session_key k1 rc) (firstn 8 rc) false = generate_mac idb (session_key k2 rc) (firstn 8 rc) false ->
     key_equiv k1 k2) ->
  forall tg st pw key,
  ft_wf tg -> length rc = 16%nat -> ft_mem tg 130 = idb -> felica_key pw = Ok key -> ~ key_equiv key (ft_ck tg) ->
  snd (lite_authenticate honest (ft_idm tg) pw rc (tg, st)) = Ok false.
Proof. exact lite_auth_other_key_sec. Qed.
Print Assumptions C20_auth_other_key.

(* --- protect_then_auth, FeliCa Lite: protect(pw) on a card whose system blocks are writable returns
       True and a following authenticate(pw) returns True (any challenge, any protect_from) --- *)
Theorem C20_protect_then_auth_lite : forall tg st pw pf rc,
  ft_wf tg -> nth 2 (ft_mem tg 136) 0 = 255 -> pw_len_bad (Some pw) = false -> 0 <= pf -> length rc = 16%nat ->
  exists s1, lite_protect honest (ft_idm tg) (Some pw) false pf (tg, st) = (s1, Ok PTrue) /\
             snd (lite_authenticate honest (ft_idm tg) pw rc s1) = Ok true.
Proof. exact lite_protect_then_auth. Qed.
Print Assumptions C20_protect_then_auth_lite.

(* --- FeliCa Lite-S: mutual authentication (internal authentication, MAC_A-protected write of the
       STATE block, MAC read back) with a card holding the key (modulo parity) succeeds; the reader
       ends authenticated with the session key and the card with EXT_AUTH set and WCNT incremented --- *)
Theorem C20_auth_same_key_lites : forall tg st rep pw rc key,
  ft_wf tg -> ft_lites tg = true -> length rc = 16%nat -> felica_key pw = Ok key -> key_equiv key (ft_ck tg) ->
  lites_authenticate honest (ft_idm tg) rep pw rc (tg, st) =
    ((after_mac_write (with_rc tg rc) 146 (1 :: zeros 15),
      mkR (Some (session_key key rc)) (Some (firstn 8 rc)) true), Ok true).
Proof. exact lites_auth_same_key. Qed.
Print Assumptions C20_auth_same_key_lites.

(* --- protect_then_auth, FeliCa Lite-S (repaired code; byte-string password): protect(pw) on a card
       whose system blocks are writable returns True and a following authenticate(pw) returns True --- *)
Theorem C20_protect_then_auth_lites : forall tg st pw rp pf rc rc',
  ft_wf tg -> ft_lites tg = true -> nth 2 (ft_mem tg 136) 0 = 255 -> pw_len_bad (Some pw) = false -> 0 <= pf ->
  length rc = 16%nat -> length rc' = 16%nat ->
  exists s1, lites_protect honest (ft_idm tg) true (Some pw) rp pf rc (tg, st) = (s1, Ok PTrue) /\
             snd (lites_authenticate honest (ft_idm tg) true pw rc' s1) = Ok true.
Proof. exact lites_protect_then_auth. Qed.
Print Assumptions C20_protect_then_auth_lites.
(* For a card holding ANOTHER key the first phase of FelicaLiteS.authenticate is FelicaLite.authenticate,
   so C20_auth_iff_mac / C20_auth_other_key apply unchanged (lites_authenticate returns False as soon as
   lite_authenticate does). *)
Theorem C20_lites_auth_first_phase : forall (T : Type) (xchg : T -> list Z -> T * xres) idm rep pw rc (s s' : T * rstate),
  lite_authenticate xchg idm pw rc s = (s', Ok false) -> lites_authenticate xchg idm rep pw rc s = (s', Ok false).
Proof. exact @lites_auth_first_phase. Qed.
Print Assumptions C20_lites_auth_first_phase.

(* --- NTAG21x: PWD_AUTH is an exact comparison of all 48 bits --- *)
Theorem C20_ntag_auth_exact : forall tg st pw key,
  n_target st = true -> ntag_key pw = Ok key ->
  exists b tg', ntag_authenticate nhonest pw (tg, st) = ((tg', mkN true b), Ok b) /\
    nt_cfg tg' = nt_cfg tg /\ nt_mem tg' = nt_mem tg /\ nt_eff tg' = nt_eff tg /\
    (b = true <-> (firstn 4 key = nt_pwd tg /\ nt_pack tg = skipn 4 key)).
Proof. exact ntag_auth_exact. Qed.
Print Assumptions C20_ntag_auth_exact.

(* --- protect_then_auth, NTAG21x: after protect(pw) authenticate(pw) is True and authenticate(pw') is
       False for every pw' whose key bytes (first 6, or the factory default) differ --- *)
Theorem C20_protect_then_auth_ntag : forall tg st pw rp pf key,
  nt_open tg -> n_target st = true -> ntag_key pw = Ok key ->
  exists s1, ntag_protect nhonest nsense_present (nt_cfg tg) pw rp pf (tg, st) = (s1, Ok true) /\
    snd (ntag_authenticate nhonest pw s1) = Ok true /\
    forall pw' key', ntag_key pw' = Ok key' -> key' <> key -> snd (ntag_authenticate nhonest pw' s1) = Ok false.
Proof. exact ntag_protect_then_auth. Qed.
Print Assumptions C20_protect_then_auth_ntag.
Theorem C20_ntag_products_open : forall cfg, In cfg [16; 37; 41; 131; 227] -> nt_open (ntag_blank cfg).
Proof. exact ntag_blank_open. Qed.
Print Assumptions C20_ntag_products_open.

(* --- tie: the byte manipulation around the crypto calls, regenerated from tt3_sony.py / tt3.py /
       tt2_nxp.py on this run (Gen/AuthK.v, pyDes uninterpreted = Section variable des3_cbc), is what the
       models compute, with des3_cbc := the DES model --- *)
Theorem C20_bridge_generate_mac : forall data key iv flip,
  generate_mac data key iv flip =
    if gen_mac_assert data key iv then Ok (gen_generate_mac tdes_cbc_encrypt data key iv flip) else Crash AssertErr.
Proof. exact bridge_generate_mac. Qed.
Print Assumptions C20_bridge_generate_mac.
Theorem C20_bridge_felica_key : forall pw,
  felica_key pw = if gen_auth_pw_bad pw then Err ValueError else Ok (gen_auth_key pw).
Proof. exact bridge_felica_key. Qed.
Print Assumptions C20_bridge_felica_key.
Theorem C20_bridge_auth_rc_block : forall rc, length rc = 16%nat ->
  gen_auth_rc_block rc = rev_halves rc /\ gen_auth_rc_blockno = 128 /\ gen_auth_read_blocks = [130; 129].
Proof. exact bridge_auth_rc_block. Qed.
Print Assumptions C20_bridge_auth_rc_block.
Theorem C20_bridge_session_key : forall key rc,
  gen_auth_sk tdes_cbc_encrypt key rc = session_key key rc /\ gen_auth_iv rc = firstn 8 rc.
Proof. exact bridge_session_key. Qed.
Print Assumptions C20_bridge_session_key.
Theorem C20_bridge_auth_mac_ok : forall data sk rc m,
  generate_mac (pyslice data 0 (-16)) sk (firstn 8 rc) false = Ok m ->
  gen_auth_mac_ok tdes_cbc_encrypt data sk rc = list_eqb (pyslice data (-16) (-8)) m.
Proof. exact bridge_auth_mac_ok. Qed.
Print Assumptions C20_bridge_auth_mac_ok.
(* read_with_mac of the model is: split the response, compare, return - as generated from the method *)
Theorem C20_bridge_read_with_mac : forall (T : Type) (xchg : T -> list Z -> T * xres) idm blocks (s s' : T * rstate) sk iv rsp,
  r_sk (snd s) = Some sk -> r_iv (snd s) = Some iv ->
  read_blocks xchg idm (blocks ++ [gen_rmac_mac_block]) s = (s', Ok rsp) ->
  gen_mac_assert (gen_rmac_data rsp sk iv) sk iv = true ->
  read_with_mac xchg idm blocks s =
    (s', Ok (if gen_rmac_reject tdes_cbc_encrypt rsp sk iv then None else Some (gen_rmac_data rsp sk iv))).
Proof. exact @bridge_read_with_mac. Qed.
Print Assumptions C20_bridge_read_with_mac.
Theorem C20_bridge_wmac_pieces : forall w wcnt block data sk,
  gen_wmac_wcnt w = slice w 0 3 /\ gen_wmac_wcnt_block = 144 /\ gen_wmac_maca_block = 145 /\
  gen_wmac_plain wcnt block data = wcnt ++ [0; block; 0; 145; 0] ++ data /\
  (length sk = 16%nat -> gen_wmac_flip sk = skipn 8 sk ++ firstn 8 sk).
Proof. exact bridge_wmac_pieces. Qed.
Print Assumptions C20_bridge_wmac_pieces.
Theorem C20_bridge_wmac_payload : forall wcnt block data sk iv m, length sk = 16%nat ->
  let d := wcnt ++ [0; block; 0; 145; 0] ++ data in
  generate_mac d (skipn 8 sk ++ firstn 8 sk) iv false = Ok m ->
  gen_wmac_payload (gen_wmac_plain wcnt block data) (gen_wmac_maca tdes_cbc_encrypt (gen_wmac_plain wcnt block data) sk iv wcnt)
  = slice d 8 24 ++ m ++ wcnt ++ zeros 5.
Proof. exact bridge_wmac_payload. Qed.
Print Assumptions C20_bridge_wmac_payload.
Theorem C20_bridge_protect_key : forall pw key, length key = 16%nat ->
  gen_protect_key pw = pw_key pw /\ gen_lites_protect_key pw = pw_key pw /\
  gen_protect_ck_block key = rev_halves key /\ gen_lites_protect_ck_block key = rev_halves key /\
  gen_protect_ck_blockno = 135 /\ gen_lites_protect_ck_blockno = 135.
Proof. exact bridge_protect_key. Qed.
Print Assumptions C20_bridge_protect_key.
Theorem C20_bridge_lites_ckv : forall blk, length blk = 16%nat -> bytes_ok blk ->
  gen_lites_ckv_block blk = lites_ckv_block blk /\ gen_lites_ckv_blockno = 134.
Proof. exact bridge_lites_ckv. Qed.
Print Assumptions C20_bridge_lites_ckv.
Theorem C20_bridge_block_code : forall n, 0 <= n < 65536 -> block_code n = Ok (gen_blockcode_pack n 0 0).
Proof. exact bridge_block_code. Qed.
Print Assumptions C20_bridge_block_code.
Theorem C20_bridge_service_codes :
  gen_sc_read = [11; 0] /\ gen_sc_read_mac = [11; 0] /\ gen_sc_write = [9; 0] /\ gen_sc_write_mac = [9; 0].
Proof. exact bridge_service_codes. Qed.
Print Assumptions C20_bridge_service_codes.
Theorem C20_bridge_ntag_key : forall pw,
  ntag_key pw = (if gen_ntag_pw_bad pw then Err ValueError else Ok (gen_ntag_key pw)) /\
  gen_ntag_protect_pw_bad pw = gen_ntag_pw_bad pw /\ gen_ntag_protect_key pw = gen_ntag_key pw.
Proof. exact bridge_ntag_key. Qed.
Print Assumptions C20_bridge_ntag_key.
Theorem C20_bridge_ntag_auth : forall key rsp,
  gen_ntag_auth_cmd key = 27 :: firstn 4 key /\ gen_ntag_auth_ok rsp key = list_eqb rsp (slice key 4 6).
Proof. exact bridge_ntag_auth. Qed.
Print Assumptions C20_bridge_ntag_auth.
Theorem C20_bridge_ntag_cfg_edit : forall cfg key rp pf, length cfg = 16%nat -> length key = 6%nat ->
  gen_ntag_cfg_edit cfg key rp pf = ntag_cfg_edit cfg key rp pf.
Proof. exact bridge_ntag_cfg_edit. Qed.
Print Assumptions C20_bridge_ntag_cfg_edit.
Theorem C20_bridge_ntag_cfg_writes : forall cfgpage cfg,
  map (fun i => (gen_ntag_cfg_page cfgpage i, gen_ntag_cfg_slice cfg i)) (zrange 0 gen_ntag_cfg_count) =
  [(cfgpage, slice cfg 0 4); (cfgpage + 1, slice cfg 4 8); (cfgpage + 2, slice cfg 8 12); (cfgpage + 3, slice cfg 12 16)].
Proof. exact bridge_ntag_cfg_writes. Qed.
Print Assumptions C20_bridge_ntag_cfg_writes.
Theorem C20_bridge_ntag_cc : forall cc rp pf, length cc = 4%nat ->
  gen_ntag_cc_cond pf = (pf <=? 3) /\ gen_ntag_cc_test cc = ntag_cc_test cc /\ gen_ntag_cc_edit cc rp = ntag_cc_edit cc rp.
Proof. exact bridge_ntag_cc. Qed.
Print Assumptions C20_bridge_ntag_cc.

(* --- defects of the code as found (model with repaired = false), and the repaired behaviour --- *)
Theorem C20_lites_authenticate_found_TypeError :
  first_obs (felica_run true false w_idm w_rsps [OpAuth w_key w_rc]) = [ObBool (Crash TypeErr)] /\
  first_obs (felica_run true true w_idm w_rsps [OpAuth w_key w_rc]) = [ObBool (Ok false)].
Proof. exact (conj lites_authenticate_found_TypeError lites_authenticate_repaired_False). Qed.
Print Assumptions C20_lites_authenticate_found_TypeError.
Theorem C20_lites_protect_found_AttributeError :
  first_obs (felica_run true false w_idm w_mc_rsp [OpProtect (Some w_key) false 1 w_rc]) = [ObProt (Crash AttributeErr)].
Proof. exact lites_protect_found_AttributeError. Qed.
Print Assumptions C20_lites_protect_found_AttributeError.

(* non-vacuity: a concrete card, password (the card key with parity bits changed) and challenge meet
   the hypotheses of auth_same_key / protect_then_auth, and the runs give the stated results *)
Example C20_nonvacuous :
  let tg := mkFT false w_idm (mem_set (blank_mem false w_rc) 135 (rev_halves w_key)) false in
  let pw := map (fun b => Z.lxor b 1) w_key in
  felica_key pw = Ok pw /\ key_equivb pw (ft_ck tg) = true /\ list_eqb pw (ft_ck tg) = false /\
  snd (lite_authenticate honest w_idm pw w_rc (tg, rstate0)) = Ok true /\
  nth 2 (ft_mem (blank_tag false w_idm w_rc) 136) 0 = 255 /\
  snd (lite_protect honest w_idm (Some w_key) false 0 (blank_tag false w_idm w_rc, rstate0)) = Ok PTrue /\
  snd (lites_protect honest w_idm true (Some w_key) true 0 w_rc (blank_tag true w_idm w_rc, rstate0)) = Ok PTrue /\
  snd (ntag_protect nhonest nsense_present 41 [1; 2; 3; 4; 5; 6] true 4 (ntag_blank 41, nstate0)) = Ok true.
Proof.
  intros tg pw.
  assert (Hwf : forall l, ft_wf (blank_tag l w_idm w_rc)).
  { intro l. split; [reflexivity|]. intro b. unfold blank_tag, blank_mem. cbn [ft_mem].
    destruct (b =? 136); [reflexivity|]. destruct (b =? 130); [reflexivity|].
    destruct (b =? 144); [destruct l|]; reflexivity. }
  assert (Hk : felica_key pw = Ok pw) by reflexivity.
  assert (He : key_equivb pw (ft_ck tg) = true) by reflexivity.
  split; [exact Hk|]. split; [exact He|]. split; [reflexivity|].
  split; [|split; [reflexivity|split; [|split; [|reflexivity]]]].
  (* the three runs that involve DES are instances of the theorems above *)
  - apply (lite_auth_same_key tg rstate0 pw w_rc pw); [|reflexivity|exact Hk|apply key_equivb_spec, He].
    apply (with_block_wf (blank_tag false w_idm w_rc) 135 (rev_halves w_key)); [apply Hwf | reflexivity].
  - destruct (lite_protect_then_auth (blank_tag false w_idm w_rc) rstate0 w_key 0 w_rc) as (s1 & E & _);
      [apply Hwf | reflexivity | reflexivity | apply Z.le_refl | reflexivity | exact (f_equal snd E)].
  - destruct (lites_protect_then_auth (blank_tag true w_idm w_rc) rstate0 w_key true 0 w_rc w_rc) as (s1 & E & _);
      [apply Hwf | reflexivity | reflexivity | reflexivity | apply Z.le_refl | reflexivity | reflexivity | exact (f_equal snd E)].
Qed.
