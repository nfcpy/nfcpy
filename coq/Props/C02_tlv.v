(* C02 - An interrupted NDEF write never leaves a corrupt message: Type 1 / Type 2 tags.
   Only statements here; proofs are in Proofs/TlvLib.v, Proofs/T2T*.v, Proofs/T1T*.v.
   Power cut after the k-th state-changing command = the tag has executed the first k WRITE commands of the
   write (firstn k) and nothing else; the observer is a fresh reader of that memory. *)
From Coq Require Import ZArith List Bool.
From NV Require Import Base.Result Base.Bytes Model.TlvMem Model.T2T Model.T1T Proofs.TlvLib Proofs.TlvPhases Proofs.T2TPhases Proofs.T2TCut Proofs.T2TRetry Proofs.T1T Proofs.T1TRetry.
Import ListNotations.
Open Scope Z_scope.

(* every well-formed layout, every message that fits, every cut point k (k beyond the last command = complete
   write): the fresh reader sees the previous message, an empty message, or the complete new message *)
Theorem C02_t2_cut_safe : forall m d cap, wf_layout m -> t2_capacity m = Some cap -> len d <= cap -> forall k,
  let mk := apply_ws m (firstn k (snd (t2_write m d))) in
  t2_fresh mk = t2_fresh m \/ t2_fresh mk = Msg [] \/ t2_fresh mk = Msg d.
Proof. exact t2_cut_safe. Qed.
Print Assumptions C02_t2_cut_safe.

(* the same for the list of observations (cut after 0, 1, .., n commands) compared in the correspondence run *)
Theorem C02_t2_cut_obs_safe : forall m d cap, wf_layout m -> t2_capacity m = Some cap -> len d <= cap ->
  Forall (fun f => f = t2_fresh m \/ f = Msg [] \/ f = Msg d) (t2_cut_obs m d).
Proof. exact t2_cut_obs_safe. Qed.
Print Assumptions C02_t2_cut_obs_safe.

(* The length commit as it was before the repair (FF of the 3-byte length field written together with, and in
   page order before, the two length bytes) violates the property: NDEF TLV at byte 17, old message 40 bytes,
   new message 300 bytes, cut after 78 of 79 WRITE commands - the fresh reader sees 257 bytes of mixed content. *)
Definition ex_cut_mem : list Z :=
  [1;2;3;136; 5;6;7;8; 12;72;0;0; 225;16;64;0; 0; 3;40] ++ map Z.of_nat (seq 0 40) ++ [254] ++ repeat 0 468.
Definition ex_cut_new : list Z := map (fun i => Z.of_nat i mod 251 + 1) (seq 0 300).
Theorem C02_t2_cut_unrepaired_refuted :
  wf_layout ex_cut_mem /\ t2_capacity ex_cut_mem = Some 507 /\ len ex_cut_new <= 507 /\
  exists x, t2_fresh (apply_ws ex_cut_mem (firstn 78 (snd (t2_write_unrepaired ex_cut_mem ex_cut_new)))) = Msg x /\
            len x = 257 /\ x <> [] /\ Msg x <> t2_fresh ex_cut_mem /\ x <> ex_cut_new.
Proof.
  split; [vm_compute; reflexivity|]. split; [vm_compute; reflexivity|]. split; [vm_compute; discriminate|].
  (* the witness stays a local definition, so that its 257 bytes are written out once *)
  evar (x : list Z). exists x. split; [vm_compute; reflexivity|]. split; [vm_compute; reflexivity|].
  split; [vm_compute; discriminate|]. split; [vm_compute; discriminate|].
  intro H. apply (f_equal (@length Z)) in H. vm_compute in H. discriminate H.
Qed.
Print Assumptions C02_t2_cut_unrepaired_refuted.

Example C02_t2_nonvacuous :
  wf_layout ex_cut_mem /\ t2_capacity ex_cut_mem = Some 507 /\ len ex_cut_new <= 507 /\
  length (snd (t2_write ex_cut_mem ex_cut_new)) = 80%nat /\
  t2_fresh (apply_ws ex_cut_mem (firstn 79 (snd (t2_write ex_cut_mem ex_cut_new)))) = Msg [].
Proof.
  split; [vm_compute; reflexivity|]. split; [vm_compute; reflexivity|]. split; [vm_compute; discriminate|].
  (* the commands are evaluated once *)
  eassert (E : snd (t2_write ex_cut_mem ex_cut_new) = _) by (vm_compute; reflexivity). rewrite E. clear E.
  split; vm_compute; reflexivity.
Qed.

(* ---------------------------------------------------------------- Type 1.
   tt1.py commits the 3-byte length field in one synchronize, in ascending block order, so FF becomes visible before
   the two length bytes when they lie in the next block.  The repair used for tt2.py cannot be applied without
   changing tests/test_tag_tt1.py (test_write_to_dynamic_memory pins exactly that command order), therefore the model
   is the code as it is: refutation witness + the theorem under the guard that excludes that input class
   (three length bytes that do not share one write unit with each other). *)
Definition ex_t1_cut_mem : list Z :=
  [1;2;3;4;5;6;7;0; 225;16;63;0] ++ repeat 0 10 ++ [3;40] ++ map Z.of_nat (seq 0 40) ++ [254] ++ repeat 0 447.
Definition ex_t1_cut_new : list Z := map (fun i => Z.of_nat i mod 251 + 1) (seq 0 300).
Theorem C02_t1_cut_refuted :
  t1_wf_layout 18 ex_t1_cut_mem /\ t1_capacity 18 ex_t1_cut_mem = Some 462 /\ len ex_t1_cut_new <= 462 /\
  exists x, t1_fresh 18 (apply_ws ex_t1_cut_mem (firstn 40 (snd (t1_write 18 ex_t1_cut_mem ex_t1_cut_new)))) = Msg x /\
            len x = 1 /\ Msg x <> t1_fresh 18 ex_t1_cut_mem /\ x <> ex_t1_cut_new.
Proof.
  split; [vm_compute; reflexivity|]. split; [vm_compute; reflexivity|]. split; [vm_compute; discriminate|].
  eexists. split; [vm_compute; reflexivity|]. split; [vm_compute; reflexivity|].
  split; [vm_compute; discriminate|]. intro H. apply (f_equal (@length Z)) in H. discriminate H.
Qed.
Print Assumptions C02_t1_cut_refuted.

(* one_unit u off: the bytes off+1 .. off+3 lie in the same write unit (u = 8 for dynamic memory, 1 for static memory) *)
Theorem C02_t1_cut_safe_guarded : forall hr0 m d cap L, t1_wf_layout hr0 m -> t1_capacity hr0 m = Some cap -> len d <= cap ->
  t1_layout hr0 m = Some L -> (len d < 255 \/ one_unit (t1_unit hr0) (l_off L)) -> forall k,
  let mk := apply_ws m (firstn k (snd (t1_write hr0 m d))) in
  t1_fresh hr0 mk = t1_fresh hr0 m \/ t1_fresh hr0 mk = Msg [] \/ t1_fresh hr0 mk = Msg d.
Proof. exact t1_cut_safe. Qed.
Print Assumptions C02_t1_cut_safe_guarded.

Example C02_t1_nonvacuous :
  t1_wf_layout 18 ex_t1_cut_mem /\ (exists L, t1_layout 18 ex_t1_cut_mem = Some L /\ l_off L = 22) /\
  length (snd (t1_write 18 ex_t1_cut_mem [1;2;3])) = 3%nat /\
  t1_fresh 18 (apply_ws ex_t1_cut_mem (firstn 2 (snd (t1_write 18 ex_t1_cut_mem [1;2;3])))) = Msg [].
Proof. split; [vm_compute; reflexivity|]. split; [eexists; split; vm_compute; reflexivity|]. split; vm_compute; reflexivity. Qed.

(* ---------------------------------------------------------------- several attempts on one tag object (Type 2).
   t2_reader_ok m d (m1, F, c): tag memory m1, data_from_tag F, data_in_cache c are a state the reader of a tag object
   activated on memory m can be in while d is being assigned (Proofs/TlvRetry.v INV: every write unit of the tag holds
   what the reader believes or what the cache holds - or the new message is already complete; the length byte on the
   tag is the old one with nothing else written, or 0, or the message is complete).
   It holds initially and is preserved by EVERY attempt, whatever command fails (kf) and however (f: lost, or executed
   with the response lost), hence after any number of failed attempts; all tag memories on the way are safe. *)
Theorem C02_t2_reader_ok_init : forall m d cap, wf_layout m -> t2_capacity m = Some cap -> len d <= cap ->
  t2_reader_ok m d (m, view m, view m).
Proof. exact t2_reader_ok_init. Qed.
Print Assumptions C02_t2_reader_ok_init.

Theorem C02_t2_reader_ok_preserved : forall m d L m1 F c kf f, wfL m L -> t2_reader_ok m d (m1, F, c) ->
  let '(r, st', ex) := t2_attempt m1 L F c d kf f in
  t2_reader_ok m d st' /\ fst (fst st') = apply_ws m1 ex /\
  (forall i, safe_class m d (apply_ws m1 (firstn i ex))) /\
  (r = Ok tt -> t2_fresh (fst (fst st')) = Msg d /\ t2_capacity (fst (fst st')) = Some (l_cap L)) /\ (kf = None -> r = Ok tt).
Proof. exact t2_attempt_reader_ok. Qed.
Print Assumptions C02_t2_reader_ok_preserved.

(* after any list of failed attempts, the next attempt - cut after k2 commands, or failing again at command kf with fate f -
   leaves the previous message, an empty message or the new message for a fresh reader (safe_class), at every point *)
Theorem C02_t2_retry_cut_safe : forall m d cap faults kf f, wf_layout m -> t2_capacity m = Some cap -> len d <= cap ->
  exists L m1 F c, t2_after m d faults = Some (L, (m1, F, c)) /\ safe_class m d m1 /\
    forall k2, safe_class m d (apply_ws m1 (firstn k2 (snd (t2_attempt m1 L F c d kf f)))).
Proof. exact t2_retry_cut_safe. Qed.
Print Assumptions C02_t2_retry_cut_safe.

(* non-vacuity: 300 bytes onto the layout with the NDEF TLV at byte 17; first attempt: the commit command (80th) is executed
   but not answered, second attempt: its first command is lost; the reader has forgotten its cache, the next attempt writes again *)
Example C02_t2_retry_nonvacuous :
  exists L m1 F c, t2_after ex_cut_mem ex_cut_new [(80%nat, Unanswered); (1%nat, Lost)] = Some (L, (m1, F, c)) /\
    t2_fresh m1 = Msg ex_cut_new /\ F = view m1 /\ c = view m1 /\
    snd (t2_attempt m1 L F c ex_cut_new None Lost) <> [].
Proof.
  (* the witnesses stay local definitions, so that the three 528 byte images are written out once *)
  eassert (E : t2_after ex_cut_mem ex_cut_new [(80%nat, Unanswered); (1%nat, Lost)] = Some (_, (_, _, _))) by (vm_compute; reflexivity).
  lazymatch type of E with _ = Some (?a, (?b, ?f, ?g)) => pose (L := a); pose (m1 := b); pose (F := f); pose (c := g) end.
  exists L, m1, F, c. split; [exact E|]. clear E.
  split; [vm_compute; reflexivity|]. split; [reflexivity|]. split; [reflexivity|].
  (* only the number of commands is needed: the memories of the attempt are never built *)
  intro H. apply (f_equal (@length write)) in H. lazy in H. discriminate H.
Qed.

(* Type 1: invariant and retry safety under the same guard as C02_t1_cut_safe_guarded *)
Theorem C02_t1_reader_ok_preserved : forall hr0 m d L m1 F c kf f, wfL1 hr0 m L -> t1_reader_ok hr0 m d (m1, F, c) ->
  let '(r, st', ex) := t1_attempt hr0 m1 L F c d kf f in
  t1_reader_ok hr0 m d st' /\ fst (fst st') = apply_ws m1 ex /\
  (forall i, t1_safe_class hr0 m d (apply_ws m1 (firstn i ex))) /\
  (r = Ok tt -> t1_fresh hr0 (fst (fst st')) = Msg d /\ t1_capacity hr0 (fst (fst st')) = Some (l_cap L)) /\ (kf = None -> r = Ok tt).
Proof. exact t1_attempt_reader_ok. Qed.
Print Assumptions C02_t1_reader_ok_preserved.

Theorem C02_t1_retry_cut_safe_guarded : forall hr0 m d cap L faults kf f, t1_wf_layout hr0 m -> t1_capacity hr0 m = Some cap -> len d <= cap ->
  t1_layout hr0 m = Some L -> t1_guard hr0 L d ->
  exists m1 F c, t1_after hr0 m d faults = Some (L, (m1, F, c)) /\ t1_safe_class hr0 m d m1 /\
    forall k2, t1_safe_class hr0 m d (apply_ws m1 (firstn k2 (snd (t1_attempt hr0 m1 L F c d kf f)))).
Proof. exact t1_retry_cut_safe. Qed.
Print Assumptions C02_t1_retry_cut_safe_guarded.

(* ---------------------------------------------------------------- a different assignment after failed attempts.
   After the repair c02-tlv-reader-reset-after-failed-write the memory reader forgets its cache when a synchronize fails, so every
   reader_ok state is a fresh reader's state on a well-formed memory.  Hence: after any faulted attempts with data d1, an assignment
   of ANY data d2 - itself cut after k2 commands or failing at command kf with fate f - leaves for a fresh reader what the tag held
   before this assignment (m1), an empty message or d2; undisturbed (kf = None) it succeeds and reads back d2.
   (Before the repair: an assignment whose commit command was executed but not answered, followed by an assignment of other data,
   wrote the new data under the still valid length - found by the check, findings/C02.json.) *)
Theorem C02_t2_rewrite_safe : forall m d1 cap faults d2 kf f, wf_layout m -> t2_capacity m = Some cap -> len d1 <= cap -> len d2 <= cap ->
  exists L m1 F c, t2_after m d1 faults = Some (L, (m1, F, c)) /\ safe_class m d1 m1 /\
    let '(r, st', ex) := t2_attempt m1 L F c d2 kf f in
    (forall k2, safe_class m1 d2 (apply_ws m1 (firstn k2 ex))) /\
    (kf = None -> r = Ok tt /\ t2_fresh (apply_ws m1 ex) = Msg d2 /\ t2_capacity (apply_ws m1 ex) = Some cap).
Proof. exact t2_rewrite_safe. Qed.
Print Assumptions C02_t2_rewrite_safe.

Theorem C02_t1_rewrite_safe_guarded : forall hr0 m d1 cap L faults d2 kf f, t1_wf_layout hr0 m -> t1_capacity hr0 m = Some cap ->
  len d1 <= cap -> len d2 <= cap -> t1_layout hr0 m = Some L -> t1_guard hr0 L d1 -> t1_guard hr0 L d2 ->
  exists m1 F c, t1_after hr0 m d1 faults = Some (L, (m1, F, c)) /\ t1_safe_class hr0 m d1 m1 /\
    let '(r, st', ex) := t1_attempt hr0 m1 L F c d2 kf f in
    (forall k2, t1_safe_class hr0 m1 d2 (apply_ws m1 (firstn k2 ex))) /\
    (kf = None -> r = Ok tt /\ t1_fresh hr0 (apply_ws m1 ex) = Msg d2 /\ t1_capacity hr0 (apply_ws m1 ex) = Some cap).
Proof. exact t1_rewrite_safe. Qed.
Print Assumptions C02_t1_rewrite_safe_guarded.
