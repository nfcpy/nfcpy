(* C19 - Peer-to-peer activation negotiates limits both sides then obey.
   Only statements here; proofs are in Proofs/Negotiate.v and Bridge/Negotiate.v.  The model
   (Model/Negotiate.v) is of the repaired code (fixes/c04-target-miu-did.diff,
   fixes/c19-lto-held-as-announced.diff, fixes/c19-lsc-announced-after-reactivation.diff).  `lopt` are the LLC options of one device
   (miu, lto, lsc, sec, bound well-known service access points), `general_bytes` what
   LogicalLinkController.activate announces, `llc_takeover` what it stores from the peer's
   general bytes, `negotiate_dep` both NFC-DEP activations against each other through the frame codec,
   `negotiate` the two stacks together. *)
From Coq Require Import ZArith List Bool.
From NV Require Import Base.Result Base.Bytes Model.Dep Model.Negotiate Gen.Negotiate Proofs.Negotiate Bridge.Negotiate.
Import ListNotations.
Open Scope Z_scope.

(* --- the LLCP send MIU equals the peer's receive MIU: for ALL configured values 128..2175;
       below 128 the peer assumes 128, above 2175 (MIUX is 11 bits) something smaller than configured --- *)
Theorem C19_miu_agree : forall b sec gb c, general_bytes b = Ok gb -> llc_takeover sec gb = Ok c ->
  c_ok c = true /\
  (128 <= lo_miu b <= 2175 -> c_send_miu c = lo_miu b) /\
  (lo_miu b < 128 -> c_send_miu c = 128) /\
  (2175 < lo_miu b -> 128 <= c_send_miu c <= 2175 /\ c_send_miu c < lo_miu b).
Proof. exact miu_agree_thm. Qed.
Print Assumptions C19_miu_agree.

(* --- the link timeout one side holds for the peer is the one the peer holds for itself: all values >= 0 --- *)
Theorem C19_lto_agree : forall b sec gb c, general_bytes b = Ok gb -> llc_takeover sec gb = Ok c ->
  0 <= lo_lto b -> c_recv_lto c = l_send_lto b.
Proof. exact lto_agree_thm. Qed.
Print Assumptions C19_lto_agree.

(* --- the service list is the peer's --- *)
Theorem C19_wks_agree : forall b sec gb c, general_bytes b = Ok gb -> llc_takeover sec gb = Ok c ->
  wks_of (lo_saps b) < 65536 -> c_send_wks c = wks_of (lo_saps b).
Proof. exact wks_agree_thm. Qed.
Print Assumptions C19_wks_agree.

Theorem C19_lsc_agree : forall b sec gb c, general_bytes b = Ok gb -> llc_takeover sec gb = Ok c ->
  0 <= lo_lsc b <= 3 -> c_send_lsc c = lo_lsc b.
Proof. exact lsc_agree_thm. Qed.
Print Assumptions C19_lsc_agree.

(* --- the NFC-DEP payload limit follows the peer's length reduction value, DID / NAD overhead counted:
       for ALL option values (they are clamped), any DID / NAD, any general bytes --- *)
Theorem C19_dep_miu_agree : forall brty0 io tto id3 id3t o, 0 <= brty0 <= 2 -> length id3 = 10%nat -> length id3t = 10%nat ->
  negotiate_dep brty0 io tto id3 id3t = Ok o ->
  di_miu (do_i o) + 3 + b2z (is_some (di_did (do_i o))) + b2z (is_some (di_nad (do_i o))) = lr_of (t_lrt tto) /\
  dt_miu (do_t o) + 3 + b2z (is_some (dt_did (do_t o))) = lr_of (i_lri io) /\
  1 <= di_miu (do_i o) /\ 1 <= dt_miu (do_t o).
Proof. exact dep_miu_agree_thm. Qed.
Print Assumptions C19_dep_miu_agree.

(* --- the bit rate is the selected one, on both sides --- *)
Theorem C19_brty_agree : forall brty0 io tto id3 id3t o, 0 <= brty0 <= 2 -> length id3 = 10%nat -> length id3t = 10%nat ->
  negotiate_dep brty0 io tto id3 id3t = Ok o ->
  di_brty (do_i o) = dt_brty (do_t o) /\ di_brty (do_i o) = Z.max brty0 (i_brs io).
Proof. exact brty_agree_thm. Qed.
Print Assumptions C19_brty_agree.

(* --- the response waiting time is the one the target announced --- *)
Theorem C19_rwt_agree : forall brty0 io tto id3 id3t o, 0 <= brty0 <= 2 -> length id3 = 10%nat -> length id3t = 10%nat ->
  negotiate_dep brty0 io tto id3 id3t = Ok o ->
  di_wt (do_i o) = dt_wt (do_t o) /\ di_wt (do_i o) = clamp 0 14 (to_rwt tto).
Proof. exact rwt_agree_thm. Qed.
Print Assumptions C19_rwt_agree.

(* --- general bytes and DID arrive: the two configurations are the ones C04 is proved for
       (Model.Dep.mk_icfg / mk_tcfg), which gives "all later traffic stays within those limits" with
       C04_dep_frame_bound --- *)
Theorem C19_gb_did_agree : forall brty0 io tto id3 id3t o, 0 <= brty0 <= 2 -> length id3 = 10%nat -> length id3t = 10%nat ->
  negotiate_dep brty0 io tto id3 id3t = Ok o ->
  di_gb (do_i o) = take 47 (to_gbt tto) /\ dt_gb (do_t o) = take 48 (io_gbi io) /\
  dt_did (do_t o) = tdid_of (io_did io) /\ di_did (do_i o) = io_did io.
Proof. exact gb_did_agree_thm. Qed.
Print Assumptions C19_gb_did_agree.

Theorem C19_traffic_cfg : forall brty0 io tto id3 id3t o, 0 <= brty0 <= 2 -> length id3 = 10%nat -> length id3t = 10%nat ->
  negotiate_dep brty0 io tto id3 id3t = Ok o ->
  di_miu (do_i o) = ic_miu (mk_icfg (di_brty (do_i o) =? 0) (t_lrt tto) (io_did io) (io_nad io)) /\
  dt_miu (do_t o) = tc_miu (mk_tcfg (dt_brty (do_t o) =? 0) (i_lri io) (io_did io)) /\
  dt_did (do_t o) = tc_did (mk_tcfg (dt_brty (do_t o) =? 0) (i_lri io) (io_did io)).
Proof.
  intros brty0 io tto id3 id3t o Hb H3 H3t H.
  destruct (negotiate_dep_closed brty0 io tto id3 id3t Hb H3 H3t) as (fr & E). rewrite E in H. injection H as <-.
  repeat split.
Qed.
Print Assumptions C19_traffic_cfg.

(* --- both layers together: two stacks activated against each other --- *)
Theorem C19_p2p_agree : forall brty0 ia tb la lb id3 id3t o,
  0 <= brty0 <= 2 -> length id3 = 10%nat -> length id3t = 10%nat -> (forall x, io_did ia = Some x -> 0 < x) ->
  negotiate brty0 ia tb la lb id3 id3t = Ok o ->
  holds_of (po_a o) lb /\ holds_of (po_b o) la /\
  di_miu (do_i (po_dep o)) + 3 + b2z (is_some (io_did ia)) + b2z (is_some (io_nad ia)) = lr_of (clamp 0 3 (to_lrt tb)) /\
  dt_miu (do_t (po_dep o)) + 3 + b2z (is_some (tdid_of (io_did ia))) = lr_of (clamp 0 3 (io_lri ia)) /\
  di_brty (do_i (po_dep o)) = dt_brty (do_t (po_dep o)) /\
  di_brty (do_i (po_dep o)) = Z.max brty0 (clamp 0 2 (io_brs ia)) /\
  di_wt (do_i (po_dep o)) = dt_wt (do_t (po_dep o)) /\ di_wt (do_i (po_dep o)) = clamp 0 14 (to_rwt tb).
Proof. exact p2p_agree_thm. Qed.
Print Assumptions C19_p2p_agree.

(* activation of the NFC-DEP layer never fails for option reasons (all options are clamped) *)
Theorem C19_negotiate_dep_total : forall brty0 io tto id3 id3t, 0 <= brty0 <= 2 -> length id3 = 10%nat -> length id3t = 10%nat ->
  exists o, negotiate_dep brty0 io tto id3 id3t = Ok o.
Proof. exact negotiate_dep_total. Qed.
Print Assumptions C19_negotiate_dep_total.

(* --- tie: the kernels regenerated from dep.py / llc.py on this run are the model's definitions --- *)
Theorem C19_bridge_lr : forall pp, 0 <= pp -> gen_atr_lr pp = atr_lr pp.
Proof. exact bridge_atr_lr. Qed.
Print Assumptions C19_bridge_lr.
Theorem C19_bridge_psl : forall brs fsl, gen_psl_lr fsl = psl_lr fsl /\ gen_psl_dsi brs = psl_dsi brs /\ gen_psl_dri brs = psl_dri brs.
Proof. intros. split; [apply bridge_psl_lr | split; [apply bridge_psl_dsi | apply bridge_psl_dri]]. Qed.
Print Assumptions C19_bridge_psl.
Theorem C19_bridge_clamps : forall io tto lo, gen_i_brs (io_brs io) = i_brs io /\ gen_i_lri (io_lri io) = i_lri io /\
  gen_t_lrt (to_lrt tto) = t_lrt tto /\ gen_t_rwt (to_rwt tto) = t_rwt tto /\ gen_send_lto (lo_lto lo) = l_send_lto lo.
Proof. intros. repeat split. Qed.
Print Assumptions C19_bridge_clamps.
Theorem C19_bridge_pp : forall io tto, gen_i_ppi (i_lri io) (i_gbi io) (io_nad io) = i_ppi io /\ gen_t_pp (t_lrt tto) (t_gbt tto) None = t_pp tto.
Proof. intros. split; [apply bridge_i_ppi | apply bridge_t_pp]. Qed.
Print Assumptions C19_bridge_pp.
Theorem C19_bridge_miu : forall lr did nad, gen_i_miu lr did nad = lr - 3 - b2z (is_some did) - b2z (is_some nad) /\
  gen_t_miu lr did None = lr - 3 - b2z (is_some did).
Proof. intros. split; [apply bridge_i_miu | apply bridge_t_miu]. Qed.
Print Assumptions C19_bridge_miu.
Theorem C19_bridge_ini_eval : forall o brty0 id did bs br to pp gb d, 0 <= pp -> 0 <= to ->
  ini_eval o brty0 (PAtrRes id did bs br to pp gb) = Ok d ->
  di_miu d = gen_i_miu (gen_atr_lr pp) (io_did o) (io_nad o) /\
  di_wt d = (if gen_atr_wt to <? 15 then gen_atr_wt to else 14) /\
  di_brty d = (if brty0 <? gen_i_brs (io_brs o) then gen_i_brs (io_brs o) else brty0).
Proof. exact bridge_ini_eval. Qed.
Print Assumptions C19_bridge_ini_eval.
Theorem C19_bridge_tgt_eval : forall o brty id did bs br pp gb d, 0 <= pp ->
  tgt_eval o brty (PAtrReq id did bs br pp gb) = Ok d ->
  dt_miu d = gen_t_miu (gen_atr_lr pp) (dt_did d) None /\ dt_wt d = gen_t_rwt (to_rwt o).
Proof. exact bridge_tgt_eval. Qed.
Print Assumptions C19_bridge_tgt_eval.

(* --- several activations of the SAME LogicalLinkController object (options o) against different peers: what it announces
       never depends on the history, and what it holds after the n-th activation is taken from the n-th peer only
       (Linv o: the states reachable from llc_new o; llc_history runs the activations one after the other) --- *)
Theorem C19_activate_depends_on_peer_only : forall o s g gb s', Linv o s -> llc_activate s g = Ok (gb, s') ->
  general_bytes o = Ok gb /\ Linv o s' /\
  (forall c, llc_takeover (lo_sec o) g = Ok c -> c_ok c = true -> ls_held s' = c /\ ls_send_lsc s' = c_send_lsc c).
Proof. exact activate_depends_on_peer_only. Qed.
Print Assumptions C19_activate_depends_on_peer_only.
Theorem C19_history_nth_peer_only : forall o peers gbs s', llc_history (llc_new o) peers = Ok (gbs, s') ->
  Forall (fun gb => general_bytes o = Ok gb) gbs /\
  (forall g c, last peers [] = g -> peers <> [] -> llc_takeover (lo_sec o) g = Ok c -> c_ok c = true -> ls_held s' = c).
Proof. intros o peers gbs s' H. destruct (history_nth_peer_only o peers (llc_new o) gbs s' (Linv_new o) H) as (A & _ & C). auto. Qed.
Print Assumptions C19_history_nth_peer_only.
(* what is taken over is an assignment of the received PAX values *)
Theorem C19_takeover_assign : forall sec gb c, llc_takeover sec gb = Ok c -> c_ok c = true ->
  exists p, pax_decode (drop 3 gb) = Ok p /\ c = cfg_assign sec (pax_miu p) (pax_lto p) (pax_wks p) (pax_lsc p) (pax_dpc p) (pax_ver p).
Proof. exact takeover_assign. Qed.
Print Assumptions C19_takeover_assign.
Theorem C19_bridge_announce : forall local send_lsc, gen_announce_lsc local send_lsc = announce_lsc local send_lsc /\ gen_announce_guards = (128, 100, 0).
Proof. exact bridge_announce. Qed.
Print Assumptions C19_bridge_announce.
Theorem C19_bridge_cfg_assign : forall sec miu lto wks lsc dpc ver,
  let c := cfg_assign sec miu lto wks lsc dpc ver in
  gen_cfg_assign sec miu lto wks lsc dpc ver = (c_ok c, c_send_miu c, c_recv_lto c, c_send_wks c, c_send_lsc c, c_dpc c, c_ver c).
Proof. exact bridge_cfg_assign. Qed.
Print Assumptions C19_bridge_cfg_assign.

(* a history: peer 1 announces MIU 2175 / LTO 2550 / LSC 3, peer 2 omits all optional fields -> 128 / 100 / 0 are held, and
   the LLC announces its own LSC 1 both times *)
Example C19_history_nonvacuous :
  match general_bytes (mklopt 2175 2550 3 false [1; 4]), general_bytes (mklopt 128 100 0 false [1]) with
  | Ok g1, Ok g2 =>
      match llc_history (llc_new (mklopt 248 500 1 false [1])) [g1; g2] with
      | Ok (gbs, s) => c_send_miu (ls_held s) = 128 /\ c_recv_lto (ls_held s) = 100 /\ c_send_lsc (ls_held s) = 0 /\
                       nth 0 gbs [] = nth 1 gbs [] /\ Ok (nth 1 gbs []) = general_bytes (mklopt 248 500 1 false [1])
      | _ => False
      end
  | _, _ => False
  end.
Proof. vm_compute. repeat split. Qed.

(* non-vacuity: a concrete activation (106A, PSL to 424F, DID 5, LRi = 64, LRt = 192, MIU 2175 / 128, LTO 2550 / 105 ms) *)
Example C19_nonvacuous :
  match negotiate 0 (mkiopt 2 0 (Some 5) None []) (mktopt 2 9 [])
          (mklopt 2175 2550 3 true [1; 4]) (mklopt 128 105 1 false [1])
          [1; 2; 3; 4; 5; 6; 7; 8; 9; 10] [1; 254; 3; 4; 5; 6; 7; 8; 83; 84] with
  | Ok o => c_send_miu (po_b o) = 2175 /\ c_recv_lto (po_b o) = 2550 /\ c_send_wks (po_b o) = 19 /\ c_send_lsc (po_b o) = 3 /\
            c_send_miu (po_a o) = 128 /\ c_recv_lto (po_a o) = 100 /\ c_send_lsc (po_a o) = 1 /\
            di_miu (do_i (po_dep o)) = 188 /\ dt_miu (do_t (po_dep o)) = 60 /\ di_brty (do_i (po_dep o)) = 2 /\
            dt_brty (do_t (po_dep o)) = 2 /\ di_wt (do_i (po_dep o)) = 9
  | _ => False
  end.
Proof. vm_compute. repeat split. Qed.
