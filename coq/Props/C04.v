(* C04 - NFC-DEP delivers each payload exactly once, intact, or reports failure.
   Only statements here; proofs are in Proofs/DepCodec.v, DepTarget.v, DepBound.v, DepSrr.v,
   DepExact.v, DepSafety.v.  The model (Model/Dep.v) is of the repaired code (/repo HEAD: b836295, 7efe465, 0d645cb, 2786f8b, d00e425 and the C07 repairs
   6c4ecdb, 8087fdd, 46c0c37).

   conversation n fuel ic tc script payloads app timeout release
     runs a real-code-shaped Initiator (exchange over send_dep_req_recv_dep_res with ATN / NAK
     recovery and the deadline) against the Target machine over an air that assigns a fate
     (deliver / lose / corrupt) to every request and every response frame by `script`. *)
From Coq Require Import ZArith List Bool.
From NV Require Import Base.Result Base.Bytes Model.Dep Gen.DepK
  Proofs.DepCodec Proofs.DepTarget Proofs.DepBound Proofs.DepSrr Proofs.DepExact Proofs.DepSafety Bridge.Dep.
Import ListNotations.
Open Scope Z_scope.

(* --- no frame exceeds the payload size (LR) announced by its receiver: for EVERY fault script,
       payload list, application behaviour (RTOX included), DID / NAD setting, time-out and fuel --- *)
Theorem C04_dep_frame_bound : forall n fuel b106 lri lrt did nad script payloads app timeout release e,
  In e (o_frames (conversation n fuel (mk_icfg b106 lrt did nad) (mk_tcfg b106 lri did) script payloads app timeout release)) ->
  tlen b106 (l_data e) <= (if l_ini e then lr_of lrt else lr_of lri).
Proof. exact dep_frame_bound_all. Qed.
Print Assumptions C04_dep_frame_bound.

(* --- fault free: every payload and every response arrives exactly once, complete, in order, for all payload
       sizes (chaining both ways), any number of exchanges (packet numbers wrap modulo 4), all LR / DID / NAD --- *)
Theorem C04_dep_nofault_exact : forall b106 lri lrt did nad n fuel P R timeout release,
  did_valid did -> Z.max 0 timeout < Z.of_nat fuel -> 1 <= timeout ->
  nonempty_all P -> nonempty_all R -> fits n P -> fits n R -> (length P <= length R)%nat ->
  let o := conversation n fuel (mk_icfg b106 lrt did nad) (mk_tcfg b106 lri did) [] P (app_of R) timeout release in
  o_ini o = map IOk (firstn (length P) R) /\
  exists ttail, o_tgt o = map TOk P ++ ttail /\ tail_ok ttail.
Proof. intros. apply dep_nofault_exact_thm; try assumption. apply valid_mk; assumption. Qed.
Print Assumptions C04_dep_nofault_exact.

(* --- safety under EVERY fault script: what the initiator application gets is a prefix of the responses the
       target application passed to exchange() followed by at most one CommunicationError; what the target
       application gets is a prefix of the payloads the initiator passed to exchange() followed by at most one
       None (released) / TimeoutError (link gone); the target is never more than one payload ahead.
       No truncation, duplication, reordering or foreign data; no other exception. --- *)
Theorem C04_dep_safety : forall b106 lri lrt did nad n fuel script P R timeout release,
  did_valid did -> Z.max 0 timeout < Z.of_nat fuel ->
  nonempty_all P -> nonempty_all R -> fits n P -> fits n R -> (length P <= length R)%nat ->
  let o := conversation n fuel (mk_icfg b106 lrt did nad) (mk_tcfg b106 lri did) script P (app_of R) timeout release in
  exists j k itail ttail,
    o_ini o = map IOk (firstn j R) ++ itail /\
    (itail = [] /\ j = length P \/ exists e, itail = [IErr e] /\ comm e /\ (j < length P)%nat) /\
    o_tgt o = map TOk (firstn k P) ++ ttail /\ tail_ok ttail /\
    (j <= k <= j + 1)%nat /\ (k <= length P)%nat.
Proof. intros. apply dep_safety_thm; try assumption. apply valid_mk; assumption. Qed.
Print Assumptions C04_dep_safety.

(* --- any single lost or corrupted frame per protocol step is recovered transparently: for EVERY script in which each
       faulty round (request or response lost or corrupted) is followed by two fault free rounds, all payload sizes
       and conversation lengths, the result is exact (exchange time-out at least two response waiting times).
       No guard on the kind of frame: since d00e425 a corrupted ACK response during
       initiator chaining is recovered like any other frame. --- *)
Theorem C04_dep_single_fault_recovered : forall b106 lri lrt did nad n fuel script P R timeout release,
  did_valid did -> Z.max 0 timeout < Z.of_nat fuel -> 2 <= timeout -> Sparse script ->
  nonempty_all P -> nonempty_all R -> fits n P -> fits n R -> (length P <= length R)%nat ->
  let o := conversation n fuel (mk_icfg b106 lrt did nad) (mk_tcfg b106 lri did) script P (app_of R) timeout release in
  o_ini o = map IOk (firstn (length P) R) /\
  exists ttail, o_tgt o = map TOk P ++ ttail /\ tail_ok ttail.
Proof. intros. apply dep_single_fault_recovered_thm; try assumption. apply valid_mk; assumption. Qed.
Print Assumptions C04_dep_single_fault_recovered.

(* the input that was not recovered before the repair (62 byte payload at LR 64, the ACK to the first, chained DEP_REQ
   corrupted) is recovered; an ACK answered to the NAK for a LAST information PDU is still a ProtocolError (the
   behaviour pinned by tests/test_dep.py::test_exchange_retransmission_invalid_response) *)
Example C04_corrupted_ack_recovered :
  o_ini (conversation 200 20 (mk_icfg false 0 None None) (mk_tcfg false 0 None) [(FD, FC)] [repeat 1 62] (app_of [[2]]) 8 (Some true))
    = [IOk [2]] /\
  (forall w, fst (req_nak 1 (mk_icfg false 0 None None) (mk_tcfg false 0 None) 0 false 1 5
                    (mkw (mktgt (Some 0) (TRecv [1]) (Some (mkdep F_ACK 0 None None [])) [] [] [] true) [] 0 w)) = Err ProtocolError) /\
  (forall w, fst (req_nak 1 (mk_icfg false 0 None None) (mk_tcfg false 0 None) 0 true 1 5
                    (mkw (mktgt (Some 0) (TRecv [1]) (Some (mkdep F_ACK 0 None None [])) [] [] [] true) [] 0 w)) = Ok (PDepRes (mkdep F_ACK 0 None None []))).
Proof. split; [vm_compute; reflexivity|]. split; intro w; reflexivity. Qed.

(* ======== with time-out extension: before each response the target application may call send_timeout_extension up to three
   times (values 1..59): `ap` gives, per received payload, the RTOX values and the response; `resps ap` are the responses.
   The three theorems above are the instances ap = app_of R (no extension) of the following two. ======== *)

(* --- safety for EVERY fault script with RTOX rounds interleaved: prefixes, at most one CommunicationError / None, target at
       most one payload ahead.  In particular the RTOX value octet is never delivered to the target application as a payload
       and never to the initiator as a response ("never ... foreign data"; the defect repaired by 0d645cb, seeded C04-b2) --- *)
Theorem C04_dep_safety_rtox : forall b106 lri lrt did nad n fuel script P ap timeout release,
  did_valid did -> Z.max 0 timeout < Z.of_nat fuel -> rtox_ok ap ->
  nonempty_all P -> nonempty_all (resps ap) -> fits n P -> fits n (resps ap) -> (length P <= length ap)%nat ->
  let o := conversation n fuel (mk_icfg b106 lrt did nad) (mk_tcfg b106 lri did) script P ap timeout release in
  exists j k itail ttail,
    o_ini o = map IOk (firstn j (resps ap)) ++ itail /\
    (itail = [] /\ j = length P \/ exists e, itail = [IErr e] /\ comm e /\ (j < length P)%nat) /\
    o_tgt o = map TOk (firstn k P) ++ ttail /\ tail_ok ttail /\
    (j <= k <= j + 1)%nat /\ (k <= length P)%nat.
Proof. intros. apply dep_safety_rtox_thm; try assumption. apply valid_mk; assumption. Qed.
Print Assumptions C04_dep_safety_rtox.

(* --- exactness with RTOX rounds: (a) fault free; (b) every faulty round followed by two fault free rounds, no response
       corrupted, exchange time-out >= 60 RWT (one more than the largest RTOX value, which scales the response waiting time):
       a lost / corrupted RTOX request, a lost RTOX response, a lost information PDU right after the handshake (seeded
       C04-b2) and every lost / corrupted request or lost response elsewhere are recovered; (c) without extension: every
       isolated fault.  Exception, by design of NFC-DEP: a CORRUPTED response while extensions are in use is outside (b):
       the target answers the NAK with its RTOX again and "RTOX response to NACK or ATN" is a ProtocolError - see
       C04_rtox_corrupted_response_refuted --- *)
Theorem C04_dep_exact_rtox : forall b106 lri lrt did nad n fuel script P ap timeout release,
  did_valid did -> Z.max 0 timeout < Z.of_nat fuel -> rtox_ok ap ->
  ((script = [] /\ 1 <= timeout) \/ (Sparse script /\ NC script /\ 60 <= timeout) \/ (Sparse script /\ 2 <= timeout /\ no_rtox ap)) ->
  nonempty_all P -> nonempty_all (resps ap) -> fits n P -> fits n (resps ap) -> (length P <= length ap)%nat ->
  let o := conversation n fuel (mk_icfg b106 lrt did nad) (mk_tcfg b106 lri did) script P ap timeout release in
  o_ini o = map IOk (firstn (length P) (resps ap)) /\
  exists ttail, o_tgt o = map TOk P ++ ttail /\ tail_ok ttail.
Proof. intros. apply dep_exact_rtox_thm; try assumption. apply valid_mk; assumption. Qed.
Print Assumptions C04_dep_exact_rtox.

(* the exception is genuine (and by design): RTOX response to the last information PDU corrupted -> NAK -> the target
   retransmits its RTOX -> request_retransmission raises ProtocolError; nothing foreign is delivered.
   And the fourth extension in a row ends the exchange with TimeoutError ("timeout extension"), the target keeps waiting. *)
Theorem C04_rtox_corrupted_response_refuted :
  exists script P ap,
    Sparse script /\ rtox_ok ap /\ nonempty_all P /\ nonempty_all (resps ap) /\ did_valid None /\
    o_ini (conversation 50 200 (mk_icfg false 0 None None) (mk_tcfg false 0 None) script P ap 100 (Some true)) = [IErr ProtocolError].
Proof.
  exists [(FD, FC); (FD, FD); (FD, FD)], [[1]], [([5], [2])]. vm_compute. repeat split; repeat constructor; try discriminate; auto.
Qed.
Print Assumptions C04_rtox_corrupted_response_refuted.

Example C04_rtox_nonvacuous :
  (* three extensions before the first response, one before the third, lost RTOX request, lost RTOX response, lost information
     PDU right after the handshake: exact *)
  let P := [repeat 1 70; [2]; [3; 3]] in
  let ap := [([5; 1; 59], repeat 17 125); ([], [18]); ([2], [19])] in
  let o := conversation 200 200 (mk_icfg true 0 (Some 5) None) (mk_tcfg true 0 (Some 5))
             [(FD, FD); (FD, FD); (FL, FD); (FD, FD); (FD, FD); (FD, FL); (FD, FD); (FD, FD); (FD, FD); (FD, FD); (FD, FD); (FD, FL)]
             P ap 100 (Some true) in
  o_ini o = map IOk (resps ap) /\ o_tgt o = map TOk P ++ [TNone] /\ rtox_ok ap /\
  Sparse [(FD, FD); (FD, FD); (FL, FD); (FD, FD); (FD, FD); (FD, FL); (FD, FD); (FD, FD); (FD, FD); (FD, FD); (FD, FD); (FD, FL); (FD, FD); (FD, FD)] /\
  (* a fourth extension in a row: TimeoutError, and the payload was delivered exactly once *)
  (let o4 := conversation 200 200 (mk_icfg false 0 None None) (mk_tcfg false 0 None) [] [[1]] [([1; 1; 1; 1], [2])] 100 (Some true) in
   o_ini o4 = [IErr TimeoutError] /\ o_tgt o4 = [TOk [1]]).
Proof. vm_compute. repeat split; repeat constructor; try discriminate; auto. Qed.

(* --- one protocol step (send_dep_req_recv_dep_res) under every script: it fails, or it returns exactly the
       response the target produced when it accepted the request; the target accepts the request at most once --- *)
Theorem C04_step_safe : forall ic tc, valid_cfg ic tc ->
  forall t0 t1 d r, req_ok ic d -> (fmt d = F_INF \/ fmt d = F_MORE \/ fmt d = F_ACK) ->
  Tinv tc t0 -> t_pos t0 <> TStop -> t_pni t0 <> Some (pni d) -> (t_pos t0 = TListen \/ t_pos t0 = TFirst -> pni d = 0) ->
  t_accept tc t0 d = (t1, Some (PDepRes r)) ->
  forall fuel p rwt timeout w out w', InS t0 t1 (w_t w) -> 0 <= p <= 3 -> 1 <= rwt ->
  srr fuel ic tc p d rwt timeout w = (out, w') ->
  InS t0 t1 (w_t w') /\
  ((out = Ok r /\ w_t w' = t1) \/ (exists e, out = Err e /\ comm e) \/ (out = Hang /\ Z.of_nat fuel <= Z.max 0 timeout)).
Proof. intros ic tc (H1 & H2 & H3 & H4). intros. eapply srr_safe; eassumption. Qed.
Print Assumptions C04_step_safe.

(* --- the frame codec: decode_frame (encode_frame pdu) = pdu --- *)
Theorem C04_codec_req : forall b d f, dep_wf d ->
  encode_frame b (enc_pdu (PDepReq d)) = Ok f -> decode_frame_tgt b f = Ok (PDepReq d).
Proof. exact (fun b d => decode_encode b (PDepReq d)). Qed.
Print Assumptions C04_codec_req.
Theorem C04_codec_res : forall b d f, dep_wf d ->
  encode_frame b (enc_pdu (PDepRes d)) = Ok f -> decode_frame_ini b f = Ok (PDepRes d).
Proof. exact (fun b d => decode_encode b (PDepRes d)). Qed.
Print Assumptions C04_codec_res.

(* --- activating the same Initiator / Target objects again (a fresh link after any earlier conversation): the
       conversation is the one fresh objects would have, so all theorems above hold for every activation of a history --- *)
Theorem C04_reactivation_fresh : forall p_old t_old n fuel ic tc script payloads app timeout release,
  conversation_after p_old t_old n fuel ic tc script payloads app timeout release =
  conversation n fuel ic tc script payloads app timeout release.
Proof. exact reactivation_fresh. Qed.
Print Assumptions C04_reactivation_fresh.
Theorem C04_activate_state : forall p_old t_old app, ini_activate p_old = 0 /\ tgt_activate t_old app = tgt_init app.
Proof. exact activate_state. Qed.
Print Assumptions C04_activate_state.

(* --- tie: the kernels regenerated from src/nfc/dep.py on this run (Gen/DepK.v) are what Model/Dep.v is built from --- *)
Theorem C04_bridge_fmt_consts : gen_LastInformation = F_INF /\ gen_MoreInformation = F_MORE /\ gen_PositiveAck = F_ACK /\
  gen_NegativeAck = F_NAK /\ gen_Attention = F_ATN /\ gen_TimeoutExtension = F_RTOX.
Proof. exact bridge_fmt_consts. Qed.
Print Assumptions C04_bridge_fmt_consts.
(* PFB octet: (fmt << 4) | (nad << 3) | (did << 2) | pni is the model's pfb_byte, the four decoded fields are dec_dep's *)
Theorem C04_bridge_pfb_encode : forall d, dep_wf d ->
  gen_pfb_encode (fmt d) (is_some (nad d)) (is_some (did d)) (pni d) = pfb_byte d.
Proof. exact bridge_pfb_encode. Qed.
Print Assumptions C04_bridge_pfb_encode.
Theorem C04_bridge_dec_dep : forall p r, 0 <= p < 256 ->
  dec_dep (p :: r) =
  (do x1 <- (if gen_pfb_did p then match r with [] => Err ProtocolError | x :: r' => Ok (Some x, r') end else Ok (None, r));
   do x2 <- (if gen_pfb_nad p then match snd x1 with [] => Err ProtocolError | x :: r' => Ok (Some x, r') end else Ok (None, snd x1));
   Ok (mkdep (gen_pfb_fmt p) (gen_pfb_pni p) (fst x1) (fst x2) (snd x2))).
Proof. exact bridge_dec_dep. Qed.
Print Assumptions C04_bridge_dec_dep.
(* the packet number step at all four sites is (pni + 1) mod 4 *)
Theorem C04_bridge_pni_next : forall p,
  gen_i_pni_next_1 p = (p + 1) mod 4 /\ gen_i_pni_next_2 p = (p + 1) mod 4 /\
  gen_t_pni_next_1 p = (p + 1) mod 4 /\ gen_t_pni_next_2 p = (p + 1) mod 4.
Proof. exact bridge_pni_next. Qed.
Print Assumptions C04_bridge_pni_next.
(* payload slicing by self.miu *)
Theorem C04_bridge_chunks : forall sd miu, 0 <= miu ->
  gen_i_chunk sd miu = take miu sd /\ gen_i_rest sd miu = drop miu sd /\ gen_i_more (gen_i_rest sd miu) = nonempty (drop miu sd) /\
  gen_t_chunk sd miu = take miu sd /\ gen_t_rest sd miu = drop miu sd /\ gen_t_more sd miu = (miu <? len sd).
Proof. exact bridge_chunks. Qed.
Print Assumptions C04_bridge_chunks.
(* one iteration of the initiator's send loop and the target's first chunk, written with the regenerated kernels *)
Theorem C04_bridge_send_loop : forall n fuel ic tc p b sd last timeout w, 0 <= ic_miu ic ->
  send_loop (S n) fuel ic tc p (b :: sd) last timeout w =
  let sd0 := b :: sd in
  let req := i_dep ic (if gen_i_more (gen_i_rest sd0 (ic_miu ic)) then gen_MoreInformation else gen_LastInformation) p
                   (gen_i_chunk sd0 (ic_miu ic)) in
  match srr fuel ic tc p req 1 timeout w with
  | (Ok r0, w1) =>
      match after_rtox fuel ic tc p r0 timeout w1 with
      | (Ok r, w2) =>
          if (fmt r =? gen_PositiveAck) && negb (gen_i_more (gen_i_rest sd0 (ic_miu ic))) then (Err ProtocolError, w2)
          else if negb (pni r =? p) then (Err ProtocolError, w2)
          else send_loop n fuel ic tc (gen_i_pni_next_1 p) (gen_i_rest sd0 (ic_miu ic)) (Some r) timeout w2
      | (Err e, w2) => (Err e, w2) | (Crash c, w2) => (Crash c, w2) | (Hang, w2) => (Hang, w2)
      end
  | (Err e, w1) => (Err e, w1) | (Crash c, w1) => (Crash c, w1) | (Hang, w1) => (Hang, w1)
  end.
Proof. exact bridge_send_loop. Qed.
Print Assumptions C04_bridge_send_loop.
Theorem C04_bridge_start_send : forall c t x resp p, 0 <= tc_miu c -> t_pni t = Some p ->
  t_start_send c t (x :: resp) =
  t_emit t (TSend (x :: resp)) (mkdep (if gen_t_more (x :: resp) (tc_miu c) then gen_MoreInformation else gen_LastInformation) p
                                      (tc_did c) (tc_nad c) (gen_t_chunk (x :: resp) (tc_miu c))).
Proof. exact bridge_start_send. Qed.
Print Assumptions C04_bridge_start_send.
Theorem C04_bridge_t_accept_recv : forall c t d acc p, t_pos t = TRecv acc -> t_pni t = Some p ->
  t_accept c t d =
  let t1 := t_set_pni t (gen_t_pni_next_2 p) in
  if negb (pni d =? gen_t_pni_next_2 p) then t_stop t1 (TErr ProtocolError) else t_recv_chain c t1 d acc.
Proof. exact bridge_t_accept_recv. Qed.
Print Assumptions C04_bridge_t_accept_recv.
(* RTOX value range test, RTOX mask, number of RTOX rounds *)
Theorem C04_bridge_rtox : forall x, gen_rtox_bad x = negb ((0 <? x) && (x <? 60)) /\ gen_rtox_mask x = Z.land x 63.
Proof. exact bridge_rtox. Qed.
Print Assumptions C04_bridge_rtox.
Theorem C04_bridge_after_rtox : forall fuel ic tc p r timeout w,
  after_rtox fuel ic tc p r timeout w = if fmt r =? gen_TimeoutExtension then rtox_loop gen_n_rtox fuel ic tc p r timeout w else (Ok r, w).
Proof. exact bridge_after_rtox. Qed.
Print Assumptions C04_bridge_after_rtox.
(* retry counts of request_attention / request_retransmission and the chained flag *)
Theorem C04_bridge_srr_loop : forall f ic tc p d rwt deadline w,
  srr_loop (S f) ic tc p (PDepReq d) rwt deadline w =
  let timeout := Z.min rwt (deadline - w_now w) in
  if timeout <=? 0 then (Err TimeoutError, w) else
  match srr1 ic tc (PDepReq d) timeout w with
  | (Ok r, w1) => (Ok r, w1)
  | (Err TimeoutError, w1) =>
      match req_atn gen_n_retry_atn ic tc rwt deadline w1 with
      | (Ok _, w2) => srr_loop f ic tc p (PDepReq d) rwt deadline w2
      | (Err e, w2) => (Err e, w2) | (Crash x, w2) => (Crash x, w2) | (Hang, w2) => (Hang, w2)
      end
  | (Err TransmissionError, w1) => req_nak gen_n_retry_nak ic tc p (gen_is_chained (fmt d)) rwt deadline w1
  | (Err e, w1) => (Err e, w1) | (Crash x, w1) => (Crash x, w1) | (Hang, w1) => (Hang, w1)
  end.
Proof. exact bridge_srr_loop. Qed.
Print Assumptions C04_bridge_srr_loop.
Theorem C04_bridge_nak_expected : forall ch f,
  existsb (fun k => f =? k) (gen_nak_expected ch) = (f =? F_INF) || (f =? F_MORE) || (ch && (f =? F_ACK)).
Proof. exact bridge_nak_expected. Qed.
Print Assumptions C04_bridge_nak_expected.
(* frame length octet / 106A start byte: construction and checks, with their exception classes *)
Theorem C04_bridge_encode_frame : forall b body, gen_i_encode_frame b body = encode_frame b body /\ gen_t_encode_frame b body = encode_frame b body.
Proof. exact bridge_encode_frame. Qed.
Print Assumptions C04_bridge_encode_frame.
Theorem C04_bridge_strip_frame : forall b f, gen_i_strip_frame b f = strip_frame b f /\ gen_t_strip_frame b f = strip_frame b f.
Proof. exact bridge_strip_frame. Qed.
Print Assumptions C04_bridge_strip_frame.
Theorem C04_bridge_code : forall b f c0 c1 r, strip_frame b f = Ok (c0 :: c1 :: r) ->
  (gen_i_code_bad c0 c1 = true -> decode_frame_ini b f = Err ProtocolError) /\
  (gen_t_code_bad c0 c1 = true -> decode_frame_tgt b f = Err ProtocolError).
Proof. intros. split; [eapply bridge_code_i | eapply bridge_code_t]; eassumption. Qed.
Print Assumptions C04_bridge_code.

Theorem C04_bridge_activate : forall p_old t_old app,
  ini_activate p_old = gen_i_activate_pni /\ t_pni (tgt_activate t_old app) = gen_t_activate_pni.
Proof. exact bridge_activate. Qed.
Print Assumptions C04_bridge_activate.

(* non-vacuity: a conversation of five exchanges (beyond the PNI wrap) with chaining in both directions,
   DID and NAD, a lost request, a corrupted information response and a lost response is completed exactly;
   a script that exhausts the attention budget ends in a ProtocolError with nothing delivered *)
Example C04_nonvacuous :
  let P := [repeat 1 130; [2]; [3; 3]; [4]; repeat 5 61] in
  let R := [repeat 17 125; [18]; [19]; repeat 20 62; [21]] in
  let o := conversation 200 20 (mk_icfg true 0 (Some 5) (Some 7)) (mk_tcfg true 0 (Some 5))
             [(FL, FD); (FD, FD); (FD, FD); (FD, FD); (FD, FC); (FD, FD); (FD, FD); (FD, FL); (FD, FD); (FD, FD)]
             P (app_of R) 8 (Some true) in
  o_ini o = map IOk R /\ o_tgt o = map TOk P ++ [TNone] /\
  did_valid (Some 5) /\ nonempty_all P /\ fits 200 R /\
  Sparse [(FL, FD); (FD, FD); (FD, FD); (FD, FD); (FD, FC); (FD, FD); (FD, FD); (FD, FL); (FD, FD); (FD, FD)] /\
  o_ini (conversation 200 20 (mk_icfg false 3 None None) (mk_tcfg false 3 None)
           [(FL, FD); (FL, FD); (FL, FD)] [[1]] (app_of [[2]]) 8 None) = [IErr ProtocolError].
Proof.
  cbv zeta. split; [vm_compute; reflexivity|]. split; [vm_compute; reflexivity|]. split; [reflexivity|].
  split; [repeat constructor; discriminate|].
  (* lengths are compared by Nat.leb: a derivation of n <= 200 from le_S is quadratic in 200 - n *)
  split; [repeat (apply Forall_cons; [apply Nat.leb_le; reflexivity|]); apply Forall_nil|].
  split; [vm_compute; repeat split | vm_compute; reflexivity].
Qed.
