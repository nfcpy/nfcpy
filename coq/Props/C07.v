(* C07 - Bytes from the remote peer cannot crash or hang the stack.
   Only statements here; proofs are in Proofs/Robust*.v (and Proofs/PduTotal.v of C11 for pdu.decode).
   Results are `res`: Ok value | Err <documented exception class> | Crash <any other exception> | Hang (the thread
   would wait for ever).  Every theorem says: for ALL bytes the result is Ok or a documented Err - never Crash, never Hang.
   The models are of the repaired code (fixes/c07-1..8); the `C07_orig_*` lemmas are the defects of the code as it was,
   as concrete witnesses. *)
From Coq Require Import ZArith List Bool.
From NV Require Import Base.Result Base.Bytes Model.Pdu Model.DepDecode Model.T3Emu Model.Pax Model.Dispatch Model.SnepHdr
  Proofs.PduTotal Proofs.RobustDep Proofs.RobustPax Proofs.RobustT3 Proofs.RobustDispatch Proofs.RobustSnep Model.DepAny Proofs.RobustDepX
  Base.PyPrims Gen.RobustK Gen.SnepK Gen.DepK Bridge.Robust.
Import ListNotations.
Open Scope Z_scope.

(* --- NFC-DEP: decode_frame of Initiator and Target, 106A (F0 start byte) and 212F/424F, every byte string:
       a PDU object, ProtocolError or TransmissionError --- *)
Theorem C07_dep_decode_total : forall (r : role) (b106 : bool) (frame : list Z),
  (exists p, decode_frame r b106 frame = Ok (Some p)) \/
  decode_frame r b106 frame = Err ProtocolError \/ decode_frame r b106 frame = Err TransmissionError.
Proof. exact dep_decode_total. Qed.
Print Assumptions C07_dep_decode_total.
(* the start byte, length byte and minimum length rules *)
Theorem C07_dep_start_byte : forall r frame x, x <> 240 -> decode_frame r true (x :: frame) = Err ProtocolError.
Proof. exact dep_start_byte. Qed.
Print Assumptions C07_dep_start_byte.
Theorem C07_dep_length_byte : forall r l body, l <> 1 + len body -> decode_frame r false (l :: body) = Err ProtocolError.
Proof. exact dep_length_byte. Qed.
Print Assumptions C07_dep_length_byte.
Theorem C07_dep_short_frame : forall r l body, l = 1 + len body -> len body < 2 ->
  decode_frame r false (l :: body) = Err TransmissionError.
Proof. exact dep_short_frame. Qed.
Print Assumptions C07_dep_short_frame.
(* the value byte of a timeout extension response: a value in 1..59 or ProtocolError *)
Theorem C07_dep_rtox_total : forall d, (exists v, rtox_value d = Ok v /\ 0 < v < 60) \/ rtox_value d = Err ProtocolError.
Proof. exact rtox_total. Qed.
Print Assumptions C07_dep_rtox_total.

(* --- NFC-DEP exchange layer against an ARBITRARY peer (Model/DepAny.v): the peer's answers are any finite stream of
       time-outs, corrupted frames and arbitrary byte strings (silence afterwards); configurations are any DID / NAD / RWT /
       clock tick / deadline with 0 < MIU <= 251 - [DID] - [NAD] (what an ATR can negotiate; needed for the frame length octet).
       Initiator.exchange returns the received data or raises TimeoutError / TransmissionError / ProtocolError - never another
       exception, never a hang (the loops' fuel, one more than the answers left, is never used up) - and hands at most
       (answers left + 3) frames to the frontend: every frame sent consumes an answer, and once the peer is silent the retry
       budgets (2 ATN, 2 NAK, 3 RTOX rounds) end the exchange after at most 3 more.  (A bound from the budgets alone does not
       exist: a peer that keeps chaining, or keeps answering ATN, is served until the deadline.) --- *)
Theorem C07_dep_initiator_exchange_total : forall fuel c s pni payload timeout,
  cfg_ok c -> corig c = false -> payload <> [] -> (length (ans s) < fuel)%nat ->
  let r := fst (i_exchange fuel c s pni payload timeout) in
  let s' := snd (i_exchange fuel c s pni payload timeout) in
  ((exists data pni', r = Ok (data, pni')) \/ r = Err TimeoutError \/ r = Err TransmissionError \/ r = Err ProtocolError) /\
  (length (sent s') <= length (sent s) + length (ans s) + 3)%nat /\ (length (ans s') <= length (ans s))%nat.
Proof. exact dep_initiator_exchange_total. Qed.
Print Assumptions C07_dep_initiator_exchange_total.
(* Target.exchange: the data, None (released / nothing received) or a documented error; at most (answers left + 1) calls of
   the frontend.  `first` is the command injected by activate (first call), otherwise payload <> [] and self.pni is set. *)
Theorem C07_dep_target_exchange_total : forall fuel c s spni first payload timeout,
  cfg_ok c -> (first <> None \/ (payload <> [] /\ spni <> None)) -> (length (ans s) + 1 < fuel)%nat ->
  let r := fst (t_exchange fuel c s spni first payload timeout) in
  let s' := snd (t_exchange fuel c s spni first payload timeout) in
  ((exists data pni', r = Ok (Some (data, pni'))) \/ r = Ok None \/
   r = Err TimeoutError \/ r = Err TransmissionError \/ r = Err ProtocolError) /\
  (length (sent s') <= length (sent s) + length (ans s) + 1)%nat /\ (length (ans s') <= length (ans s))%nat.
Proof. exact dep_target_exchange_total. Qed.
Print Assumptions C07_dep_target_exchange_total.
(* the listen loop of the Target holds its deadline: against an ARBITRARILY LONG script of corrupted frames (each needing at
   least eps > 0 time units to arrive) send_res_recv_req makes at most (time left / eps) + 1 calls of the frontend - a number
   that does not depend on the length of the script - and returns no later than the deadline plus two clock ticks; if the
   peer sends nothing but corrupted frames the result is TimeoutError.  (The time-out granted to each successive call is
   what is left until the deadline; the seeded regression C07-c2 grants the full time-out again and is a different machine.) *)
Theorem C07_listen_deadline : forall fuel c s frame dl eps,
  0 < eps -> 0 <= ctick c -> Forall (slow eps) (ans s) -> (budget eps (dl - now s) < fuel)%nat ->
  let r := fst (t_listen fuel c s frame dl) in
  let s' := snd (t_listen fuel c s frame dl) in
  good r /\ now s' <= Z.max (now s) dl + 2 * ctick c /\ (Sn s' <= Sn s + budget eps (dl - now s) + 1)%nat /\
  (Forall (jam eps) (ans s) -> r = Err TimeoutError).
Proof. exact t_listen_deadline. Qed.
Print Assumptions C07_listen_deadline.
Theorem C07_dep_target_jammed : forall fuel c s pni payload timeout eps,
  cfg_ok c -> 0 < eps -> 0 <= ctick c -> payload <> [] -> Forall (jam eps) (ans s) -> (budget eps timeout < fuel)%nat ->
  let r := fst (t_exchange fuel c s (Some pni) None payload timeout) in
  let s' := snd (t_exchange fuel c s (Some pni) None payload timeout) in
  r = Err TimeoutError /\ now s' <= now s + Z.max 0 timeout + 2 * ctick c /\ (Sn s' <= Sn s + budget eps timeout + 1)%nat.
Proof. exact dep_target_jammed. Qed.
Print Assumptions C07_dep_target_jammed.
(* the release phase of the target (Target._deactivate, the target side of llc.terminate): against ANY script of requests of ANY
   length - well-formed ATN / INF / NAK / ACK requests with the right DID included - and corrupted frames (each needing eps > 0
   time units) it returns, no later than the grace period plus four clock ticks after it began, having sent at most
   (grace / tick) + 2 responses; the loops' fuel depends on grace / tick and grace / eps only.  (One deadline for the whole
   phase; the seeded regression C07-d1 renews it with every answered request.) *)
Theorem C07_dep_target_deactivate_deadline : forall fuel c s data grace eps,
  cfg_ok c -> len data <= cmiu c -> 0 < eps -> 0 < ctick c -> 0 <= now s -> Forall (slow eps) (ans s) ->
  (budget (ctick c) grace < fuel)%nat -> (budget eps grace < fuel)%nat ->
  let r := fst (t_deactivate fuel c s data grace) in
  let s' := snd (t_deactivate fuel c s data grace) in
  r = Ok tt /\ now s' <= now s + Z.max 0 grace + 4 * ctick c /\ (nresp s' <= nresp s + budget (ctick c) grace + 2)%nat.
Proof. exact dep_target_deactivate_deadline. Qed.
Print Assumptions C07_dep_target_deactivate_deadline.
(* the code as it was (c07-3) / the seeded regression C07-2: a timeout extension PDU without value in reply to the ACK of a
   chained response raises IndexError out of Initiator.exchange; the repaired code answers with ProtocolError *)
Theorem C07_orig_rtox_in_chaining :
  cfg_ok (ex_cfg true) /\
  fst (i_exchange 8 (ex_cfg true) (mkst 0 ex_answers []) 0 [0; 0] 1024) = Crash IndexErr /\
  fst (i_exchange 8 (ex_cfg false) (mkst 0 ex_answers []) 0 [0; 0] 1024) = Err ProtocolError.
Proof. split; [apply ex_cfg_ok|]. split; [exact orig_rtox_in_chaining | exact fixed_rtox_in_chaining]. Qed.
Print Assumptions C07_orig_rtox_in_chaining.

(* --- LLCP: pdu.decode returns a PDU or DecodeError for every byte string (C11's theorem restated; in particular no
       RecursionError for any nesting of aggregated frames) --- *)
Theorem C07_pdu_decode_total : forall data, bytes_ok data ->
  (exists p, decode data 0 (len data) = Ok p) \/ decode data 0 (len data) = Err DecodeError.
Proof. intros data H. apply decode_total; [discriminate | exact H]. Qed.
Print Assumptions C07_pdu_decode_total.

(* --- activation with arbitrary general bytes returns a bool --- *)
Theorem C07_pax_total : forall sec gb, (forall g, gb = Some g -> bytes_ok g) ->
  activate_gb sec gb = Ok (false, None) \/ exists cfg, activate_gb sec gb = Ok (true, Some cfg).
Proof. exact pax_total. Qed.
Print Assumptions C07_pax_total.
Theorem C07_pax_cfg_ranges : forall sec gb cfg, activate_gb sec gb = Ok (true, Some cfg) ->
  0 <= send_lsc cfg < 4 /\ 0 <= llcp_dpc cfg < 2.
Proof. exact pax_cfg_ranges. Qed.
Print Assumptions C07_pax_cfg_ranges.

(* --- dispatch of every PDU the decoder can produce, in every well-formed controller state: a new well-formed state;
       no exception, and no blocking call in the link thread --- *)
Theorem C07_dispatch_total : forall st p, wf st -> pdu_ok p -> exists st', dispatch false st p = Ok st' /\ wf st'.
Proof. exact dispatch_total. Qed.
Print Assumptions C07_dispatch_total.
Theorem C07_decoded_pdu_ok : forall data p, bytes_ok data -> decode data 0 (len data) = Ok p -> pdu_ok p.
Proof. intros data p Hb Hd. apply valid_pdu_ok. eapply decode_valid; [|exact Hb|exact Hd]. discriminate. Qed.
Print Assumptions C07_decoded_pdu_ok.
(* ... from the bytes: one round of the run loop either dispatches or ends the link in an orderly way *)
Theorem C07_receive_total : forall st data, wf st -> bytes_ok data ->
  receive false st data = Ok LinkDisrupted \/ exists st', receive false st data = Ok (Dispatched st') /\ wf st'.
Proof. exact receive_total. Qed.
Print Assumptions C07_receive_total.

(* --- emulated Type 3 Tag: process_command returns None or a response for every command.  The hypotheses concern the
       local configuration only (8-byte IDm/PMm, 2-byte system code, block read function returns at most 16 bytes) --- *)
Theorem C07_tt3emu_total : forall idm pmm sys svcs rdf wrf, len idm = 8 -> len pmm = 8 -> len sys = 2 ->
  (forall sc bn rb re d, rdf sc bn rb re = Some d -> len d <= 16) ->
  forall cmd, process_command idm pmm sys svcs rdf wrf cmd = Ok None \/
              exists rsp, process_command idm pmm sys svcs rdf wrf cmd = Ok (Some rsp).
Proof. exact tt3emu_total. Qed.
Print Assumptions C07_tt3emu_total.
Theorem C07_tt3emu_length_rule : forall idm pmm sys svcs rdf wrf c0 t, c0 <> 1 + len t ->
  process_command idm pmm sys svcs rdf wrf (c0 :: t) = Ok None.
Proof. exact tt3emu_length_rule. Qed.
Print Assumptions C07_tt3emu_length_rule.

(* --- SNEP / handover: whatever the fragments are and whatever ndeflib makes of the octets (records, DecodeError, or the
       ValueError it raises for a malformed TYPE field - `nd` is an arbitrary function), a serving thread sends 6-byte
       response headers and goes on, returns, or waits for the peer; no exception escapes it --- *)
Theorem C07_snep_header_total : forall nd max_len script st, snep_inv st ->
  exists sends o, snep_serve nd false max_len st script = Ok (sends, o).
Proof. exact snep_serve_total. Qed.
Print Assumptions C07_snep_header_total.
Theorem C07_snep_step_total : forall nd max_len st a, snep_inv st ->
  exists sends nx, snep_step nd false max_len st a = Ok (sends, nx) /\
                   match nx with Continue st' => snep_inv st' | Return => True end.
Proof. exact snep_step_total. Qed.
Print Assumptions C07_snep_step_total.
Theorem C07_snep_sends_headers : forall nd max_len st a sends nx, snep_inv st ->
  snep_step nd false max_len st a = Ok (sends, nx) -> Forall (fun m => len m = 6) sends.
Proof. exact snep_sends_headers. Qed.
Print Assumptions C07_snep_sends_headers.
Theorem C07_snep_client_total : forall acceptable st a, exists sends nx r, client_step acceptable st a = Ok (sends, nx, r).
Proof. exact snep_client_total. Qed.
Print Assumptions C07_snep_client_total.
Theorem C07_handover_serve_total : forall nd hs send_miu reset script request,
  exists sends o, ho_serve nd false hs send_miu reset request script = Ok (sends, o).
Proof. exact handover_serve_total. Qed.
Print Assumptions C07_handover_serve_total.
Theorem C07_handover_client_total : forall nd octets a, exists nx r, hc_step nd false octets a = Ok (nx, r).
Proof. exact handover_client_total. Qed.
Print Assumptions C07_handover_client_total.


(* --- translation tie: the kernels regenerated from the source on this run (Gen/RobustK.v by translate/kspec_c07.py; the SNEP
       header arithmetic of Gen/SnepK.v (C06) and the frame prefix of Gen/DepK.v (C04) are reused, not regenerated) are what the
       models compute with: every statement is a defining equation of a model function with the generated kernels plugged in --- *)
Theorem C07_bridge_atr_req d :
  gen_atr_req_nfields = 4%nat /\
  dec_atr_req d =
  (if negb (list_eqb (slice d 0 2) gen_code_ATR_REQ) then Ok None else
   if gen_atr_req_short d then Err ProtocolError else
   match gen_atr_req_fields d with
   | [did; bs; br; pp] => Ok (Some (AtrReq (gen_atr_req_nfcid3 d) did bs br pp (if gen_atr_req_has_gb pp then gen_atr_req_gb d else [])))
   | _ => Crash ValueErr
   end).
Proof. intros; apply bridge_atr_req; assumption. Qed.
Print Assumptions C07_bridge_atr_req.

Theorem C07_bridge_atr_res d :
  gen_atr_res_nfields = 5%nat /\
  dec_atr_res d =
  (if negb (list_eqb (slice d 0 2) gen_code_ATR_RES) then Ok None else
   if gen_atr_res_short d then Err ProtocolError else
   match gen_atr_res_fields d with
   | [did; bs; br; to; pp] => Ok (Some (AtrRes (gen_atr_res_nfcid3 d) did bs br to pp (if gen_atr_res_has_gb pp then gen_atr_res_gb d else [])))
   | _ => Crash ValueErr
   end).
Proof. intros; apply bridge_atr_res; assumption. Qed.
Print Assumptions C07_bridge_atr_res.

Theorem C07_bridge_psl d :
  dec_psl_req d = (if negb (list_eqb (slice d 0 2) gen_code_PSL_REQ) then Ok None else
                   if Nat.eqb (length (gen_psl_args d)) gen_arity_PSL_REQ
                   then match gen_psl_args d with [a; b; c] => Ok (Some (PslReq a b c)) | _ => Crash TypeErr end
                   else Err ProtocolError) /\
  dec_psl_res d = (if negb (list_eqb (slice d 0 2) gen_code_PSL_RES) then Ok None else
                   if Nat.eqb (length (gen_psl_args d)) gen_arity_PSL_RES
                   then match gen_psl_args d with [a] => Ok (Some (PslRes a)) | _ => Crash TypeErr end
                   else Err ProtocolError).
Proof. intros; apply bridge_psl; assumption. Qed.
Print Assumptions C07_bridge_psl.

Theorem C07_bridge_dsl rls req d :
  dec_dsl rls req d =
  (if negb (list_eqb (slice d 0 2) (dsl_code rls req)) then Ok None else
   if gen_dsl_long d then Err ProtocolError else
   do did <- (if gen_dsl_has_did d then (do x <- idx d gen_dsl_did_index; Ok (Some x)) else Ok None);
   Ok (Some (if rls then RlsPdu req did else DslPdu req did))).
Proof. intros; apply bridge_dsl; assumption. Qed.
Print Assumptions C07_bridge_dsl.

Theorem C07_bridge_dep_code (req :
 bool) (d : list Z) :
  (if req then starts2 d 212 6 else starts2 d 213 7) = list_eqb (slice d 0 2) (if req then gen_code_DEP_REQ else gen_code_DEP_RES).
Proof. intros; apply bridge_dep_code; assumption. Qed.
Print Assumptions C07_bridge_dep_code.

Theorem C07_bridge_i_dispatch c1 kind code t :
 In (c1, kind, code) gen_i_dispatch ->
  code = [213; c1] /\ decode_body false Ini (213 :: c1 :: t) = dec_by_kind Ini kind (213 :: c1 :: t).
Proof. intros; apply bridge_i_dispatch; assumption. Qed.
Print Assumptions C07_bridge_i_dispatch.

Theorem C07_bridge_t_dispatch c1 kind code t :
 In (c1, kind, code) gen_t_dispatch ->
  code = [212; c1] /\ decode_body false Tgt (212 :: c1 :: t) = dec_by_kind Tgt kind (212 :: c1 :: t).
Proof. intros; apply bridge_t_dispatch; assumption. Qed.
Print Assumptions C07_bridge_t_dispatch.

Theorem C07_bridge_code_bad c0 c1 t :
  (gen_i_code_bad c0 c1 = true -> decode_body false Ini (c0 :: c1 :: t) = Err ProtocolError) /\
  (gen_t_code_bad c0 c1 = true -> decode_body false Tgt (c0 :: c1 :: t) = Err ProtocolError) /\
  (gen_i_code_bad c0 c1 = false -> c0 = 213 /\ In c1 (map (fun e => fst (fst e)) gen_i_dispatch)) /\
  (gen_t_code_bad c0 c1 = false -> c0 = 212 /\ In c1 (map (fun e => fst (fst e)) gen_t_dispatch)).
Proof. intros; apply bridge_code_bad; assumption. Qed.
Print Assumptions C07_bridge_code_bad.

Theorem C07_bridge_strip_frame_dep r b frame :
  decode_frame r b frame = (do f <- gen_i_strip_frame b frame; decode_body false r f) /\
  gen_t_strip_frame b frame = gen_i_strip_frame b frame.
Proof. intros; apply bridge_strip_frame_dep; assumption. Qed.
Print Assumptions C07_bridge_strip_frame_dep.

Theorem C07_bridge_activate sec g :
  gen_lsc_text_size = len [0; 1; 2; 3] /\ gen_dpc_text_size = len [0; 1] /\
  activate_gb sec (Some g) =
  (if negb (gen_gb_accept g) then Ok (false, None) else
   match decode (gen_pax_bytes g) 0 (len (gen_pax_bytes g)) with
   | Ok p => use_pax sec p
   | Err DecodeError => Ok (gen_activate_decode_error_result, None)
   | Err e => Err e
   | Crash c => Crash c
   | Hang => Hang
   end).
Proof. intros; apply bridge_activate; assumption. Qed.
Print Assumptions C07_bridge_activate.

Theorem C07_bridge_pax_cfg sec d s v m w l o :
  use_pax sec (Pax d s v m w l o) =
  (do _ <- lsc_text o; do _ <- dpc_text o;
   Ok (true, Some (Pax.mkcfg (gen_cfg_rcvd_ver v) (gen_cfg_send_miu m) (gen_cfg_recv_lto l) (gen_cfg_send_wks w)
                         (gen_cfg_send_lsc o) (gen_cfg_llcp_dpc sec o)))).
Proof. intros; apply bridge_pax_cfg; assumption. Qed.
Print Assumptions C07_bridge_pax_cfg.

Theorem C07_bridge_t3_process (idm pmm sys svcs : list Z) (rdf : Z -> Z -> bool -> bool -> option (list Z)) (wrf : Z -> Z -> list Z -> bool -> bool -> bool) cmd :
  gen_t3_index_error_is_no_response = true /\
  process_command idm pmm sys svcs rdf wrf cmd =
  (if gen_t3_len_bad cmd then Ok None else
   match process_inner idm pmm sys svcs rdf wrf cmd with Crash IndexErr => Ok None | r => r end).
Proof. intros; apply bridge_t3_process; assumption. Qed.
Print Assumptions C07_bridge_t3_process.

Theorem C07_bridge_t3_inner (idm pmm sys svcs : list Z) (rdf : Z -> Z -> bool -> bool -> option (list Z)) (wrf : Z -> Z -> list Z -> bool -> bool -> bool) cmd :
  process_inner idm pmm sys svcs rdf wrf cmd =
  (if gen_t3_is_polling sys cmd then
     do rc <- idx (gen_t3_polling_arg cmd) gen_t3_polling_rc_index;
     do out <- ba (gen_t3_polling_rsp (gen_t3_polling idm pmm sys rc)); Ok (Some out)
   else if gen_t3_idm_match idm cmd then (do c1 <- idx cmd 1; t3_by_table idm sys svcs rdf wrf gen_t3_dispatch cmd c1)
   else Ok None).
Proof. intros; apply bridge_t3_inner; assumption. Qed.
Print Assumptions C07_bridge_t3_inner.

Theorem C07_bridge_t3_rd_wr_same (idm pmm sys svcs : list Z) (rdf : Z -> Z -> bool -> bool -> option (list Z)) (wrf : Z -> Z -> list Z -> bool -> bool -> bool) :
  gen_t3_wr_service_code = gen_t3_rd_service_code /\ gen_t3_wr_err_service = gen_t3_rd_err_service /\
  gen_t3_wr_service_step = gen_t3_rd_service_step /\ gen_t3_wr_list_index = gen_t3_rd_list_index /\
  gen_t3_wr_err_index = gen_t3_rd_err_index /\ gen_t3_wr_two_byte = gen_t3_rd_two_byte /\ gen_t3_wr_bn2 = gen_t3_rd_bn2 /\
  gen_t3_wr_bn2_step = gen_t3_rd_bn2_step /\ gen_t3_wr_bn3 = gen_t3_rd_bn3 /\ gen_t3_wr_bn3_step = gen_t3_rd_bn3_step /\
  gen_t3_wr_begin = gen_t3_rd_begin /\ gen_t3_wr_end = gen_t3_rd_end.
Proof. intros; apply bridge_t3_rd_wr_same; assumption. Qed.
Print Assumptions C07_bridge_t3_rd_wr_same.

Theorem C07_bridge_t3_parse_services (idm pmm sys svcs : list Z) (rdf : Z -> Z -> bool -> bool -> option (list Z)) (wrf : Z -> Z -> list Z -> bool -> bool -> bool) n err cd acc :
  parse_services svcs (S n) err cd acc =
  (do b1 <- idx cd 1; do b0 <- idx cd 0;
   let code := gen_t3_rd_service_code b0 b1 in
   if negb (memz code svcs) then Ok (Rsp err)
   else parse_services svcs n err (drop gen_t3_rd_service_step cd) (acc ++ [(code, 0)])).
Proof. intros; apply bridge_t3_parse_services; assumption. Qed.
Print Assumptions C07_bridge_t3_parse_services.

Theorem C07_bridge_t3_parse_blocks (idm pmm sys svcs : list Z) (rdf : Z -> Z -> bool -> bool -> option (list Z)) (wrf : Z -> Z -> list Z -> bool -> bool -> bool) m i cd sl acc :
  parse_blocks (S m) i cd sl acc =
  match nth_error cd 0 with
  | None => Ok (Rsp (gen_t3_rd_err_index i))
  | Some b0 =>
      let k := Z.to_nat (gen_t3_rd_list_index b0) in
      match nth_error sl k with
      | None => Ok (Rsp (gen_t3_rd_err_index i))
      | Some (code, cnt) =>
          let sl' := set_nth k (code, cnt + 1) sl in
          if gen_t3_rd_two_byte b0 then
            do b1 <- idx cd 1;
            parse_blocks m (i + 1) (drop gen_t3_rd_bn2_step cd) sl' (acc ++ [(code, gen_t3_rd_bn2 b1)])
          else
            do b2 <- idx cd 2; do b1 <- idx cd 1;
            parse_blocks m (i + 1) (drop gen_t3_rd_bn3_step cd) sl' (acc ++ [(code, gen_t3_rd_bn3 b1 b2)])
      end
  end.
Proof. intros; apply bridge_t3_parse_blocks; assumption. Qed.
Print Assumptions C07_bridge_t3_parse_blocks.

Theorem C07_bridge_t3_read (idm pmm sys svcs : list Z) (rdf : Z -> Z -> bool -> bool -> option (list Z)) (wrf : Z -> Z -> list Z -> bool -> bool -> bool) cd :
  read_without_encryption svcs rdf cd =
  (do (n, cd1) <- pop0 cd;
   do e1 <- parse_services svcs (Z.to_nat n) gen_t3_rd_err_service cd1 [];
   match e1 with
   | Rsp r => Ok r
   | Go (sl, cd2) =>
       do (m, cd3) <- pop0 cd2;
       if gen_t3_rd_too_many m then Ok gen_t3_rd_err_too_many else
       do e2 <- parse_blocks (Z.to_nat m) 0 cd3 sl [];
       match e2 with
       | Rsp r => Ok r
       | Go (sl', bl, _) =>
           do bl' <- annotate sl' bl;
           do e3 <- read_loop svcs rdf bl' 0 sl' [];
           match e3 with Rsp r => Ok r | Go data => ba (gen_t3_rd_ok data) end
       end
   end).
Proof. intros; apply bridge_t3_read; assumption. Qed.
Print Assumptions C07_bridge_t3_read.

Theorem C07_bridge_t3_read_loop (idm pmm sys svcs : list Z) (rdf : Z -> Z -> bool -> bool -> option (list Z)) (wrf : Z -> Z -> list Z -> bool -> bool -> bool) sc bn bc r i d acc :
  read_loop svcs rdf ((sc, bn, bc) :: r) i d acc =
  (do c <- dget d sc;
   do _ <- services_get svcs sc;
   match rdf sc bn (gen_t3_rd_begin bc c) (gen_t3_rd_end c) with
   | None => Ok (Rsp (gen_t3_rd_err_block i))
   | Some one => read_loop svcs rdf r (i + 1) (dset d sc (c - 1)) (acc ++ one)
   end).
Proof. intros; apply bridge_t3_read_loop; assumption. Qed.
Print Assumptions C07_bridge_t3_read_loop.

Theorem C07_bridge_t3_write (idm pmm sys svcs : list Z) (rdf : Z -> Z -> bool -> bool -> option (list Z)) (wrf : Z -> Z -> list Z -> bool -> bool -> bool) cd :
  write_without_encryption svcs wrf cd =
  (do (n, cd1) <- pop0 cd;
   do e1 <- parse_services svcs (Z.to_nat n) gen_t3_wr_err_service cd1 [];
   match e1 with
   | Rsp r => Ok r
   | Go (sl, cd2) =>
       do (m, cd3) <- pop0 cd2;
       do e2 <- parse_blocks (Z.to_nat m) 0 cd3 sl [];
       match e2 with
       | Rsp r => Ok r
       | Go (sl', bl, cd4) =>
           do bl' <- annotate sl' bl;
           if gen_t3_wr_misaligned cd4 then Ok gen_t3_wr_err_align else write_loop svcs wrf bl' 0 sl' cd4
       end
   end).
Proof. intros; apply bridge_t3_write; assumption. Qed.
Print Assumptions C07_bridge_t3_write.

Theorem C07_bridge_t3_write_loop (idm pmm sys svcs : list Z) (rdf : Z -> Z -> bool -> bool -> option (list Z)) (wrf : Z -> Z -> list Z -> bool -> bool -> bool) sc bn bc r i d bd :
  write_loop svcs wrf [] i d bd = Ok gen_t3_wr_ok /\
  write_loop svcs wrf ((sc, bn, bc) :: r) i d bd =
  (do c <- dget d sc;
   do _ <- services_get svcs sc;
   if negb (wrf sc bn (gen_t3_wr_block bd i) (gen_t3_wr_begin bc c) (gen_t3_wr_end c)) then Ok (gen_t3_wr_err_block i)
   else write_loop svcs wrf r (i + 1) (dset d sc (c - 1)) bd).
Proof. intros; apply bridge_t3_write_loop; assumption. Qed.
Print Assumptions C07_bridge_t3_write_loop.

Theorem C07_bridge_snep_process (nd : Z -> list Z -> ndef_out) d :
 6 <= len d ->
  process_snep_request nd false d =
  (let dec (o : ndef_out) (ok_code : Z) :=
     match o with
     | NdOk _ => Ok (gen_c06_response ok_code [])
     | NdDecodeError => rsp_of gen_snep_decode_error_code
     | NdValueError => rsp_of gen_snep_value_error_code
     end in
   if gen_c06_is_get d then dec (nd 0 (gen_c06_get_octets d)) gen_snep_default_get
   else if gen_c06_is_put d then dec (nd 0 (gen_c06_put_octets d)) gen_snep_default_put
   else Ok (gen_c06_response gen_snep_bad_request_code [])).
Proof. intros; apply bridge_snep_process; assumption. Qed.
Print Assumptions C07_bridge_snep_process.

Theorem C07_bridge_snep_first (nd : Z -> list Z -> ndef_out) max_len d :
  gen_snep_empty_fragment_ends = true /\
  snep_step nd false max_len Idle (Frag d) =
  (if len d =? 0 then Ok ([], Return)
   else if gen_c06_srv_short d then Ok ([], Return)
   else let v := gen_c06_srv_version d in
        let length := gen_c06_srv_length d in
        if gen_c06_srv_badver v then Ok ([gen_c06_rsp_unsupver], Continue Idle)
        else if gen_c06_srv_excess length max_len then Ok ([gen_c06_rsp_reject], Continue Idle)
        else if gen_c06_srv_more d length then Ok ([gen_c06_srv_rsp_continue], Continue (Collect d length))
        else (do r <- process_snep_request nd false d; Ok ([r], Continue Idle))).
Proof. intros; apply bridge_snep_first; assumption. Qed.
Print Assumptions C07_bridge_snep_first.

Theorem C07_bridge_snep_more (nd : Z -> list Z -> ndef_out) max_len data need f :
  snep_step nd false max_len (Collect data need) (Frag f) =
  (if gen_c06_srv_more (data ++ f) need then Ok ([], Continue (Collect (data ++ f) need))
   else (do r <- process_snep_request nd false (data ++ f); Ok ([r], Continue Idle))).
Proof. intros; apply bridge_snep_more; assumption. Qed.
Print Assumptions C07_bridge_snep_more.

Theorem C07_bridge_ho_step (nd : Z -> list Z -> ndef_out) (hs : list Z) (send_miu : Z) (reset : bool) request f :
  ho_step nd false hs send_miu reset request (Frag f) =
  (let r := request ++ f in
   if gen_c06_ho_empty r then Ok ([], Continue r) else
   match nd 1 r with
   | NdDecodeError => if gen_ho_serve_continues_on_decode_error then Ok ([], Continue r) else Crash ValueErr
   | NdValueError => if gen_ho_serve_continues_on_value_error then Ok ([], Continue r) else Crash ValueErr
   | NdOk _ => do rsp <- ho_process nd false hs r; Ok (chunks send_miu (length rsp) rsp, Continue (if reset then [] else r))
   end).
Proof. intros; apply bridge_ho_step; assumption. Qed.
Print Assumptions C07_bridge_ho_step.

Theorem C07_bridge_ho_process (nd : Z -> list Z -> ndef_out) (hs : list Z) (send_miu : Z) (reset : bool) request :
  ho_process nd false hs request =
  match nd 2 request with
  | NdOk hr => Ok (if hr then hs else [])
  | NdDecodeError => if gen_ho_process_empty_on_decode_error then Ok [] else Crash ValueErr
  | NdValueError => if gen_ho_process_empty_on_value_error then Ok [] else Crash ValueErr
  end.
Proof. intros; apply bridge_ho_process; assumption. Qed.
Print Assumptions C07_bridge_ho_process.

Theorem C07_bridge_ho_client (nd : Z -> list Z -> ndef_out) (hs : list Z) (send_miu : Z) (reset : bool) octets f :
  hc_step nd false octets (Frag f) =
  match nd 1 (octets ++ f) with
  | NdOk _ => Ok (Return, Some (octets ++ f))
  | NdDecodeError => if gen_ho_client_continues_on_decode_error then Ok (Continue (octets ++ f), None) else Crash ValueErr
  | NdValueError => if gen_ho_client_continues_on_value_error then Ok (Continue (octets ++ f), None) else Crash ValueErr
  end.
Proof. intros; apply bridge_ho_client; assumption. Qed.
Print Assumptions C07_bridge_ho_client.

(* the time-out granted to the frontend inside the retry loops of nfc.dep is the generated expression over the time left *)
Theorem C07_bridge_t_listen f c s frame dl :
  t_listen (S f) c s frame dl =
  (let t := gen_t_listen_timeout (now s) dl in
   let (r, s') := xchg c s frame t in
   match r with
   | Err TransmissionError => t_listen f c s' None dl
   | Ok rsp => t_decode c rsp s'
   | Err e => (Err e, s')
   | Crash x => (Crash x, s')
   | Hang => (Hang, s')
   end).
Proof. intros; apply bridge_t_listen; assumption. Qed.
Print Assumptions C07_bridge_t_listen.

Theorem C07_bridge_i_tmo s rwt dl :
 tmo s rwt dl = gen_i_tmo rwt (now s) dl.
Proof. intros; apply bridge_i_tmo; assumption. Qed.
Print Assumptions C07_bridge_i_tmo.

Theorem C07_bridge_i_loops f c s spni fmt pni data rwt dl n ch :
  i_sdr_loop (S f) c s spni fmt pni data rwt dl =
    (if gen_i_expired (gen_i_tmo rwt (now s) dl) then (Err TimeoutError, s) else
     let (r, s1) := i_srr c s fmt pni data (gen_i_tmo rwt (now s) dl) in
     match r with
     | Ok res => (Ok res, s1)
     | Err TimeoutError =>
         let (a, s2) := i_attention 2 c s1 rwt dl in
         match a with
         | Ok _ => i_sdr_loop f c s2 spni fmt pni data rwt dl
         | Err e => (Err e, s2) | Crash x => (Crash x, s2) | Hang => (Hang, s2)
         end
     | Err TransmissionError => i_retrans 2 c s1 spni rwt dl (fmt =? 1)
     | Err e => (Err e, s1) | Crash x => (Crash x, s1) | Hang => (Hang, s1)
     end) /\
  i_attention (S n) c s rwt dl =
    (if gen_i_expired (gen_i_tmo rwt (now s) dl) then (Err TimeoutError, s) else
     let (r, s') := i_srr c s 8 0 [] (gen_i_tmo rwt (now s) dl) in
     match r with
     | Ok res => if rfmt res =? 9 then (Err ProtocolError, s')
                 else if negb (rfmt res =? 8) then (Err ProtocolError, s') else (Ok tt, s')
     | Err _ => i_attention n c s' rwt dl
     | Crash x => (Crash x, s') | Hang => (Hang, s')
     end) /\
  i_retrans (S n) c s pni rwt dl ch =
    (if gen_i_expired (gen_i_tmo rwt (now s) dl) then (Err TimeoutError, s) else
     let (r, s') := i_srr c s 5 pni [] (gen_i_tmo rwt (now s) dl) in
     match r with
     | Ok res => if rfmt res =? 9 then (Err ProtocolError, s')
                 else if (rfmt res =? 0) || (rfmt res =? 1) || (ch && (rfmt res =? 4)) then (Ok res, s')
                 else (Err ProtocolError, s')
     | Err _ => i_retrans n c s' pni rwt dl ch
     | Crash x => (Crash x, s') | Hang => (Hang, s')
     end).
Proof. intros; apply bridge_i_loops; assumption. Qed.
Print Assumptions C07_bridge_i_loops.

Theorem C07_bridge_t_deactivate f fuel c s res data dl :
  gen_deact_grace_ms = 1000 /\
  t_deact_loop (S f) fuel c s res data dl =
  (if negb (gen_deact_running (now s) dl) then (Ok tt, s) else
   let (r, s') := t_send fuel c s None res dl in
   match r with
   | Err _ => (Ok tt, s')
   | Ok None => (Ok tt, s')
   | Ok (Some q) =>
       if oeqb (treq_did q) (cdid c) then
         match q with
         | TDsl _ | TRls _ =>
             let rls := match q with TRls _ => true | _ => false end in
             let (r2, s2) := t_listen fuel c s' (Some (enc_rel c rls)) 0 in
             match r2 with Crash x => (Crash x, s2) | Hang => (Hang, s2) | _ => (Ok tt, s2) end
         | TDep d =>
             if gen_deact_is_atn (rfmt d) then t_deact_loop f fuel c s' (Some (8, 0, [])) data dl
             else t_deact_loop f fuel c s' (Some (0, rpni d, data)) data dl
         | TOther _ => t_deact_loop f fuel c s' None data dl
         end
       else t_deact_loop f fuel c s' None data dl
   | Crash x => (Crash x, s')
   | Hang => (Hang, s')
   end) /\
  (forall grace, t_deactivate fuel c s data grace = t_deact_loop fuel fuel c s None data (now s + grace)).
Proof. intros; apply bridge_t_deactivate; assumption. Qed.
Print Assumptions C07_bridge_t_deactivate.

(* --- the code as it was (each of these inputs was found by the check on the unrepaired tree) --- *)
Theorem C07_orig_dep_empty_frame : decode_frame_orig Ini false [] = Crash IndexErr /\ decode_frame_orig Tgt true [240] = Crash IndexErr.
Proof. split; [apply orig_empty_frame | apply orig_start_byte_only]. Qed.
Print Assumptions C07_orig_dep_empty_frame.
Theorem C07_orig_dep_short_atr : decode_frame_orig Ini true [240; 3; 213; 1] = Crash ValueErr /\
                                 decode_frame_orig Tgt false [3; 212; 0] = Crash ValueErr.
Proof. split; [exact orig_short_atr_res | exact orig_short_atr_req]. Qed.
Print Assumptions C07_orig_dep_short_atr.
Theorem C07_orig_rtox_no_value : rtox_value_orig [] = Crash IndexErr.
Proof. exact orig_rtox_no_value. Qed.
Print Assumptions C07_orig_rtox_no_value.
Theorem C07_orig_general_bytes : activate_gb_orig false (Some [70; 102; 109; 1; 1; 19; 2; 2]) = Err DecodeError.
Proof. exact orig_truncated_miux. Qed.
Print Assumptions C07_orig_general_bytes.
Theorem C07_orig_tt3_short_read :
  ex_process [2;254;1;2;3;4;5;6] [255;255;255;255;255;255;255;255] [18;252] 12 true [10;6;2;254;1;2;3;4;5;6] = Crash IndexErr.
Proof. exact orig_short_read. Qed.
Print Assumptions C07_orig_tt3_short_read.
Theorem C07_orig_ui_to_dlc_hangs : wf ex_llc /\ pdu_ok (UI 32 16 [1]) /\ dispatch true ex_llc (UI 32 16 [1]) = Hang.
Proof. split; [exact ex_llc_wf|]. split; [cbn; split; [discriminate | reflexivity] | exact orig_ui_to_dlc_hangs]. Qed.
Print Assumptions C07_orig_ui_to_dlc_hangs.

Theorem C07_orig_snep_put_bad_type :
  snep_serve nd_value_error true 1048576 Idle [Frag [16; 2; 0; 0; 0; 4; 210; 1; 0; 128]; Closed] = Crash ValueErr /\
  ho_serve nd_value_error true [209;2;1;72;115;18] 128 false [] [Frag [210; 1; 0; 128]; Closed] = Crash ValueErr.
Proof. split; [exact orig_snep_put_bad_type | exact orig_handover_bad_type]. Qed.
Print Assumptions C07_orig_snep_put_bad_type.

(* --- non-vacuity: the hypotheses are met by concrete values and the decoders do accept well-formed input --- *)
Example C07_nonvacuous :
  wf ex_llc /\
  (exists p, decode_frame Ini true [240; 6; 213; 7; 0; 1; 2] = Ok (Some p)) /\
  (exists cfg, activate_gb false (Some [70; 102; 109; 1; 1; 19; 2; 2; 0; 120]) = Ok (true, Some cfg)) /\
  (exists rsp, ex_process [2;254;1;2;3;4;5;6] [255;255;255;255;255;255;255;255] [18;252] 12 false
                 [16;6;2;254;1;2;3;4;5;6;1;11;0;1;128;0] = Ok (Some rsp)) /\
  (exists st', receive false ex_llc [129; 132; 0] = Ok (Dispatched st')).
Proof.
  split; [exact ex_llc_wf|]. split; [eexists; vm_compute; reflexivity|]. split; [eexists; vm_compute; reflexivity|].
  split; eexists; vm_compute; reflexivity.
Qed.
