(* Total versions of the Python primitives the kernel translator emits. *)
From Coq Require Import ZArith List Bool Lia ZifyBool.
From NV Require Import Base.Bytes.
Import ListNotations.
Open Scope Z_scope.

Definition zrange (a b : Z) : list Z := map (fun i => a + Z.of_nat i) (seq 0 (Z.to_nat (b - a))).
Lemma zrange_nil a b : b <= a -> zrange a b = [].
Proof. intro. unfold zrange. replace (Z.to_nat (b-a)) with 0%nat by lia. reflexivity. Qed.
Lemma zrange_cons a b : a < b -> zrange a b = a :: zrange (a+1) b.
Proof. intro. unfold zrange. replace (Z.to_nat (b-a)) with (S (Z.to_nat (b-(a+1)))) by lia.
  cbn [seq map]. f_equal; [lia|]. rewrite <- seq_shift, map_map. apply map_ext. intro; lia. Qed.
Lemma zrange_snoc a b : a <= b -> zrange a (b+1) = zrange a b ++ [b].
Proof. intro. unfold zrange. replace (Z.to_nat (b+1-a)) with (Z.to_nat (b-a) + 1)%nat by lia.
  rewrite seq_app, map_app. cbn. f_equal. f_equal. lia. Qed.
Lemma zrange_len a b : Z.of_nat (length (zrange a b)) = Z.max 0 (b - a).
Proof. unfold zrange. rewrite map_length, seq_length. lia. Qed.
Lemma in_zrange a b x : In x (zrange a b) <-> a <= x < b.
Proof. unfold zrange. rewrite in_map_iff. split.
  - intros (i & <- & Hi). apply in_seq in Hi. lia.
  - intro H. exists (Z.to_nat (x - a)). split; [lia|]. apply in_seq. lia. Qed.

(* Python slice index normalisation *)
Definition norm_idx (n i : Z) : Z := if i <? 0 then Z.max 0 (i + n) else Z.min i n.
Definition pyslice {A} (l : list A) (a b : Z) : list A :=
  let n := len l in let a' := norm_idx n a in let b' := norm_idx n b in
  firstn (Z.to_nat (b' - a')) (skipn (Z.to_nat a') l).
(* total indexing (kernels translated with pyidx must be shown in-range by the
   bridge lemma or be used only where the model has a checked accessor) *)
Definition pyidx (l : list Z) (i : Z) : Z :=
  let j := if i <? 0 then i + len l else i in
  if j <? 0 then 0 else nth (Z.to_nat j) l 0.

Fixpoint list_eqb (a b : list Z) : bool :=
  match a, b with
  | [], [] => true
  | x :: a', y :: b' => (x =? y) && list_eqb a' b'
  | _, _ => false
  end.
Lemma list_eqb_eq a : forall b, list_eqb a b = true <-> a = b.
Proof. induction a as [|x a IH]; destruct b as [|y b]; cbn; try (split; congruence).
  rewrite andb_true_iff, Z.eqb_eq, IH. split; [intros [-> ->]; reflexivity | intro H; inversion H; auto]. Qed.
Lemma list_eqb_refl l : list_eqb l l = true.
Proof. now apply list_eqb_eq. Qed.

(* struct.pack fields (total; Python raises struct.error outside the field's range) *)
Definition pack_u8 (n : Z) : list Z := [n].
Definition pack_be16 (n : Z) : list Z := [n / 256; n mod 256].
Definition pack_le16 (n : Z) : list Z := [n mod 256; n / 256].
Definition pack_le32 (n : Z) : list Z := [n mod 256; (n / 256) mod 256; (n / 65536) mod 256; (n / 16777216) mod 256].
Definition pack_be32 (n : Z) : list Z := [(n / 16777216) mod 256; (n / 65536) mod 256; (n / 256) mod 256; n mod 256].

(* bytes.startswith; struct.unpack(">H", x)[0] and struct.unpack("<I", x)[0] (total: Python raises struct.error
   unless len x is 2, resp. 4) *)
Definition py_startswith (l p : list Z) : bool := list_eqb (firstn (length p) l) p.
Definition unpack_be16 (l : list Z) : Z := pyidx l 0 * 256 + pyidx l 1.
Definition unpack_le32 (l : list Z) : Z := pyidx l 0 + 256 * pyidx l 1 + 65536 * pyidx l 2 + 16777216 * pyidx l 3.

(* for non-negative bounds Python's slice is the clipped [slice] of Base.Bytes *)
Lemma pyslice_slice {A} (l : list A) a b : 0 <= a -> 0 <= b -> pyslice l a b = slice l a b.
Proof.
  intros Ha Hb. unfold pyslice, norm_idx, slice. pose proof (len_nonneg l) as Hn.
  replace (a <? 0) with false by lia. replace (b <? 0) with false by lia. rewrite (Z.max_r 0 a) by lia.
  destruct (Z.le_gt_cases (len l) a) as [H|H].
  - rewrite (Z.min_r a) by lia. unfold len in *. rewrite !skipn_all2 by lia. now rewrite !firstn_nil.
  - rewrite (Z.min_l a) by lia. destruct (Z.le_gt_cases b (len l)) as [H2|H2].
    + rewrite (Z.min_l b) by lia. now replace (Z.to_nat (Z.max 0 (b - a))) with (Z.to_nat (b - a)) by lia.
    + rewrite (Z.min_r b) by lia. unfold len in *. rewrite !firstn_all2; [reflexivity | |]; rewrite skipn_length; lia.
Qed.
Lemma pyslice_0 {A} (l : list A) (b : Z) : 0 <= b -> pyslice l 0 b = slice l 0 b.
Proof. intro. apply pyslice_slice; lia. Qed.
Lemma pyslice_take {A} (l : list A) b : 0 <= b -> pyslice l 0 b = take b l.
Proof. intro. rewrite pyslice_slice, slice_take_drop by lia. now rewrite Z.sub_0_r. Qed.
Lemma pyslice_drop {A} (l : list A) a : 0 <= a -> pyslice l a (len l) = drop a l.
Proof.
  intro. pose proof (len_nonneg l). rewrite pyslice_slice, slice_take_drop by lia.
  destruct (Z.le_gt_cases a (len l)); [apply take_all; rewrite len_drop; lia|].
  rewrite drop_all by lia. apply firstn_nil.
Qed.
