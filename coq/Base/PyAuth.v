(* Total versions of the Python constructs used around the crypto calls of the tag classes that the
   C20 kernel generator (translate/kspec_c20.py) emits: slices with step -1, the
   grouping idiom "zip over k references to one iterator".  Facts about them that do not depend on any model. *)
From Coq Require Import ZArith List Bool Lia.
From NV Require Import Base.Bytes Base.PyPrims.
Import ListNotations.
Open Scope Z_scope.

(* index normalisation of s[lo:hi:-1]: into [-1, n-1] *)
Definition norm_neg (n i : Z) : Z :=
  let j := if i <? 0 then i + n else i in
  if j <? 0 then -1 else if n <=? j then n - 1 else j.

(* s[lo:hi:-1] (None = bound omitted): the elements start, start-1, .., stop+1 *)
Definition pyslice_neg {A} (l : list A) (lo hi : option Z) : list A :=
  let n := len l in
  let start := match lo with None => n - 1 | Some i => norm_neg n i end in
  let stop := match hi with None => -1 | Some i => norm_neg n i end in
  rev (slice l (stop + 1) (start + 1)).

(* zip over k references to iter(s): consecutive groups of k, an incomplete tail is dropped *)
Fixpoint pychunks_fuel {A} (fuel k : nat) (l : list A) : list (list A) :=
  match fuel with
  | O => []
  | S f => if (length l <? k)%nat then [] else firstn k l :: pychunks_fuel f k (skipn k l)
  end.
Definition pychunks {A} (k : Z) (l : list A) : list (list A) := pychunks_fuel (length l) (Z.to_nat k) l.

(* s[:-9:-1] is the last eight elements in reverse order, for every length *)
Lemma pyslice_neg_tail8 {A} (l : list A) : pyslice_neg l None (Some (-9)) = firstn 8 (rev l).
Proof.
  unfold pyslice_neg, norm_neg, slice. change (-9 <? 0) with true. cbv iota.
  pose proof (len_nonneg l) as Hn. rewrite firstn_rev.
  destruct (-9 + len l <? 0) eqn:E.
  - apply Z.ltb_lt in E. replace (len l <=? -9 + len l) with false by lia.
    change (-1 + 1) with 0. cbn [Z.max Z.to_nat skipn].
    replace (length l - 8)%nat with 0%nat by (unfold len in *; lia). cbn [skipn].
    f_equal. apply firstn_all2. unfold len in *. lia.
  - apply Z.ltb_ge in E. replace (len l <=? -9 + len l) with false by lia.
    f_equal. rewrite !Z.max_r by lia.
    replace (Z.to_nat (-9 + len l + 1)) with (length l - 8)%nat by (unfold len in *; lia).
    apply firstn_all2. rewrite skipn_length. unfold len in *. lia.
Qed.

(* byte strings of a known length, written out *)
Lemma list4 {A} (l : list A) : length l = 4%nat -> exists a b c d, l = [a; b; c; d].
Proof. intro H. do 4 (destruct l as [|? l]; [discriminate|]). destruct l; [|discriminate]. repeat eexists. Qed.
Lemma list6 {A} (l : list A) : length l = 6%nat -> exists a b c d e f, l = [a; b; c; d; e; f].
Proof. intro H. do 6 (destruct l as [|? l]; [discriminate|]). destruct l; [|discriminate]. repeat eexists. Qed.
Lemma list8 {A} (l : list A) : length l = 8%nat ->
  exists a0 a1 a2 a3 a4 a5 a6 a7, l = [a0; a1; a2; a3; a4; a5; a6; a7].
Proof. intro H. do 8 (destruct l as [|? l]; [discriminate|]). destruct l; [|discriminate]. repeat eexists. Qed.
Lemma list16 {A} (l : list A) : length l = 16%nat ->
  exists a0 a1 a2 a3 a4 a5 a6 a7 a8 a9 a10 a11 a12 a13 a14 a15,
    l = [a0; a1; a2; a3; a4; a5; a6; a7; a8; a9; a10; a11; a12; a13; a14; a15].
Proof. intro H. do 16 (destruct l as [|? l]; [discriminate|]). destruct l; [|discriminate]. repeat eexists. Qed.

(* struct.unpack("<H", x)[0] / (">H") for a 2-byte x (total: missing bytes read as 0) *)
Definition unpack_le16 (l : list Z) : Z := pyidx l 0 + 256 * pyidx l 1.
Definition unpack_be16 (l : list Z) : Z := 256 * pyidx l 0 + pyidx l 1.
