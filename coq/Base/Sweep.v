(* Lifting a computed finite sweep to a bounded universal statement. *)
From Coq Require Import ZArith List Bool Lia.
Ltac Zify.zify_post_hook ::= Z.to_euclidean_division_equations.
Import ListNotations.
Open Scope Z_scope.

Definition zseq (a : Z) (n : nat) : list Z := map (fun i => a + Z.of_nat i) (seq 0 n).
Lemma in_zseq a n x : a <= x < a + Z.of_nat n -> In x (zseq a n).
Proof. intro H. unfold zseq. apply in_map_iff. exists (Z.to_nat (x - a)). split; [lia|].
  apply in_seq. lia. Qed.
Lemma sweep_lift (P : Z -> bool) a n :
  forallb P (zseq a n) = true -> forall x, a <= x < a + Z.of_nat n -> P x = true.
Proof. intros H x Hx. rewrite forallb_forall in H. apply H, in_zseq, Hx. Qed.
