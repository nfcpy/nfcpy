(* Byte strings are lists of Z with a side predicate; checked accessors only. *)
From Coq Require Import ZArith List Bool Lia.
From NV Require Import Base.Result.
Import ListNotations.
Open Scope Z_scope.

Definition byte_ok (b : Z) : Prop := 0 <= b < 256.
Definition bytes_ok (l : list Z) : Prop := Forall byte_ok l.
Definition byte_okb (b : Z) : bool := (0 <=? b) && (b <? 256).
Definition bytes_okb (l : list Z) : bool := forallb byte_okb l.

Lemma byte_okb_spec b : byte_okb b = true <-> byte_ok b.
Proof. unfold byte_okb, byte_ok. rewrite andb_true_iff, Z.leb_le, Z.ltb_lt. tauto. Qed.
Lemma bytes_okb_spec l : bytes_okb l = true <-> bytes_ok l.
Proof. unfold bytes_okb, bytes_ok. rewrite forallb_forall, Forall_forall.
  split; intros H x Hx; apply byte_okb_spec, H, Hx. Qed.

Definition len {A} (l : list A) : Z := Z.of_nat (length l).
Lemma len_nonneg {A} (l : list A) : 0 <= len l. Proof. unfold len; lia. Qed.
Lemma len_app {A} (a b : list A) : len (a ++ b) = len a + len b.
Proof. unfold len. rewrite app_length. lia. Qed.
Lemma len_cons {A} (x : A) l : len (x :: l) = 1 + len l.
Proof. unfold len. cbn [length]. lia. Qed.
Lemma len_nil {A} : len (@nil A) = 0. Proof. reflexivity. Qed.
Lemma len_pos {A} (l : list A) : l <> [] -> 0 < len l.
Proof. destruct l; [congruence|]. intros _. rewrite len_cons. pose proof (len_nonneg l). lia. Qed.

(* Python l[i] for i >= 0 (negative indices are modelled where used) *)
Definition idx (l : list Z) (i : Z) : res Z :=
  if i <? 0 then Crash IndexErr else
  match nth_error l (Z.to_nat i) with Some x => Ok x | None => Crash IndexErr end.

Lemma idx_nth l i : 0 <= i < len l -> idx l i = Ok (nth (Z.to_nat i) l 0).
Proof.
  intro H. unfold idx. replace (i <? 0) with false by lia.
  unfold len in H. now rewrite (nth_error_nth' l 0) by lia.
Qed.

(* Python slice l[a:b] for 0 <= a, clipped like Python *)
Definition slice {A} (l : list A) (a b : Z) : list A :=
  firstn (Z.to_nat (Z.max 0 (b - Z.max 0 a))) (skipn (Z.to_nat (Z.max 0 a)) l).
Definition drop {A} (n : Z) (l : list A) : list A := skipn (Z.to_nat n) l.
Definition take {A} (n : Z) (l : list A) : list A := firstn (Z.to_nat n) l.

Definition sum (l : list Z) : Z := fold_left Z.add l 0.
Lemma fold_add_acc l : forall a, fold_left Z.add l a = a + fold_left Z.add l 0.
Proof. induction l as [|x l IH]; intro a; cbn; [lia|]. rewrite IH, (IH x). lia. Qed.
Lemma sum_cons x l : sum (x :: l) = x + sum l.
Proof. unfold sum. cbn. rewrite fold_add_acc. lia. Qed.
Lemma sum_app a b : sum (a ++ b) = sum a + sum b.
Proof. induction a as [|x a IH]; [reflexivity|]. rewrite <- app_comm_cons, !sum_cons, IH. lia. Qed.
Lemma sum_nil : sum [] = 0. Proof. reflexivity. Qed.

Lemma bytes_ok_app a b : bytes_ok (a ++ b) <-> bytes_ok a /\ bytes_ok b.
Proof. apply Forall_app. Qed.
Lemma bytes_ok_cons x l : bytes_ok (x :: l) <-> byte_ok x /\ bytes_ok l.
Proof. unfold bytes_ok. split; [intro H; inversion H; auto | intros [? ?]; constructor; auto]. Qed.

Lemma take_len_app {A} (a b : list A) : take (len a) (a ++ b) = a.
Proof. unfold take, len. rewrite Nat2Z.id, firstn_app, Nat.sub_diag, firstn_all. cbn. apply app_nil_r. Qed.
Lemma drop_len_app {A} (a b : list A) : drop (len a) (a ++ b) = b.
Proof. unfold drop, len. rewrite Nat2Z.id, skipn_app, Nat.sub_diag, skipn_all. reflexivity. Qed.

(* take / drop / slice: the facts every layer above uses *)
Lemma take_drop {A} n (l : list A) : take n l ++ drop n l = l.
Proof. apply firstn_skipn. Qed.
Lemma take_0 {A} (l : list A) : take 0 l = []. Proof. reflexivity. Qed.
Lemma drop_0 {A} (l : list A) : drop 0 l = l. Proof. reflexivity. Qed.
Lemma take_all {A} n (l : list A) : len l <= n -> take n l = l.
Proof. unfold take, len. intro. apply firstn_all2. lia. Qed.
Lemma drop_all {A} n (l : list A) : len l <= n -> drop n l = [].
Proof. unfold drop, len. intro. apply skipn_all2. lia. Qed.
Lemma len_take_min {A} n (l : list A) : 0 <= n -> len (take n l) = Z.min n (len l).
Proof. unfold take, len. intro. rewrite firstn_length. lia. Qed.
Lemma len_take {A} n (l : list A) : 0 <= n <= len l -> len (take n l) = n.
Proof. intro. rewrite len_take_min; lia. Qed.
Lemma len_take_le {A} n (l : list A) : 0 <= n -> len (take n l) <= n.
Proof. intro. rewrite len_take_min; lia. Qed.
Lemma len_drop_max {A} n (l : list A) : 0 <= n -> len (drop n l) = Z.max 0 (len l - n).
Proof. unfold drop, len. intro. rewrite skipn_length. lia. Qed.
Lemma len_drop {A} n (l : list A) : 0 <= n <= len l -> len (drop n l) = len l - n.
Proof. intro. rewrite len_drop_max; lia. Qed.
Lemma drop_drop {A} a b (l : list A) : 0 <= a -> 0 <= b -> drop a (drop b l) = drop (b + a) l.
Proof.
  intros Ha Hb. unfold drop. rewrite Z2Nat.inj_add by lia.
  generalize (Z.to_nat b); intro n. revert l. induction n as [|n IH]; intro l; [reflexivity|].
  destruct l; [now rewrite !skipn_nil | apply IH].
Qed.
Lemma slice_take_drop {A} (l : list A) a b : 0 <= a -> slice l a b = take (b - a) (drop a l).
Proof. intro. unfold slice, take, drop. rewrite (Z.max_r 0 a) by lia. f_equal. lia. Qed.
Lemma len_slice_le {A} (l : list A) a b : 0 <= a <= b -> len (slice l a b) <= b - a.
Proof. intros. rewrite slice_take_drop by lia. apply len_take_le. lia. Qed.
Lemma len_slice {A} (l : list A) a b : 0 <= a <= b -> b <= len l -> len (slice l a b) = b - a.
Proof. intros. rewrite slice_take_drop, len_take; [reflexivity| |]; rewrite ?len_drop; lia. Qed.
Lemma bytes_ok_take n l : bytes_ok l -> bytes_ok (take n l).
Proof. intro H. rewrite <- (take_drop n l) in H. apply bytes_ok_app in H. tauto. Qed.
Lemma bytes_ok_drop n l : bytes_ok l -> bytes_ok (drop n l).
Proof. intro H. rewrite <- (take_drop n l) in H. apply bytes_ok_app in H. tauto. Qed.
Lemma bytes_ok_slice l a b : bytes_ok l -> bytes_ok (slice l a b).
Proof. intro H. apply bytes_ok_take, (bytes_ok_drop (Z.max 0 a)), H. Qed.

(* x & (2^k - 1) = x mod 2^k for the masks the code uses *)
Lemma land3 a : Z.land a 3 = a mod 4. Proof. apply (Z.land_ones a 2). lia. Qed.
Lemma land7 a : Z.land a 7 = a mod 8. Proof. apply (Z.land_ones a 3). lia. Qed.
Lemma land15 a : Z.land a 15 = a mod 16. Proof. apply (Z.land_ones a 4). lia. Qed.
Lemma land255 a : Z.land a 255 = a mod 256. Proof. apply (Z.land_ones a 8). lia. Qed.
Lemma land2047 a : Z.land a 2047 = a mod 2048. Proof. apply (Z.land_ones a 11). lia. Qed.
Lemma land65535 a : Z.land a 65535 = a mod 65536. Proof. apply (Z.land_ones a 16). lia. Qed.

(* `if x & m then x & k else x` is `x & k` when m and k together cover the n bits of x: x = x & (m | k) = x&m | x&k *)
Lemma mask_clear n m k x : Z.lor m k = Z.ones n -> 0 <= n -> 0 <= x < 2 ^ n ->
  (if negb (Z.land x m =? 0) then Z.land x k else x) = Z.land x k.
Proof.
  intros Hmk Hn Hx. destruct (Z.land x m =? 0) eqn:E; [|reflexivity]. apply Z.eqb_eq in E.
  assert (H : Z.land x (Z.lor m k) = x) by (rewrite Hmk, Z.land_ones, Z.mod_small; trivial).
  rewrite Z.land_lor_distr_r, E, Z.lor_0_l in H. symmetry. exact H.
Qed.

Lemma bytes_ok_skipn n l : bytes_ok l -> bytes_ok (skipn n l).
Proof. intro H. rewrite <- (firstn_skipn n l) in H. apply bytes_ok_app in H. tauto. Qed.
Lemma bytes_ok_firstn n l : bytes_ok l -> bytes_ok (firstn n l).
Proof. intro H. rewrite <- (firstn_skipn n l) in H. apply bytes_ok_app in H. tauto. Qed.
Lemma nth_byte_ok l k : bytes_ok l -> 0 <= nth k l 0 < 256.
Proof. intro H. destruct (nth_in_or_default k l 0) as [Hi | ->]; [exact (proj1 (Forall_forall _ _) H _ Hi) | lia]. Qed.
