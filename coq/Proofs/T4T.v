(* Type 4 Tag: write/read round trip, cut safety, write frame (Model/T4T.v). *)
From Coq Require Import ZArith List Bool Lia ZifyBool.
From NV Require Import Base.Result Base.Bytes Base.PyPrims Proofs.Chunks Model.T3T Model.T4T.
Import ListNotations.
Open Scope Z_scope.
Ltac Zify.zify_post_hook ::= Z.to_euclidean_division_equations.

Definition in_file (c : card) : Prop := c_app c = true /\ c_sel c = 2.
Definition with_file (c : card) (f : list Z) (b : Z) (lg : list (Z * list Z)) : card :=
  mkCard (c_cc c) (c_fid c) f (c_v2 c) (c_v1 c) (c_app c) (c_sel c) b lg.
Definition same_cc (c c' : card) : Prop :=
  c_cc c' = c_cc c /\ c_fid c' = c_fid c /\ c_v2 c' = c_v2 c /\ c_v1 c' = c_v1 c.
Lemma same_cc_refl c : same_cc c c. Proof. unfold same_cc; auto. Qed.
Lemma same_cc_trans a b c : same_cc a b -> same_cc b c -> same_cc a c.
Proof. unfold same_cc. intuition congruence. Qed.

Lemma short_apdu_ok cla ins p1 p2 d mrl : len d <= 255 -> mrl <= 256 -> exists f, short_apdu cla ins p1 p2 d mrl = Ok f.
Proof.
  intros. unfold short_apdu. replace (negb (len d =? 0) && (len d >? 255)) with false by lia.
  replace (negb (mrl =? 0) && (mrl >? 256)) with false by lia. eexists; reflexivity.
Qed.
Lemma apdu_rd_ok off mrl : 0 <= off <= 65535 -> 1 <= mrl <= 256 -> exists f, apdu_of_op (RdBin off mrl) = Ok f.
Proof. intros. unfold apdu_of_op. replace ((off <? 0) || (off >? 65535)) with false by lia. apply short_apdu_ok; [easy | lia]. Qed.
Lemma apdu_up_ok off d : 0 <= off <= 65535 -> 1 <= len d <= 255 -> exists f, apdu_of_op (UpBin off d) = Ok f.
Proof. intros. unfold apdu_of_op. replace ((off <? 0) || (off >? 65535)) with false by lia. apply short_apdu_ok; lia. Qed.

Lemma read_binary_file c max_le off size : in_file c -> c_budget c <> 0 ->
  0 <= off <= 65535 -> off <= len (c_file c) -> 1 <= Z.min max_le size <= 256 -> Z.min max_le size <= c_mle c ->
  read_binary c max_le off size = (Ok (slice (c_file c) off (off + Z.min max_le size)), c).
Proof.
  intros (Ha & Hs) Hb Ho Hl Hm Hc.
  assert (Hle : len (slice (c_file c) off (off + Z.min max_le size)) <= Z.min max_le size)
    by (pose proof (len_slice_le (c_file c) off (off + Z.min max_le size)); lia).
  unfold read_binary, t4_send.
  destruct (apdu_rd_ok off (Z.min max_le size)) as (f & ->); [lia | lia |].
  replace (c_budget c =? 0) with false by lia. unfold card_step. rewrite Hs.
  change (2 =? 0) with false. change (2 =? 1) with false. change (2 =? 2) with true. cbv iota.
  replace (Z.min max_le size <=? 0) with false by lia.
  replace (true && (Z.min max_le size >? c_mle c)) with false by lia.
  replace (off >? len (c_file c)) with false by lia.
  replace (len (slice (c_file c) off (off + Z.min max_le size)) >? Z.max (Z.min max_le size) 0) with false by lia. reflexivity.
Qed.

(* an UPDATE BINARY the card accepts, independent of the file contents *)
Definition up_ok (c : card) (u : Z * list Z) : Prop :=
  0 <= fst u <= 65535 /\ 1 <= len (snd u) <= 255 /\ len (snd u) <= c_mlc c /\ fst u + len (snd u) <= len (c_file c).

Lemma up_file_ok c u : in_file c -> up_ok c u -> c_budget c <> 0 ->
  t4_send c (UpBin (fst u) (snd u)) =
  (Ok [], with_file c (apply_up (c_file c) u) (if c_budget c <? 0 then c_budget c else c_budget c - 1) (u :: c_log c)).
Proof.
  destruct u as [off d]. intros (Ha & Hs) (H1 & H2 & H3 & H4) Hb. cbn [fst snd] in *. unfold t4_send.
  destruct (apdu_up_ok off d) as (f & ->); [lia | lia |].
  replace (c_budget c =? 0) with false by lia. unfold card_step. rewrite Hs.
  change (2 =? 0) with false. change (2 =? 1) with false. cbv iota.
  replace (len d =? 0) with false by lia. replace (len d >? c_mlc c) with false by lia.
  replace (off + len d >? len (c_file c)) with false by lia.
  unfold with_file, apply_up. cbn [fst snd]. rewrite Hs. reflexivity.
Qed.
Lemma up_dead c u : c_budget c = 0 -> up_ok c u -> t4_send c (UpBin (fst u) (snd u)) = (Err (TagCommandError 0), c).
Proof.
  intros Hb (H1 & H2 & _). unfold t4_send. destruct (apdu_up_ok (fst u) (snd u) H1 H2) as (f & ->).
  now replace (c_budget c =? 0) with true by lia.
Qed.
Lemma up_ok_same c c' u : same_cc c c' -> len (c_file c') = len (c_file c) -> up_ok c u -> up_ok c' u.
Proof. intros (Hcc & _) Hl (H1 & H2 & H3 & H4). unfold up_ok, c_mlc in *. rewrite Hcc, Hl. auto. Qed.

(* the writer's UPDATE BINARY list under a power-cut budget: file and log are those of the executed prefix *)
Lemma run_ups_cut p c : in_file c -> Forall (up_ok c) p ->
  exists c', run_ups c p =
      (if (c_budget c <? 0) || (Z.of_nat (length p) <=? c_budget c) then Ok tt else Err (TagCommandError 0), c') /\
    same_cc c c' /\ c_file c' = apply_ups (c_file c) (cut (c_budget c) p) /\
    c_log c' = rev (cut (c_budget c) p) ++ c_log c.
Proof.
  intros Hin Hok.
  destruct (run_budget card _ (list Z) _ (fun c u => t4_send c (UpBin (fst u) (snd u))) run_ups
              (fun c' => in_file c' /\ same_cc c c') up_ok c_budget (fun c => (c_file c, c_log c))
              (fun fl u => (apply_up (fst fl) u, u :: snd fl))) with (cs := p) (s := c) as (c' & Hr & (_ & Hs) & Ho).
  - reflexivity.
  - intros s [o d] r x s1 E. cbn [run_ups fst snd] in *. now rewrite E.
  - intros s [o d] r e s1 E. cbn [run_ups fst snd] in *. now rewrite E.
  - intros s u (Hi & Hs) Hb Hu. eexists _, _. split; [apply up_file_ok; assumption|].
    assert (S1 : same_cc s (with_file s (apply_up (c_file s) u) (if c_budget s <? 0 then c_budget s else c_budget s - 1) (u :: c_log s)))
      by (unfold same_cc; cbn; auto).
    split; [split; [exact Hi | exact (same_cc_trans _ _ _ Hs S1)]|]. do 2 (split; [reflexivity|]).
    intro u'. apply (up_ok_same _ _ _ S1). destruct Hu as (? & ? & ? & ?). apply len_splice; lia.
  - intros s u _. apply up_dead.
  - split; [exact Hin | apply same_cc_refl].
  - exact Hok.
  - exists c'. split; [exact Hr|]. split; [exact Hs|]. revert Ho. generalize (cut (c_budget c) p), (c_file c), (c_log c).
    induction l as [|u r IH]; intros f lg; cbn [fold_left fst snd rev app]; [intros [= -> ->]; auto|].
    intro E. destruct (IH _ _ E) as (-> & ->). now rewrite <- app_assoc.
Qed.

Lemma concat_firstn_prefix {A} (cs : list (list A)) k : exists rest, concat cs = concat (firstn k cs) ++ rest.
Proof. exists (concat (skipn k cs)). rewrite <- concat_app. now rewrite firstn_skipn. Qed.

Lemma ups_apply f mlc off payload k : 1 <= mlc -> 0 <= off -> off + len payload <= len f ->
  apply_ups f (firstn k (ups mlc off payload)) = splice f off (concat (firstn k (chunks mlc payload))).
Proof.
  intros Hm Ho Hl. unfold ups. rewrite firstn_with_offsets. apply apply_ups_offsets; [lia|].
  destruct (concat_firstn_prefix (chunks mlc payload) k) as (rest & E). rewrite chunks_concat in E by lia.
  rewrite E in Hl. rewrite len_app in Hl. pose proof (len_nonneg rest). lia.
Qed.
Lemma ups_apply_all f mlc off payload : 1 <= mlc -> 0 <= off -> off + len payload <= len f ->
  apply_ups f (ups mlc off payload) = splice f off payload.
Proof. intros. unfold ups. rewrite apply_ups_offsets; rewrite ?chunks_concat by lia; auto; lia. Qed.

(* every command of a chunked write lies inside [off, off + len payload) and carries 1 .. mlc bytes *)
Lemma ups_range mlc off payload o d : 1 <= mlc -> In (o, d) (ups mlc off payload) ->
  1 <= len d <= mlc /\ off <= o /\ o + len d <= off + len payload.
Proof.
  intros Hm Hin. apply with_offsets_range in Hin. rewrite chunks_concat in Hin by lia. destruct Hin as (Hd & R).
  pose proof (chunks_bound mlc payload Hm) as Hb. rewrite Forall_forall in Hb. auto.
Qed.
Lemma ups_ok c mlc off payload : 1 <= mlc <= 255 -> mlc <= c_mlc c -> 0 <= off -> off + len payload <= 65536 ->
  off + len payload <= len (c_file c) -> Forall (up_ok c) (ups mlc off payload).
Proof.
  intros Hm Hc Ho H64 Hl. apply Forall_forall. intros [o d] Hin. apply ups_range in Hin; [|lia].
  unfold up_ok. cbn [fst snd]. lia.
Qed.

Definition sess0 (c : card) (f : list Z) : card := mkCard (c_cc c) (c_fid c) f (c_v2 c) (c_v1 c) false 0 (-1) [].
Definition cc2 (ver e1 e0 l1 l0 f1 f2 s1 s0 rf wf : Z) : list Z :=
  [0; 15; ver; e1; e0; l1; l0; 4; 6; f1; f2; s1; s0; rf; wf].
Definition cc3 (ver e1 e0 l1 l0 f1 f2 s3 s2 s1 s0 rf wf : Z) : list Z :=
  [0; 17; ver; e1; e0; l1; l0; 6; 8; f1; f2; s3; s2; s1; s0; rf; wf].

(* v2 / v1: the card knows the application name D2760000850101 / ...00; a mapping version 1.0 card (only ...00)
   is selected by id with P2 = 00 *)
Lemma discover_cc2 ver e1 e0 l1 l0 f1 f2 s1 s0 rf wf file v2 v1 :
  ver = 16 \/ ver = 32 \/ ver = 48 -> v2 || v1 = true ->
  let c := mkCard (cc2 ver e1 e0 l1 l0 f1 f2 s1 s0 rf wf) [f1; f2] file v2 v1 false 0 (-1) [] in
  discover c = (Ok (Some (mkInfo (Z.min (e1 * 256 + e0) 256) (Z.min (l1 * 256 + l0) 255) (Z.min (be [s1; s0]) 65536 - 2)
                                 (rf =? 0) (wf =? 0) 2 [f1; f2] (if v2 then 12 else 0))), set_sess c true 1).
Proof. intros Hver Hv. destruct v2; [|destruct v1; [|discriminate]]; destruct Hver as [-> | [-> | ->]]; reflexivity. Qed.
Lemma discover_cc3 ver e1 e0 l1 l0 f1 f2 s3 s2 s1 s0 rf wf file v1 :
  ver = 16 \/ ver = 32 \/ ver = 48 ->
  let c := mkCard (cc3 ver e1 e0 l1 l0 f1 f2 s3 s2 s1 s0 rf wf) [f1; f2] file true v1 false 0 (-1) [] in
  discover c = (Ok (Some (mkInfo (Z.min (e1 * 256 + e0) 256) (Z.min (l1 * 256 + l0) 255) (Z.min (be [s3; s2; s1; s0]) 65536 - 4)
                                 (rf =? 0) (wf =? 0) 4 [f1; f2] 12)), set_sess c true 1).
Proof. intros [-> | [-> | ->]]; reflexivity. Qed.

Record t4_wf (c : card) (i : ccinfo) : Prop := mk_t4wf {
  w_disc : forall f, discover (sess0 c f) = (Ok (Some i), set_sess (sess0 c f) true 1);
  w_fid : c_fid c = i_fid i /\ len (i_fid i) = 2 /\ list_eqb (i_fid i) cc_fid = false;
  w_p2 : 0 <= i_p2 i < 256;
  w_ns : i_nlen i = 2 \/ i_nlen i = 4;
  w_mle : i_nlen i <= i_mle i <= 256 /\ i_mle i <= c_mle c;      (* MLe covers the NLEN field *)
  w_mlc : 1 <= i_mlc i <= 255 /\ i_mlc i <= c_mlc c;
  w_cap : 0 <= i_cap i /\ i_nlen i + i_cap i <= len (c_file c) /\ i_nlen i + i_cap i <= 65536;
  w_rw : i_rd i = true /\ i_wr i = true
}.

Lemma select_ndef_file c i f b : t4_wf c i -> b <> 0 ->
  let s := mkCard (c_cc c) (c_fid c) f (c_v2 c) (c_v1 c) true 1 b [] in
  select_fid s (i_p2 i) (i_fid i) = (Ok true, mkCard (c_cc c) (c_fid c) f (c_v2 c) (c_v1 c) true 2 b []).
Proof.
  intros W Hb s. destruct (w_fid c i W) as (F1 & F2 & F3). pose proof (w_p2 c i W).
  unfold select_fid, t4_send, apdu_of_op, short_apdu.
  replace (negb (len (i_fid i) =? 0) && (len (i_fid i) >? 255)) with false by lia.
  cbn [Z.eqb negb andb]. subst s. cbn [c_budget]. replace (b =? 0) with false by lia.
  unfold card_step. cbn [c_app c_fid andb]. rewrite F3. rewrite F1, list_eqb_refl. reflexivity.
Qed.

Lemma be2 a b : be [a; b] = a * 256 + b. Proof. reflexivity. Qed.
Lemma nlen_bytes_ok ns n : ns = 2 \/ ns = 4 -> 0 <= n < 65536 ->
  exists nl, nlen_bytes ns n = Ok nl /\ len nl = ns /\ be nl = n.
Proof.
  intros [-> | ->] Hn; unfold nlen_bytes.
  all: destruct (_ || _) eqn:E; [lia|].
  all: cbn [Z.eqb Pos.eqb]; eexists; do 2 (split; [reflexivity|]).
  all: cbv [be fold_left]; lia.
Qed.

Lemma rd_file_ok c i nlen : in_file c -> c_budget c <> 0 -> 1 <= i_mle i <= 256 -> i_mle i <= c_mle c ->
  0 <= i_nlen i -> i_nlen i + nlen <= len (c_file c) -> i_nlen i + nlen <= 65536 ->
  forall fuel acc, acc = slice (c_file c) (i_nlen i) (i_nlen i + len acc) -> len acc <= nlen ->
    (Z.to_nat (nlen - len acc) <= fuel)%nat ->
    rd_file fuel c i nlen acc = (Ok (slice (c_file c) (i_nlen i) (i_nlen i + nlen)), c).
Proof.
  intros Hin Hb Hm Hc Hns Hl H64. induction fuel as [|f IH]; intros acc Hacc Hle Hf; pose proof (len_nonneg acc) as Ha.
  - cbn [rd_file]. replace (len acc <? nlen) with false by lia. replace nlen with (len acc) by lia. now rewrite <- Hacc.
  - cbn [rd_file]. destruct (len acc <? nlen) eqn:E.
    + set (m := Z.min (i_mle i) (nlen - len acc)).
      rewrite read_binary_file by (auto; lia). fold m. unfold lift.
      assert (Hd : len (slice (c_file c) (i_nlen i + len acc) (i_nlen i + len acc + m)) = m) by (rewrite len_slice; lia).
      rewrite Hd. replace (m =? 0) with false by lia.
      apply IH.
      * rewrite len_app, Hd. rewrite Hacc at 1. rewrite slice_app_adj by lia. f_equal. lia.
      * rewrite len_app, Hd. lia.
      * rewrite len_app, Hd. lia.
    + replace nlen with (len acc) by lia. now rewrite <- Hacc.
Qed.

Definition file_sess (c : card) (f : list Z) : card := mkCard (c_cc c) (c_fid c) f (c_v2 c) (c_v1 c) true 2 (-1) [].

Lemma t4_read_ok c i f n : t4_wf c i -> 0 <= n <= i_cap i -> i_nlen i + n <= len f -> i_nlen i + n <= 65536 ->
  be (take (i_nlen i) f) = n ->
  t4_read_ndef (sess0 c f) = (Ok (Ndef true true (i_cap i) (slice f (i_nlen i) (i_nlen i + n)), Some i), file_sess c f).
Proof.
  intros W Hn Hl H64 Hbe. unfold t4_read_ndef.
  rewrite (w_disc c i W). unfold read_with, set_sess, sess0. cbn [c_cc c_fid c_file c_v2 c_v1 c_budget c_log].
  rewrite (select_ndef_file c i f (-1) W) by lia.
  destruct (w_mle c i W) as (M1 & M2). destruct (w_rw c i W) as (-> & ->).
  assert (Hns : 2 <= i_nlen i <= 4) by (destruct (w_ns c i W); lia).
  fold (file_sess c f).
  assert (Hin : in_file (file_sess c f)) by (split; reflexivity).
  assert (Hmle : c_mle (file_sess c f) = c_mle c) by reflexivity.
  rewrite read_binary_file; [| exact Hin | cbn; lia | lia | cbn [c_file file_sess]; lia | lia | rewrite Hmle; lia ].
  unfold lift. cbn [c_file file_sess]. rewrite Z.min_r by lia. rewrite Z.add_0_l, slice_0.
  rewrite len_take by lia. replace (negb (i_nlen i =? i_nlen i)) with false by lia.
  rewrite Hbe. replace (n >? i_cap i) with false by lia.
  rewrite (rd_file_ok (file_sess c f) i n); cbn [c_file file_sess c_budget]; auto; try lia;
    try (change (len (@nil Z)) with 0; lia).
  change (len (@nil Z)) with 0. rewrite Z.add_0_r, slice_nil by lia. reflexivity.
Qed.
Lemma zeros_len n : 0 <= n -> len (zeros n) = n.
Proof. intro. unfold zeros, len. rewrite repeat_length. lia. Qed.

Definition in_range (B : Z) (u : Z * list Z) : Prop := 0 <= fst u /\ fst u + len (snd u) <= B.
Lemma ups_in_range B mlc off payload : 1 <= mlc -> 0 <= off -> off + len payload <= B -> Forall (in_range B) (ups mlc off payload).
Proof.
  intros Hm Ho Hp. apply Forall_forall. intros [o x] Hx. apply ups_range in Hx; [|lia]. unfold in_range. cbn [fst snd]. lia.
Qed.

(* the file a complete write leaves: NLEN, message, the rest as it was *)
Definition final_file (nl d F : list Z) : list Z := nl ++ d ++ drop (len nl + len d) F.

Lemma t4_plan_ok c i d nl : in_file c -> 1 <= i_mlc i <= 255 -> i_mlc i <= c_mlc c -> len nl = i_nlen i -> 0 <= i_nlen i ->
  i_nlen i + len d <= len (c_file c) -> i_nlen i + len d <= 65536 ->
  Forall (up_ok c) (t4_plan i d nl) /\ Forall (in_range (i_nlen i + len d)) (t4_plan i d nl) /\
  apply_ups (c_file c) (t4_plan i d nl) = final_file nl d (c_file c).
Proof.
  intros Hin Hm Hc Hnl Hns Hl H64. pose proof (len_nonneg d) as Hd. unfold t4_plan, final_file.
  destruct (i_nlen i + len d <=? i_mlc i) eqn:E.
  - repeat split.
    + apply ups_ok; rewrite ?len_app; lia.
    + apply ups_in_range; rewrite ?len_app; lia.
    + rewrite ups_apply_all, splice0, len_app, <- app_assoc by (rewrite ?len_app; lia). reflexivity.
  - assert (Hz : len (zeros (i_nlen i)) = i_nlen i) by (apply zeros_len; lia).
    repeat split.
    + apply Forall_app. split; apply ups_ok; rewrite ?len_app; lia.
    + apply Forall_app. split; apply ups_in_range; rewrite ?len_app; lia.
    + (* the message under a zero NLEN, over which the real NLEN is written *)
      rewrite apply_ups_app, (ups_apply_all (c_file c)), ups_apply_all by (rewrite ?len_splice; rewrite ?len_app; lia).
      apply splice_over; lia.
Qed.

Lemma final_file_facts nl d F : len nl + len d <= len F ->
  take (len nl) (final_file nl d F) = nl /\ slice (final_file nl d F) (len nl) (len nl + len d) = d /\
  len (final_file nl d F) = len F.
Proof.
  intro H. pose proof (len_nonneg nl). pose proof (len_nonneg d). unfold final_file.
  split; [apply take_len_app|]. split.
  - rewrite slice_take_drop, drop_len_app by lia. replace (len nl + len d - len nl) with (len d) by lia. apply take_len_app.
  - rewrite !len_app, len_drop; lia.
Qed.

(* t4_fresh opens a session of its own: only the card's contents count *)
Lemma t4_fresh_same c i c' n : t4_wf c i -> same_cc c c' -> 0 <= n <= i_cap i -> i_nlen i + n <= len (c_file c') -> i_nlen i + n <= 65536 ->
  be (take (i_nlen i) (c_file c')) = n ->
  t4_fresh c' = Ok (Ndef true true (i_cap i) (slice (c_file c') (i_nlen i) (i_nlen i + n))).
Proof.
  intros W (S1 & S2 & S3 & S4) Hn Hl H64 Hbe. unfold t4_fresh, new_session. rewrite S1, S2, S3, S4.
  fold (sess0 c (c_file c')). now rewrite (t4_read_ok c i (c_file c') n W Hn Hl H64 Hbe).
Qed.

(* cw: the session of the writer after it has read tag.ndef (NDEF file selected) *)
Definition writer_sess (c cw : card) : Prop := same_cc c cw /\ in_file cw /\ c_file cw = c_file c.

(* whatever the budget k of the writer's session: Ok or the error of a lost card, and the card holds the effect of the
   executed prefix of the plan *)
Lemma t4_write_run c i cw d : t4_wf c i -> writer_sess c cw -> len d <= i_cap i ->
  exists nl, nlen_bytes (i_nlen i) (len d) = Ok nl /\ len nl = i_nlen i /\ be nl = len d /\
  Forall (in_range (i_nlen i + len d)) (t4_plan i d nl) /\
  apply_ups (c_file c) (t4_plan i d nl) = final_file nl d (c_file c) /\
  exists c', t4_write_ndef cw i d =
      (if (c_budget cw <? 0) || (Z.of_nat (length (t4_plan i d nl)) <=? c_budget cw) then Ok tt else Err (TagCommandError 0), c') /\
    same_cc c c' /\ c_file c' = apply_ups (c_file c) (cut (c_budget cw) (t4_plan i d nl)) /\
    c_log c' = rev (cut (c_budget cw) (t4_plan i d nl)) ++ c_log cw.
Proof.
  intros W (Hs & Hin & Hf) Hd. pose proof (len_nonneg d) as H0.
  destruct (w_cap c i W) as (C1 & C2 & C3). destruct (w_mlc c i W) as (L1 & L2).
  assert (Hns : 2 <= i_nlen i <= 4) by (destruct (w_ns c i W); lia).
  destruct (nlen_bytes_ok (i_nlen i) (len d) (w_ns c i W)) as (nl & Hnl & Hlen & Hbe); [lia|].
  exists nl. do 3 (split; [assumption|]).
  assert (Hmlc : c_mlc cw = c_mlc c) by (unfold c_mlc; destruct Hs as (-> & _); reflexivity).
  destruct (t4_plan_ok cw i d nl Hin) as (P1 & P2 & P3); try (rewrite ?Hf, ?Hmlc; lia).
  rewrite Hf in P3. do 2 (split; [assumption|]).
  destruct (run_ups_cut (t4_plan i d nl) cw Hin P1) as (c' & Hrun & Hs' & Hfile & Hlog).
  exists c'. unfold t4_write_ndef. rewrite Hnl, <- Hf.
  split; [exact Hrun|]. split; [exact (same_cc_trans _ _ _ Hs Hs') | auto].
Qed.

Lemma set_octets_fits r cap old i cw d : len d <= cap ->
  t4_set_octets (Ndef r true cap old) (Some i) cw d = t4_write_ndef cw i d.
Proof. intro. unfold t4_set_octets. cbn [negb]. now replace (len d >? cap) with false by lia. Qed.

(* a card that holds the whole plan's effect is read as the new message *)
Lemma fresh_after_write c i c' nl d : t4_wf c i -> same_cc c c' -> len d <= i_cap i -> len nl = i_nlen i -> be nl = len d ->
  c_file c' = final_file nl d (c_file c) -> t4_fresh c' = Ok (Ndef true true (i_cap i) d).
Proof.
  intros W Hs Hd Hlen Hbe Hm. pose proof (len_nonneg d). destruct (w_cap c i W) as (C1 & C2 & C3).
  destruct (final_file_facts nl d (c_file c)) as (F1 & F2 & F3); [lia|]. rewrite Hlen in *.
  rewrite (t4_fresh_same c i c' (len d) W Hs); rewrite ?Hm, ?F1, ?F2, ?F3; auto; lia.
Qed.

Theorem t4_write_read_gen c i cw d r old : t4_wf c i -> writer_sess c cw -> c_budget cw < 0 -> len d <= i_cap i ->
  exists c', t4_set_octets (Ndef r true (i_cap i) old) (Some i) cw d = (Ok tt, c') /\ same_cc c c' /\
             t4_fresh c' = Ok (Ndef true true (i_cap i) d).
Proof.
  intros W Hw Hb Hd.
  destruct (t4_write_run c i cw d W Hw Hd) as (nl & _ & Hlen & Hbe & _ & P3 & c' & Hrun & Hs & Hm & _).
  replace (c_budget cw <? 0) with true in Hrun by lia. rewrite cut_all, P3 in Hm by lia.
  exists c'. rewrite set_octets_fits by lia. eauto using fresh_after_write.
Qed.

(* the writer's own initial read *)
Definition nlen_ok (c : card) (i : ccinfo) : Prop :=
  0 <= be (take (i_nlen i) (c_file c)) <= i_cap i.

Lemma t4_initial_read c i : t4_wf c i -> nlen_ok c i ->
  exists old, t4_read_ndef (new_session c) = (Ok (Ndef true true (i_cap i) old, Some i), file_sess c (c_file c)) /\
              writer_sess c (file_sess c (c_file c)).
Proof.
  intros W Hn. destruct (w_cap c i W) as (C1 & C2 & C3).
  exists (slice (c_file c) (i_nlen i) (i_nlen i + be (take (i_nlen i) (c_file c)))). split.
  - change (new_session c) with (sess0 c (c_file c)).
    apply (t4_read_ok c i (c_file c) (be (take (i_nlen i) (c_file c))) W); try reflexivity; unfold nlen_ok in Hn; lia.
  - split; [unfold same_cc, file_sess; cbn; auto | split; [split; reflexivity | reflexivity]].
Qed.

Theorem t4_write_read_sess c i d : t4_wf c i -> nlen_ok c i -> len d <= i_cap i ->
  exists old cw c', t4_read_ndef (new_session c) = (Ok (Ndef true true (i_cap i) old, Some i), cw) /\
    t4_set_octets (Ndef true true (i_cap i) old) (Some i) cw d = (Ok tt, c') /\ same_cc c c' /\
    t4_fresh c' = Ok (Ndef true true (i_cap i) d).
Proof.
  intros W Hn Hd. destruct (t4_initial_read c i W Hn) as (old & Hr & Hw).
  destruct (t4_write_read_gen c i (file_sess c (c_file c)) d true old W Hw) as (c' & H1 & H2 & H3); [cbn; lia | exact Hd |].
  exists old, (file_sess c (c_file c)), c'. auto.
Qed.

Theorem t4_capacity_sound c i : t4_wf c i -> i_nlen i + i_cap i <= len (c_file c).
Proof. intro W. apply (w_cap c i W). Qed.

Theorem t4_oversize_rejected r cap old oi c d : len d > cap ->
  t4_set_octets (Ndef r true cap old) (Some oi) c d = (Err ValueError, c).
Proof. intro H. unfold t4_set_octets. cbn [negb]. now replace (len d >? cap) with true by lia. Qed.

Lemma len_pos_nonnil {A} (l : list A) : 1 <= len l -> l <> [].
Proof. intros H E. subst. cbn in H. lia. Qed.
(* a non-empty prefix of the chunks of a ++ d, [a] no longer than a chunk, begins with [a] *)
Lemma chunks_prefix_head {A} n (a d : list A) k : 1 <= len a <= n -> (0 < k)%nat ->
  exists rest, concat (firstn k (chunks n (a ++ d))) = a ++ rest /\ len rest <= len d.
Proof.
  intros Ha Hk. pose proof (len_nonneg d).
  destruct (concat_firstn_prefix (chunks n (a ++ d)) k) as (tl & Htl). rewrite chunks_concat in Htl by lia.
  rewrite chunks_cons in * by (try apply len_pos_nonnil; rewrite ?len_app; lia).
  replace k with (S (Nat.pred k)) in * by lia. cbn [firstn concat] in *.
  replace (take n (a ++ d)) with (a ++ take (n - len a) d) in * by (rewrite <- take_app_plus by lia; f_equal; lia).
  rewrite <- app_assoc in *. eexists. split; [reflexivity|].
  apply (f_equal len) in Htl. rewrite !len_app in *. pose proof (len_nonneg tl). lia.
Qed.
Lemma be_zeros ns : ns = 2 \/ ns = 4 -> be (zeros ns) = 0.
Proof. intros [-> | ->]; reflexivity. Qed.

(* A proper non-empty prefix exists only of the two-phase plan (message under a zero NLEN, then the NLEN), and the NLEN
   field fits one UPDATE BINARY: the prefix has written the zero NLEN and some of the message, nothing else. *)
Lemma t4_plan_mid f i d nl k : len nl = i_nlen i -> 1 <= i_nlen i <= i_mlc i -> i_nlen i + len d <= len f ->
  (0 < k < length (t4_plan i d nl))%nat ->
  let f' := apply_ups f (firstn k (t4_plan i d nl)) in len f' = len f /\ take (i_nlen i) f' = zeros (i_nlen i).
Proof.
  intros Hnl Hns Hl Hk. pose proof (len_nonneg d). unfold t4_plan in *.
  assert (Hz : len (zeros (i_nlen i)) = i_nlen i) by (apply zeros_len; lia).
  assert (H1 : forall a : list Z, 1 <= len a <= i_mlc i -> ups (i_mlc i) 0 a = [(0, a)]).
  { intros a Ha. unfold ups. rewrite chunks_single; [reflexivity | apply len_pos_nonnil; lia | lia]. }
  destruct (i_nlen i + len d <=? i_mlc i) eqn:E.
  - rewrite H1 in Hk by (rewrite len_app; lia). cbn in Hk. lia.
  - rewrite (H1 nl), app_length in Hk by lia. cbn [length] in Hk.
    rewrite firstn_app. replace (k - length (ups (i_mlc i) 0 (zeros (i_nlen i) ++ d)))%nat with 0%nat by lia.
    cbn [firstn]. rewrite app_nil_r, ups_apply by (rewrite ?len_app; lia).
    destruct (chunks_prefix_head (i_mlc i) (zeros (i_nlen i)) d k) as (rest & -> & Hrest); [lia | lia |].
    pose proof (len_nonneg rest). split; [apply len_splice; rewrite ?len_app; lia|].
    rewrite splice0, <- app_assoc. rewrite <- Hz at 1. apply take_len_app.
Qed.

Theorem t4_cut_safe_gen c i cw d old : t4_wf c i -> writer_sess c cw -> len d <= i_cap i ->
  i_nlen i <= i_mlc i ->                                  (* the NLEN field fits one UPDATE BINARY *)
  0 <= c_budget cw ->
  exists nl r c', nlen_bytes (i_nlen i) (len d) = Ok nl /\
    t4_set_octets (Ndef true true (i_cap i) old) (Some i) cw d = (r, c') /\ same_cc c c' /\
    let k := c_budget cw in let n := Z.of_nat (length (t4_plan i d nl)) in
    (k = 0 -> c_file c' = c_file c) /\
    (0 < k < n -> t4_fresh c' = Ok (Ndef true true (i_cap i) [])) /\
    (n <= k -> t4_fresh c' = Ok (Ndef true true (i_cap i) d)).
Proof.
  intros W Hw Hd Hmlc Hk. pose proof (len_nonneg d) as H0.
  destruct (w_cap c i W) as (C1 & C2 & C3).
  assert (Hns : 2 <= i_nlen i <= 4) by (destruct (w_ns c i W); lia).
  destruct (t4_write_run c i cw d W Hw Hd) as (nl & Hnl & Hlen & Hbe & _ & P3 & c' & Hrun & Hs & Hm & _).
  eexists nl, _, c'. rewrite set_octets_fits by lia. split; [exact Hnl|]. split; [exact Hrun|]. split; [exact Hs|]. cbv zeta.
  split; [intro E; rewrite E in Hm; exact Hm|]. split; intro Hkn.
  - unfold cut in Hm. replace (c_budget cw <? 0) with false in Hm by lia.
    destruct (t4_plan_mid (c_file c) i d nl (Z.to_nat (c_budget cw))) as (Hlenf & Htk); [lia..|]. rewrite <- Hm in *.
    rewrite (t4_fresh_same c i c' 0 W Hs); try lia.
    + now rewrite Z.add_0_r, slice_nil by lia.
    + rewrite Htk. apply be_zeros, (w_ns c i W).
  - rewrite cut_all, P3 in Hm by lia. eauto using fresh_after_write.
Qed.

Lemma run_ups_frame B p c : in_file c -> Forall (up_ok c) p -> Forall (in_range B) p -> B <= len (c_file c) ->
  exists r c', run_ups c p = (r, c') /\ same_cc c c' /\
    len (c_file c') = len (c_file c) /\ drop B (c_file c') = drop B (c_file c) /\
    exists j, c_log c' = rev (firstn j p) ++ c_log c.
Proof.
  intros Hin Hok Hr HB. destruct (run_ups_cut p c Hin Hok) as (c' & Hrun & Hs & Hf & Hl).
  destruct (cut_firstn (c_budget c) p) as (j & Hj). rewrite Hj in *.
  destruct (apply_ups_frame 0 B ltac:(lia) (firstn j p) (c_file c) HB) as (L & _ & D); [apply Forall_firstn; exact Hr|].
  rewrite <- Hf in *. eauto 10.
Qed.

Theorem t4_write_frame_gen c i cw d old : t4_wf c i -> writer_sess c cw -> len d <= i_cap i ->
  exists nl r c', nlen_bytes (i_nlen i) (len d) = Ok nl /\
    t4_set_octets (Ndef true true (i_cap i) old) (Some i) cw d = (r, c') /\
    (* every UPDATE BINARY lies inside [0, nlen_size + len d) of the NDEF file, which is inside the declared file *)
    Forall (in_range (i_nlen i + len d)) (t4_plan i d nl) /\ i_nlen i + len d <= i_nlen i + i_cap i <= len (c_file c) /\
    (exists j, c_log c' = rev (firstn j (t4_plan i d nl)) ++ c_log cw) /\
    c_cc c' = c_cc c /\ len (c_file c') = len (c_file c) /\
    drop (i_nlen i + len d) (c_file c') = drop (i_nlen i + len d) (c_file c).
Proof.
  intros W Hw Hd. pose proof (len_nonneg d) as H0. destruct (w_cap c i W) as (C1 & C2 & C3).
  destruct (t4_write_run c i cw d W Hw Hd) as (nl & Hnl & _ & _ & P2 & _ & c' & Hrun & Hs & Hm & Hl).
  destruct (cut_firstn (c_budget cw) (t4_plan i d nl)) as (j & Hj). rewrite Hj in *.
  destruct (apply_ups_frame 0 (i_nlen i + len d) ltac:(lia) (firstn j (t4_plan i d nl)) (c_file c)) as (L & _ & D);
    [lia | apply Forall_firstn; exact P2 |].
  eexists nl, _, c'. rewrite set_octets_fits, Hm by lia. repeat split; eauto; try lia. apply Hs.
Qed.

(* format: wipe touches only the NLEN field and bytes nlen_size .. capacity-1 of the NDEF file *)
Theorem t4_format_frame c i cw w r0 old : t4_wf c i -> writer_sess c cw ->
  Forall (in_range (i_nlen i + i_cap i)) (t4_wipe_plan i w) /\
  t4_format (Ndef r0 true (i_cap i) old) (Some i) cw None = (Ok true, cw) /\
  exists r c', t4_format (Ndef r0 true (i_cap i) old) (Some i) cw (Some w) = (r, c') /\
    (exists j, c_log c' = rev (firstn j (t4_wipe_plan i w)) ++ c_log cw) /\
    c_cc c' = c_cc c /\ len (c_file c') = len (c_file c) /\
    drop (i_nlen i + i_cap i) (c_file c') = drop (i_nlen i + i_cap i) (c_file c).
Proof.
  intros W (Hs & Hin & Hf). destruct (w_cap c i W) as (C1 & C2 & C3). destruct (w_mlc c i W) as (L1 & L2).
  assert (Hns : 2 <= i_nlen i <= 4) by (destruct (w_ns c i W); lia).
  assert (Hmlc' : c_mlc cw = c_mlc c) by (unfold c_mlc; destruct Hs as (-> & _); reflexivity).
  assert (Hz : len (zeros (i_nlen i)) = i_nlen i) by (apply zeros_len; lia).
  set (pay := drop (i_nlen i) (repeat (w mod 256) (Z.to_nat (i_cap i)))).
  assert (Hpay : i_nlen i + len pay <= i_nlen i + i_cap i).
  { subst pay. rewrite len_drop_max by lia. unfold len. rewrite repeat_length. lia. }
  assert (P2 : Forall (in_range (i_nlen i + i_cap i)) (t4_wipe_plan i w)).
  { unfold t4_wipe_plan. fold pay. apply Forall_app. split; apply ups_in_range; lia. }
  assert (P1 : Forall (up_ok cw) (t4_wipe_plan i w)).
  { unfold t4_wipe_plan. fold pay. apply Forall_app. split; apply ups_ok; rewrite ?Hf, ?Hmlc'; lia. }
  split; [exact P2|]. split; [reflexivity|].
  destruct (run_ups_frame (i_nlen i + i_cap i) (t4_wipe_plan i w) cw Hin P1 P2) as (r & c' & R & Hs' & A & D & Hl); [rewrite Hf; lia|].
  unfold t4_format. rewrite R.
  assert (Hcc : c_cc c' = c_cc c) by (destruct Hs' as (-> & _); apply Hs).
  rewrite <- Hf. destruct r; eexists; eexists; (split; [reflexivity|]); auto.
Qed.

Lemma t4_wf_cc2 ver e1 e0 l1 l0 f1 f2 s1 s0 file v2 v1 app sel b lg :
  ver = 16 \/ ver = 32 \/ ver = 48 -> v2 || v1 = true -> list_eqb [f1; f2] cc_fid = false ->
  let mle := e1 * 256 + e0 in let mlc := l1 * 256 + l0 in let mfs := be [s1; s0] in
  2 <= mle -> 1 <= mlc -> 2 <= mfs -> Z.min mfs 65536 <= len file ->
  t4_wf (mkCard (cc2 ver e1 e0 l1 l0 f1 f2 s1 s0 0 0) [f1; f2] file v2 v1 app sel b lg)
        (mkInfo (Z.min mle 256) (Z.min mlc 255) (Z.min mfs 65536 - 2) true true 2 [f1; f2] (if v2 then 12 else 0)).
Proof.
  intros Hv Hv2 Hf mle mlc mfs H1 H2 H3 H4. constructor; cbn [i_mle i_mlc i_cap i_rd i_wr i_nlen i_fid i_p2 c_fid c_file].
  - intro f. apply (discover_cc2 ver e1 e0 l1 l0 f1 f2 s1 s0 0 0 f v2 v1 Hv Hv2).
  - repeat split; auto.
  - destruct v2; lia.
  - left; reflexivity.
  - change (c_mle _) with mle. lia.
  - change (c_mlc _) with mlc. lia.
  - lia.
  - auto.
Qed.

Lemma t4_wf_cc3 ver e1 e0 l1 l0 f1 f2 s3 s2 s1 s0 file v1 app sel b lg :
  ver = 16 \/ ver = 32 \/ ver = 48 -> list_eqb [f1; f2] cc_fid = false ->
  let mle := e1 * 256 + e0 in let mlc := l1 * 256 + l0 in let mfs := be [s3; s2; s1; s0] in
  4 <= mle -> 1 <= mlc -> 4 <= mfs -> Z.min mfs 65536 <= len file ->
  t4_wf (mkCard (cc3 ver e1 e0 l1 l0 f1 f2 s3 s2 s1 s0 0 0) [f1; f2] file true v1 app sel b lg)
        (mkInfo (Z.min mle 256) (Z.min mlc 255) (Z.min mfs 65536 - 4) true true 4 [f1; f2] 12).
Proof.
  intros Hv Hf mle mlc mfs H1 H2 H3 H4. constructor; cbn [i_mle i_mlc i_cap i_rd i_wr i_nlen i_fid i_p2 c_fid c_file].
  - intro f. apply (discover_cc3 ver e1 e0 l1 l0 f1 f2 s3 s2 s1 s0 0 0 f v1 Hv).
  - repeat split; auto.
  - lia.
  - right; reflexivity.
  - change (c_mle _) with mle. lia.
  - change (c_mlc _) with mlc. lia.
  - lia.
  - auto.
Qed.
