(* List lemmas shared by the block-tag developments (Type 3 / Type 4):
   Z-indexed take/drop/slice/splice, consecutive writes = one write of the concatenation,
   chunking (chunks n l, concat (chunks n l) = l, every chunk <= n and non-empty). *)
From Coq Require Import ZArith List Bool Lia ZifyBool.
From NV Require Import Base.Result Base.Bytes Base.PyPrims.
Import ListNotations.
Open Scope Z_scope.
Ltac Zify.zify_post_hook ::= Z.to_euclidean_division_equations.

Section Lists.
Context {A : Type}.
Implicit Types l m d : list A.

Lemma firstn_app_exact (a b : list A) (n : nat) : length a = n -> firstn n (a ++ b) = a.
Proof. intros <-. rewrite <- (Nat2Z.id (length a)). exact (take_len_app a b). Qed.
Lemma skipn_app_exact (a b : list A) (n : nat) : length a = n -> skipn n (a ++ b) = b.
Proof. intros <-. rewrite <- (Nat2Z.id (length a)). exact (drop_len_app a b). Qed.

Lemma take_0 l : take 0 l = []. Proof. reflexivity. Qed.
Lemma drop_0 l : drop 0 l = l. Proof. reflexivity. Qed.
Lemma drop_app_plus (a b : list A) k : 0 <= k -> drop (len a + k) (a ++ b) = drop k b.
Proof. intro. pose proof (len_nonneg a). now rewrite <- drop_drop, drop_len_app by lia. Qed.
Lemma take_app_plus (a b : list A) k : 0 <= k -> take (len a + k) (a ++ b) = a ++ take k b.
Proof. intro. unfold take, len. rewrite Z2Nat.inj_add, Nat2Z.id by lia. apply firstn_app_2. Qed.
Lemma take_take a b l : 0 <= a <= b -> take a (take b l) = take a l.
Proof. intros. unfold take. rewrite firstn_firstn. f_equal. lia. Qed.
Lemma take_app_le (a b : list A) k : 0 <= k <= len a -> take k (a ++ b) = take k a.
Proof. intro. unfold take, len in *. rewrite firstn_app. replace (Z.to_nat k - length a)%nat with 0%nat by lia.
  cbn. apply app_nil_r. Qed.
Lemma slice_0 l b : slice l 0 b = take b l.
Proof. rewrite slice_take_drop by lia. now rewrite Z.sub_0_r. Qed.
Lemma firstn_add (n p : nat) : forall k : list A, firstn (n + p) k = firstn n k ++ firstn p (skipn n k).
Proof. induction n as [|n IH]; intro k; [reflexivity|]. destruct k; cbn; [now rewrite firstn_nil|]. f_equal. apply IH. Qed.
Lemma slice_app_adj l a b c : 0 <= a <= b -> b <= c -> slice l a b ++ slice l b c = slice l a c.
Proof. intros. rewrite !slice_take_drop by lia.
  replace (drop b l) with (drop (b - a) (drop a l)) by (rewrite drop_drop by lia; f_equal; lia).
  replace (c - a) with ((b - a) + (c - b)) by lia.
  unfold take, drop. rewrite Z2Nat.inj_add by lia. symmetry. apply firstn_add. Qed.
Lemma slice_nil l a b : b <= a -> slice l a b = [].
Proof. intro. unfold slice. replace (Z.max 0 (b - Z.max 0 a)) with 0 by lia. reflexivity. Qed.

Definition splice m (off : Z) d : list A := take off m ++ d ++ drop (off + len d) m.

Lemma len_splice m off d : 0 <= off -> off + len d <= len m -> len (splice m off d) = len m.
Proof. intros. pose proof (len_nonneg d). unfold splice. rewrite !len_app, len_take, len_drop by lia. lia. Qed.
Lemma splice_nil m off : splice m off [] = m.
Proof. unfold splice. cbn [app]. change (len (@nil A)) with 0. rewrite Z.add_0_r. apply take_drop. Qed.
Lemma splice_adj m off d1 d2 : 0 <= off -> off + len d1 + len d2 <= len m ->
  splice (splice m off d1) (off + len d1) d2 = splice m off (d1 ++ d2).
Proof.
  intros H0 H1. pose proof (len_nonneg d1). pose proof (len_nonneg d2).
  assert (Ht : len (take off m) = off) by (apply len_take; lia).
  assert (Hl : len (take off m ++ d1) = off + len d1) by (rewrite len_app; lia).
  unfold splice at 1 2.
  assert (E1 : take (off + len d1) (take off m ++ d1 ++ drop (off + len d1) m) = take off m ++ d1).
  { rewrite app_assoc. set (Y := drop (off + len d1) m). rewrite <- Hl. apply take_len_app. }
  assert (E2 : drop (off + len d1 + len d2) (take off m ++ d1 ++ drop (off + len d1) m) = drop (off + len d1 + len d2) m).
  { rewrite app_assoc. set (Y := drop (off + len d1) m).
    replace (off + len d1 + len d2) with (len (take off m ++ d1) + len d2) by lia.
    rewrite drop_app_plus by lia. subst Y. rewrite drop_drop by lia. f_equal. lia. }
  rewrite E1, E2. unfold splice. rewrite len_app, <- !app_assoc. do 3 f_equal. f_equal. lia.
Qed.
Lemma take_splice_lo m off d n : 0 <= n <= off -> off <= len m -> take n (splice m off d) = take n m.
Proof. intros. unfold splice. rewrite take_app_le by (rewrite len_take; lia). apply take_take; lia. Qed.
Lemma drop_splice_hi m off d n : 0 <= off -> off + len d <= n -> off + len d <= len m ->
  drop n (splice m off d) = drop n m.
Proof. intros. pose proof (len_nonneg d). unfold splice.
  assert (Ht : len (take off m) = off) by (apply len_take; lia).
  rewrite app_assoc.
  replace n with (len (take off m ++ d) + (n - off - len d)) at 1 by (rewrite len_app; lia).
  rewrite drop_app_plus by lia. rewrite drop_drop by lia. f_equal. lia. Qed.
Lemma slice_splice_same m off d : 0 <= off -> off + len d <= len m ->
  slice (splice m off d) off (off + len d) = d.
Proof. intros. pose proof (len_nonneg d). rewrite slice_take_drop by lia. unfold splice.
  assert (Ht : len (take off m) = off) by (apply len_take; lia).
  set (X := take off m) in *. set (R := drop (off + len d) m).
  assert (E : drop off (X ++ d ++ R) = d ++ R) by (rewrite <- Ht; apply drop_len_app).
  rewrite E. replace (off + len d - off) with (len d) by lia. apply take_len_app. Qed.
Lemma slice_drop_take l a b : 0 <= a <= b -> slice l a b = drop a (take b l).
Proof. intros. rewrite slice_take_drop by lia. unfold take, drop. rewrite firstn_skipn_comm. do 2 f_equal. lia. Qed.
Lemma slice_splice_lo m off d a b : 0 <= a <= b -> b <= off -> off <= len m ->
  slice (splice m off d) a b = slice m a b.
Proof. intros. rewrite !slice_drop_take by lia. now rewrite take_splice_lo by lia. Qed.

Fixpoint chunks_aux (fuel : nat) (n : Z) l : list (list A) :=
  match fuel with O => [] | S f =>
    match l with [] => [] | _ => take n l :: chunks_aux f n (drop n l) end end.
Definition chunks (n : Z) l := chunks_aux (length l) n l.

Lemma chunks_aux_concat n : 1 <= n -> forall fuel l, (length l <= fuel)%nat -> concat (chunks_aux fuel n l) = l.
Proof. intro Hn. induction fuel as [|f IH]; intros l Hl.
  - destruct l; [reflexivity | cbn in Hl; lia].
  - destruct l as [|x l']; [reflexivity|]. cbn [chunks_aux concat]. rewrite IH; [apply take_drop|].
    unfold drop. rewrite skipn_length. cbn [length] in *. lia. Qed.
Lemma chunks_concat n l : 1 <= n -> concat (chunks n l) = l.
Proof. intro. apply chunks_aux_concat; [assumption | lia]. Qed.
Lemma chunks_aux_bound n : 1 <= n -> forall fuel l, Forall (fun c => 1 <= len c <= n) (chunks_aux fuel n l).
Proof. intro Hn. induction fuel as [|f IH]; intro l; [constructor|]. destruct l as [|x l']; [constructor|].
  cbn [chunks_aux]. constructor; [|apply IH]. unfold take, len. rewrite firstn_length. cbn [length]. lia. Qed.
Lemma chunks_bound n l : 1 <= n -> Forall (fun c => 1 <= len c <= n) (chunks n l).
Proof. intro. now apply chunks_aux_bound. Qed.
Lemma chunks_nil n : chunks n [] = []. Proof. reflexivity. Qed.
Lemma chunks_cons n l : l <> [] -> 1 <= n -> chunks n l = take n l :: chunks n (drop n l).
Proof. intros Hl Hn. unfold chunks. destruct l as [|x l']; [congruence|].
  cbn [length chunks_aux]. f_equal.
  (* fuel independence *)
  assert (Hind : forall f1 f2 k, (length k <= f1)%nat -> (length k <= f2)%nat -> chunks_aux f1 n k = chunks_aux f2 n k).
  { induction f1 as [|f1 IH]; intros f2 k H1 H2.
    - destruct k; [|cbn in H1; lia]. destruct f2; reflexivity.
    - destruct f2 as [|f2]; [destruct k; [reflexivity | cbn in H2; lia]|].
      destruct k as [|y k']; [reflexivity|]. cbn [chunks_aux]. f_equal. apply IH;
      unfold drop; rewrite skipn_length; cbn [length] in *; lia. }
  apply Hind; unfold drop; rewrite skipn_length; cbn [length]; lia. Qed.
Lemma chunks_single n l : l <> [] -> len l <= n -> chunks n l = [l].
Proof. intros Hl Hn. pose proof (len_nonneg l). assert (1 <= len l) by (destruct l; [congruence | rewrite len_cons; pose proof (len_nonneg l); lia]).
  rewrite chunks_cons by (auto; lia). rewrite take_all, drop_all by lia. reflexivity. Qed.
End Lists.

Lemma Forall_firstn {A} (P : A -> Prop) (l : list A) : Forall P l -> forall n, Forall P (firstn n l).
Proof. induction 1; intros [|n]; constructor; auto. Qed.

(* with offsets: [(off, c1); (off + len c1, c2); ...] *)
Fixpoint with_offsets {A} (off : Z) (cs : list (list A)) : list (Z * list A) :=
  match cs with [] => [] | c :: r => (off, c) :: with_offsets (off + len c) r end.

Section Writes.
Context {A : Type}.
Implicit Types f m d : list A.

Lemma splice0 m d : splice m 0 d = d ++ drop (len d) m.
Proof. reflexivity. Qed.
(* a header and a payload written at offset 0, then the header written again: T3 attribute block, T4 NLEN *)
Lemma splice_over m (a b d : list A) : len a = len b -> len a + len d <= len m ->
  splice (splice m 0 (a ++ d)) 0 b = b ++ d ++ drop (len b + len d) m.
Proof.
  intros Hab Hl. rewrite !splice0, <- Hab, <- app_assoc, drop_len_app, len_app. reflexivity.
Qed.

(* "m' differs from m only inside [lo, hi)" *)
Definition frame (lo hi : Z) m m' : Prop := len m' = len m /\ take lo m' = take lo m /\ drop hi m' = drop hi m.
Lemma frame_refl lo hi m : frame lo hi m m.
Proof. repeat split. Qed.
Lemma frame_trans lo hi m1 m2 m3 : frame lo hi m1 m2 -> frame lo hi m2 m3 -> frame lo hi m1 m3.
Proof. unfold frame. intuition congruence. Qed.
Lemma frame_splice lo hi m off d : 0 <= lo <= off -> off + len d <= hi -> off + len d <= len m ->
  frame lo hi m (splice m off d).
Proof.
  intros. pose proof (len_nonneg d).
  split; [apply len_splice | split; [apply take_splice_lo | apply drop_splice_hi]]; lia.
Qed.

Lemma firstn_with_offsets : forall k (cs : list (list A)) off, firstn k (with_offsets off cs) = with_offsets off (firstn k cs).
Proof. induction k as [|k IH]; intros [|c r] off; cbn; [reflexivity ..|]. now rewrite IH. Qed.
Lemma with_offsets_range (cs : list (list A)) : forall off o c, In (o, c) (with_offsets off cs) ->
  In c cs /\ off <= o /\ o + len c <= off + len (concat cs).
Proof.
  induction cs as [|c0 r IH]; intros off o c Hin; cbn in Hin; [contradiction|].
  cbn [concat]. rewrite len_app. pose proof (len_nonneg c0). pose proof (len_nonneg (concat r)).
  destruct Hin as [Heq|Hin]; [inversion Heq; subst; cbn; intuition lia|]. apply IH in Hin. cbn. intuition lia.
Qed.

(* a list of writes (offset, data) applied to a memory image in order *)
Definition apply_up f (u : Z * list A) : list A := splice f (fst u) (snd u).
Definition apply_ups f (p : list (Z * list A)) : list A := fold_left apply_up p f.
Lemma apply_ups_app f p q : apply_ups f (p ++ q) = apply_ups (apply_ups f p) q.
Proof. apply fold_left_app. Qed.
(* adjacent writes are one write of the concatenation *)
Lemma apply_ups_offsets (cs : list (list A)) : forall f off, 0 <= off -> off + len (concat cs) <= len f ->
  apply_ups f (with_offsets off cs) = splice f off (concat cs).
Proof.
  induction cs as [|c r IH]; intros f off H0 H1; cbn [with_offsets concat]; [symmetry; apply splice_nil|].
  cbn [concat] in H1. rewrite len_app in H1. pose proof (len_nonneg c). pose proof (len_nonneg (concat r)).
  change (apply_ups f ((off, c) :: ?p)) with (apply_ups (splice f off c) p).
  rewrite IH by (rewrite ?len_splice; lia). apply splice_adj; lia.
Qed.
Lemma apply_ups_frame lo hi : 0 <= lo -> forall p f, hi <= len f ->
  Forall (fun u => lo <= fst u /\ fst u + len (snd u) <= hi) p -> frame lo hi f (apply_ups f p).
Proof.
  intro Hlo. induction p as [|u r IH]; intros f Hf Hp; [apply frame_refl|]. inversion Hp as [|? ? [H1 H2] Hr]; subst.
  assert (F : frame lo hi f (apply_up f u)) by (apply frame_splice; lia).
  apply (frame_trans _ _ _ _ _ F), IH; [destruct F as (-> & _); exact Hf | exact Hr].
Qed.
End Writes.

(* A command list run on a device that loses power.
   The device (Type 3 tag, Type 3 emulation, Type 4 card) executes state-changing commands while its budget
   [bud] is not 0 (negative: no cut); [obs] is what the theorems observe of its state (memory image, command log)
   and [app] the effect of one command on it.  Whatever the budget, the device ends in the state reached by a
   prefix of the command list: all of it, or as many commands as the budget allowed. *)
Definition cut {C} (k : Z) (cs : list C) : list C := if k <? 0 then cs else firstn (Z.to_nat k) cs.
Lemma cut_all {C} k (cs : list C) : k < 0 \/ Z.of_nat (length cs) <= k -> cut k cs = cs.
Proof. intro H. unfold cut. destruct (k <? 0) eqn:E; [reflexivity | apply firstn_all2; lia]. Qed.
Lemma cut_cons {C} k (c : C) r : k <> 0 -> cut k (c :: r) = c :: cut (if k <? 0 then k else k - 1) r.
Proof.
  intro H. unfold cut. destruct (k <? 0) eqn:E; [now rewrite E|]. replace (k - 1 <? 0) with false by lia.
  replace (Z.to_nat k) with (S (Z.to_nat (k - 1))) by lia. reflexivity.
Qed.
Lemma cut_firstn {C} k (cs : list C) : exists j, cut k cs = firstn j cs.
Proof. unfold cut. destruct (k <? 0); [exists (length cs); symmetry; apply firstn_all | eauto]. Qed.

Section Budget.
Variables (S C R M : Type) (step : S -> C -> res R * S) (run : S -> list C -> res unit * S).
Variables (inv : S -> Prop) (ok : S -> C -> Prop) (bud : S -> Z) (obs : S -> M) (app : M -> C -> M).
Hypothesis run_nil : forall s, run s [] = (Ok tt, s).
Hypothesis run_ok : forall s c r x s1, step s c = (Ok x, s1) -> run s (c :: r) = run s1 r.
Hypothesis run_err : forall s c r e s1, step s c = (Err e, s1) -> run s (c :: r) = (Err e, s1).
Hypothesis step_live : forall s c, inv s -> bud s <> 0 -> ok s c ->
  exists x s', step s c = (Ok x, s') /\ inv s' /\ obs s' = app (obs s) c /\
               bud s' = (if bud s <? 0 then bud s else bud s - 1) /\ forall c', ok s c' -> ok s' c'.
Hypothesis step_dead : forall s c, inv s -> bud s = 0 -> ok s c -> step s c = (Err (TagCommandError 0), s).

Lemma run_budget : forall cs s, inv s -> Forall (ok s) cs ->
  exists s', run s cs = (if (bud s <? 0) || (Z.of_nat (length cs) <=? bud s) then Ok tt else Err (TagCommandError 0), s') /\
             inv s' /\ obs s' = fold_left app (cut (bud s) cs) (obs s).
Proof.
  induction cs as [|c r IH]; intros s Hi Hok.
  - exists s. rewrite run_nil, cut_all by (cbn; lia). cbn [length Z.of_nat].
    replace ((bud s <? 0) || (0 <=? bud s)) with true by lia. auto.
  - inversion Hok as [|? ? Hc Hr]; subst. cbn [length]. rewrite Nat2Z.inj_succ.
    destruct (Z.eq_dec (bud s) 0) as [E|E].
    + exists s. rewrite (run_err _ _ _ _ _ (step_dead s c Hi E Hc)), E.
      replace ((0 <? 0) || (Z.succ (Z.of_nat (length r)) <=? 0)) with false by lia. auto.
    + destruct (step_live s c Hi E Hc) as (x & s1 & Hs & Hi1 & Ho & Hb & Hk).
      destruct (IH s1 Hi1) as (s' & Hrun & Hi' & Ho'); [eapply Forall_impl; [apply Hk | exact Hr]|].
      exists s'. rewrite (run_ok _ _ _ _ _ Hs), Hrun, Ho', Ho, Hb, cut_cons by exact E.
      split; [|auto]. f_equal. destruct (bud s <? 0) eqn:En; [now rewrite En|].
      replace (bud s - 1 <? 0) with false by lia. cbn [orb].
      now replace (Z.of_nat (length r) <=? bud s - 1) with (Z.succ (Z.of_nat (length r)) <=? bud s) by lia.
Qed.
End Budget.
