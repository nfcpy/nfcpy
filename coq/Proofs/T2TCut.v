(* C02, Type 2: after a power cut behind any WRITE command of an NDEF write a fresh reader sees the
   previous message, an empty message, or the complete new message. *)
From Coq Require Import ZArith List Bool Lia ZifyBool.
From NV Require Import Base.Result Base.Bytes Model.TlvMem Model.T2T Proofs.TlvLib Proofs.TlvPhases Proofs.T2TRead Proofs.T2TPhases Proofs.T2TWrite.
Import ListNotations.
Open Scope Z_scope.

Theorem t2_cut_safe m d cap : wf_layout m -> t2_capacity m = Some cap -> len d <= cap -> forall k,
  let mk := apply_ws m (firstn k (snd (t2_write m d))) in
  t2_fresh mk = t2_fresh m \/ t2_fresh mk = Msg [] \/ t2_fresh mk = Msg d.
Proof.
  intros Hwf Hcap Hd k. destruct (wf_layout_wfL m Hwf) as (L & HL). pose proof (wfL_capacity m L cap HL Hcap) as Hc.
  destruct (t2_write_result m L HL d ltac:(lia)) as (cs & cf & Hw & _ & _ & _ & _ & Hf & Hcut).
  cbv zeta. rewrite Hw. cbn [snd]. specialize (Hcut k). cbv zeta in Hcut.
  assert (Hrd : l_rd L = true) by apply HL.
  unfold t2_fresh. destruct Hcut as [E|[E|E]].
  - left. rewrite E. reflexivity.
  - right; left. rewrite (hdr0_read _ _ _ _ _ (wfL_gen m L HL) _ ltac:(pose proof (len_nonneg d); lia) E). cbn [classify set_val l_rd l_val]. rewrite Hrd. reflexivity.
  - right; right. rewrite E, Hf. cbn [classify set_val l_rd l_val]. rewrite Hrd. reflexivity.
Qed.

(* the same statement for the list of observations the correspondence run compares *)
Lemma cut_mems_spec : forall ws m, cut_mems m ws = map (fun k => apply_ws m (firstn k ws)) (seq 0 (S (length ws))).
Proof.
  induction ws as [|w ws IH]; intro m; [reflexivity|].
  cbn [cut_mems length]. rewrite IH.
  change (seq 0 (S (S (length ws)))) with (0%nat :: seq 1 (S (length ws))). cbn [map firstn apply_ws fold_left].
  rewrite <- (seq_shift (S (length ws)) 0), map_map. reflexivity.
Qed.
Theorem t2_cut_obs_safe m d cap : wf_layout m -> t2_capacity m = Some cap -> len d <= cap ->
  Forall (fun f => f = t2_fresh m \/ f = Msg [] \/ f = Msg d) (t2_cut_obs m d).
Proof.
  intros Hwf Hcap Hd. unfold t2_cut_obs. rewrite cut_mems_spec, map_map. apply Forall_forall. intros f Hf.
  apply in_map_iff in Hf. destruct Hf as (k & <- & _). apply (t2_cut_safe m d cap Hwf Hcap Hd k).
Qed.
