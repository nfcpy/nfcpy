(* Generic analysis of the phases of _write_ndef_data on a well-formed TLV layout, shared by the
   Type 1 and Type 2 proofs: the caches after each phase, what they change (only NDEF-area bytes),
   what a reader finds in them and in any unit-wise mixture left by an interrupted synchronize. *)
From Coq Require Import ZArith List Bool Lia ZifyBool.
From NV Require Import Base.Result Base.Bytes Model.TlvMem Proofs.TlvLib.
Import ListNotations.
Open Scope Z_scope.
Ltac Zify.zify_post_hook ::= Z.to_euclidean_division_equations.

(* the three length-field bytes behind the tag byte lie in one write unit *)
Definition one_unit (u : nat) (off : Z) : Prop := (off + 3) / Z.of_nat u = (off + 1) / Z.of_nat u.

(* three assignments to consecutive addresses, the first address last *)
Lemma upd3_get c o h lo ca cb c3 : upd c (o + 2) h = Ok ca -> upd ca (o + 3) lo = Ok cb -> upd cb (o + 1) 255 = Ok c3 ->
  get c3 (o + 1) = 255 /\ get c3 (o + 2) = h /\ get c3 (o + 3) = lo /\
  (forall y, 0 <= y -> y < o + 1 \/ o + 3 < y -> get c3 y = get c y) /\
  (forall y, 0 <= y -> y <> o + 3 -> y <> o + 2 -> get cb y = get c y).
Proof.
  intros Pa Pb P3. destruct (upd_inv _ _ _ _ Pa) as (Ha & _ & Ga). destruct (upd_inv _ _ _ _ Pb) as (Hb & _ & Gb).
  destruct (upd_inv _ _ _ _ P3) as (H3 & _ & G3). clear Pa Pb P3.
  assert (G : forall y, 0 <= y -> get c3 y =
    if y =? o + 1 then 255 else if y =? o + 3 then lo else if y =? o + 2 then h else get c y)
    by (intros y Hy; rewrite G3, Gb, Ga by exact Hy; reflexivity).
  split; [rewrite G by lia; rewrite Z.eqb_refl; reflexivity|].
  split; [rewrite G by lia; replace (o + 2 =? o + 1) with false by lia; replace (o + 2 =? o + 3) with false by lia; rewrite Z.eqb_refl; reflexivity|].
  split; [rewrite G by lia; replace (o + 3 =? o + 1) with false by lia; rewrite Z.eqb_refl; reflexivity|].
  split; intros y Hy H1.
  - rewrite G by exact Hy. replace (y =? o + 1) with false by lia. replace (y =? o + 3) with false by lia.
    replace (y =? o + 2) with false by lia. reflexivity.
  - intro H2. rewrite Gb, Ga by exact Hy. replace (y =? o + 3) with false by lia. replace (y =? o + 2) with false by lia. reflexivity.
Qed.

Section Area.
Variable L : layout.
Notation off := (l_off L).
Notation skip := (l_skip L).
Notation dend := (l_dend L).

Lemma area_intro x : off <= x < dend -> in_skip skip x = false -> ndef_area L x = true.
Proof. intros H1 H2. unfold ndef_area. rewrite H2. cbn [negb]. lia. Qed.

(* f -> c changes only bytes of the NDEF area behind the tag byte *)
Definition touch (f c : list Z) : Prop :=
  length c = length f /\ forall x, 0 <= x -> get c x <> get f x -> off < x /\ ndef_area L x = true.
Lemma touch_refl c : touch c c. Proof. split; [reflexivity|]. intros x _ H. congruence. Qed.
Lemma touch_trans a b c : touch a b -> touch b c -> touch a c.
Proof. intros [H1 H2] [H3 H4]. split; [congruence|]. intros x Hx Hne.
  destruct (Z.eq_dec (get b x) (get a x)) as [E|E]; [apply H4; [exact Hx | congruence] | apply H2; assumption]. Qed.
Lemma touch_same f c x : touch f c -> 0 <= x -> x <= off \/ ndef_area L x = false -> get c x = get f x.
Proof.
  intros [_ H] Hx N. destruct (Z.eq_dec (get c x) (get f x)) as [E|E]; [exact E|].
  destruct (H x Hx E) as [H1 H2]. destruct N as [N|N]; [lia | congruence].
Qed.
Lemma touch_chain : forall cs from, (forall f c, adjacent from cs f c -> touch f c) -> touch from (last_cache from cs).
Proof. induction cs as [|c r IH]; intros from H; [apply touch_refl|]. cbn [last_cache].
  eapply touch_trans; [apply H, adj_here | apply IH; intros f x Ha; apply H, adj_next, Ha]. Qed.

Lemma upd_touch c a v c' : upd c a v = Ok c' -> off < a -> ndef_area L a = true ->
  touch c c' /\ (forall x, 0 <= x -> x <> a -> get c' x = get c x) /\ get c' a = v.
Proof.
  intros H Ha Har. apply upd_inv in H. destruct H as (Hb & Hl & Hg). split; [|split].
  - split; [exact Hl|]. intros x Hx Hne. rewrite Hg in Hne by exact Hx. destruct (Z.eqb_spec x a); [subst; auto | congruence].
  - intros x Hx Hne. rewrite Hg by exact Hx. destruct (Z.eqb_spec x a); congruence.
  - rewrite Hg by lia. rewrite Z.eqb_refl. reflexivity.
Qed.

(* a write command the tag (of n bytes, written in units of u bytes) accepts and that holds a byte of the NDEF area
   behind the tag byte *)
Definition area_cmd (u : nat) (n : Z) (w : write) : Prop :=
  0 <= fst w /\ fst w mod Z.of_nat u = 0 /\ fst w + Z.of_nat u <= n /\ len (snd w) = Z.of_nat u /\
  exists x, fst w <= x < fst w + Z.of_nat u /\ off < x /\ ndef_area L x = true.
End Area.

(* the test of the well-formed layout predicates (Model.T2T.wf_layoutb, Model.T1T.t1_wf_layoutb) from the access
   flags on; lo is the first address behind the capability container *)
Lemma wf_tail_iff L n lo :
  l_rd L && l_wr L && (l_dend L <=? n) && (l_hw L <=? l_off L) && (lo <=? l_off L) && (l_off L + 1 <? l_dend L)
    && negb (in_skip (l_skip L) (l_off L)) && negb (in_skip (l_skip L) (l_off L + 1))
    && ((l_cap L <? 255) || (negb (in_skip (l_skip L) (l_off L + 2)) && negb (in_skip (l_skip L) (l_off L + 3)))) = true <->
  l_rd L = true /\ l_wr L = true /\ l_dend L <= n /\ l_hw L <= l_off L /\ lo <= l_off L /\ l_off L + 1 < l_dend L /\
  in_skip (l_skip L) (l_off L) = false /\ in_skip (l_skip L) (l_off L + 1) = false /\
  (255 <= l_cap L -> in_skip (l_skip L) (l_off L + 2) = false /\ in_skip (l_skip L) (l_off L + 3) = false).
Proof.
  rewrite !andb_true_iff, orb_true_iff, andb_true_iff, !negb_true_iff, !Z.leb_le, !Z.ltb_lt. split.
  - intros ((((((((A & B) & C) & D) & E) & F) & G) & H) & I).
    repeat split; try assumption; destruct I as [I|[I1 I2]]; (lia || assumption).
  - intros (A & B & C & D & E & F & G & H & I). repeat split; try assumption.
    destruct (Z.lt_ge_cases (l_cap L) 255) as [Hc|Hc]; [left; exact Hc | right; exact (I Hc)].
Qed.

(* What the analysis needs of a tag type: em is the readable image of a tag that is written in units of u bytes and
   read by READ, L its NDEF TLV. *)
Record gen_layout (em : list Z) (L : layout) (u ku : nat) (READ : list Z -> res (option layout)) : Prop := {
  gl_u : (0 < u)%nat;
  gl_k : length em = (ku * u)%nat;
  gl_dend : l_dend L <= len em;
  gl_off0 : 0 <= l_off L;
  gl_off1 : l_off L + 1 < l_dend L;
  gl_tag : get em (l_off L) = 3;
  gl_cap : l_cap L = get_capacity (l_dend L) (l_off L) (l_skip L);
  gl_s1 : in_skip (l_skip L) (l_off L + 1) = false;
  gl_s23 : 255 <= l_cap L -> in_skip (l_skip L) (l_off L + 2) = false /\ in_skip (l_skip L) (l_off L + 3) = false;
  (* a memory that agrees with em up to and including the tag byte of the NDEF TLV, and whose NDEF TLV lies inside
     the data area, is parsed to the same layout *)
  gl_transfer : forall c l' v' e', agree_below (l_off L + 1) em c -> ndef_fits c (set_val L v') = true ->
    read_tlv c (l_off L) (l_skip L) = Ok (3, l', v', e') -> READ c = Ok (Some (set_val L v'))
}.

Section Generic.
Variables (em : list Z) (L : layout) (u ku : nat).
Variable READ : list Z -> res (option layout).     (* the type specific reader on a readable image *)
Hypothesis GH : gen_layout em L u ku READ.
Let Hu := gl_u _ _ _ _ _ GH.
Let Hk := gl_k _ _ _ _ _ GH.
Let Hde := gl_dend _ _ _ _ _ GH.
Let Hoff0 := gl_off0 _ _ _ _ _ GH.
Let Hoff1 := gl_off1 _ _ _ _ _ GH.
Let Htag := gl_tag _ _ _ _ _ GH.
Let Hcapeq := gl_cap _ _ _ _ _ GH.
Let Hs1 := gl_s1 _ _ _ _ _ GH.
Let Hs23 := gl_s23 _ _ _ _ _ GH.
Let Htransfer := gl_transfer _ _ _ _ _ GH.
Set Default Proof Using "GH".

Notation off := (l_off L).
Notation skip := (l_skip L).
Notation dend := (l_dend L).
Notation touch := (touch L).

Lemma cap_short (d : list Z) : len d <= l_cap L ->
  len d <= count_free skip (off + 2) (Z.to_nat (dend - (off + 2))).
Proof.
  intros Hc. rewrite Hcapeq in Hc. destruct (get_capacity_cases dend off skip) as [Hle _].
  replace (Z.to_nat (dend - off)) with (2 + Z.to_nat (dend - (off + 2)))%nat in Hle by lia.
  rewrite count_free_app in Hle. pose proof (count_free_bounds skip 2 off). cbn [Z.of_nat Pos.of_succ_nat Pos.succ] in *. lia.
Qed.
Lemma cap_long (d : list Z) : 255 <= len d -> len d <= l_cap L ->
  off + 3 < dend /\ in_skip skip (off + 2) = false /\ in_skip skip (off + 3) = false /\
  len d <= count_free skip (off + 4) (Z.to_nat (dend - (off + 4))).
Proof.
  intros Hd Hc. destruct (Hs23 ltac:(lia)) as [H2 H3]. rewrite Hcapeq in Hc.
  destruct (get_capacity_cases dend off skip) as [_ He]. specialize (He ltac:(lia)). rewrite He in Hc.
  pose proof (count_free_bounds skip (Z.to_nat (dend - off)) off) as Hb.
  assert (Hn : off + 3 < dend) by lia.
  replace (Z.to_nat (dend - off)) with (4 + Z.to_nat (dend - (off + 4)))%nat in Hc by lia.
  rewrite count_free_app in Hc. pose proof (count_free_bounds skip 4 off). cbn [Z.of_nat Pos.of_succ_nat Pos.succ] in *.
  repeat split; auto. lia.
Qed.
Lemma count_free_mono a n k : count_free skip a n <= count_free skip a (n + k).
Proof. rewrite count_free_app. pose proof (count_free_bounds skip k (a + Z.of_nat n)). lia. Qed.

(* the data phase: value bytes at the positions the reader visits, terminator behind them *)
Lemma ph_data_spec (d c : list Z) : length c = length em -> len d <= l_cap L ->
  exists c2 e, ph_data L d c = Ok c2 /\ touch c c2 /\
    (forall x, 0 <= x < off + (if len d <? 255 then 2 else 4) -> get c2 x = get c x) /\
    read_val skip (off + (if len d <? 255 then 2 else 4))
      (skipn (Z.to_nat (off + (if len d <? 255 then 2 else 4))) c2) (length d) = Ok (d, e).
Proof.
  intros Hlc Hcap. unfold ph_data.
  set (start := off + (if len d <? 255 then 2 else 4)).
  assert (Hst : off + 2 <= start <= dend /\ len d <= count_free skip start (Z.to_nat (dend - start))).
  { subst start. destruct (Z.ltb_spec (len d) 255) as [Hd|Hd].
    - split; [lia | apply cap_short; assumption].
    - destruct (cap_long d Hd Hcap) as (H3 & _ & _ & Hc). split; [lia | exact Hc]. }
  destruct Hst as [Hst Hcnt].
  assert (Hlen : len c = len em) by (unfold len; congruence).
  destruct (place_ok skip c start d) as [[cP e] HP]; [lia | lia | |].
  { replace (Z.to_nat (len c - start)) with (Z.to_nat (dend - start) + Z.to_nat (len c - dend))%nat by lia.
    eapply Z.le_trans; [exact Hcnt | apply count_free_mono]. }
  rewrite HP. cbn [bind fst snd].
  destruct (place_inv _ _ _ _ _ _ HP) as (Hl & He & Hrv & Hfr); [lia | lia |].
  assert (Hed : e <= dend).
  { pose proof (read_val_fits _ _ _ _ _ _ (Z.to_nat (dend - start)) Hrv Hcnt). lia. }
  assert (HtP : touch c cP).
  { split; [exact Hl|]. intros x Hx Hne.
    destruct (Z.ltb_spec x start); [elim Hne; apply Hfr; auto|].
    destruct (in_skip skip x) eqn:Es; [elim Hne; apply Hfr; auto|].
    destruct (Z.leb_spec e x); [elim Hne; apply Hfr; auto|].
    split; [lia | apply area_intro; [lia | exact Es]]. }
  destruct (term_pos skip e (Z.to_nat (dend - e))) as [t|] eqn:Et.
  - apply term_pos_spec in Et. destruct Et as [Et1 Et2].
    destruct (upd_ok cP t 254) as [c2 Hc2]; [unfold len in *; lia|].
    rewrite Hc2. exists c2, e. destruct (upd_touch L _ _ _ _ Hc2) as (T1 & T2 & _); [lia | apply area_intro; [lia | exact Et2] |].
    split; [reflexivity|]. split; [eapply touch_trans; eassumption|]. split.
    + intros x Hx. rewrite T2 by lia. apply Hfr; [lia | left; lia].
    + destruct T1 as [T1 _]. apply (read_val_at_congr skip cP c2 start _ d e); [lia | congruence | exact Hrv |].
      intros x Hx. symmetry. apply T2; lia.
  - exists cP, e. split; [reflexivity|]. split; [exact HtP|]. split; [|exact Hrv].
    intros x Hx. apply Hfr; [lia | left; lia].
Qed.

(* the test at the end of the repaired readers *)
Lemma fits_intro (c v : list Z) b hdr : rd c (off + 1) = Ok b -> hdr = (if b =? 255 then 4 else 2) -> off + hdr <= dend ->
  len v <= count_free skip (off + hdr) (Z.to_nat (dend - (off + hdr))) -> len v <= l_cap L ->
  ndef_fits c (set_val L v) = true.
Proof.
  intros Hb Hh H1 H2 H3. unfold ndef_fits. cbn [set_val l_off l_dend l_val l_skip l_cap].
  rewrite (ndef_hdr_eq _ _ _ Hb), <- Hh. lia.
Qed.

(* what a reader finds when the NDEF TLV is still in front of it and its length byte is 0 *)
Definition hdr0 (c : list Z) : Prop := agree_below (off + 1) em c /\ get c (off + 1) = 0.
(* a memory that still agrees with em up to the tag byte, and holds behind it a length field (one byte, or FF and
   two bytes) and at the positions the reader visits the value v, is read as the layout L with value v *)
Lemma read_back (c v : list Z) hdr e : agree_below (off + 1) em c -> len v <= l_cap L -> off + hdr <= dend ->
  (hdr = 2 /\ get c (off + 1) = len v /\ len v < 255) \/
  (hdr = 4 /\ get c (off + 1) = 255 /\ 256 * get c (off + 2) + get c (off + 3) = len v) ->
  len v <= count_free skip (off + hdr) (Z.to_nat (dend - (off + hdr))) ->
  read_val skip (off + hdr) (skipn (Z.to_nat (off + hdr)) c) (length v) = Ok (v, e) ->
  READ c = Ok (Some (set_val L v)).
Proof.
  intros HA Hcap Hd Hh Hfree Hrv. pose proof HA as [HL HG]. assert (Hlen : len c = len em) by (unfold len; congruence).
  assert (Hb : rd c (off + 1) = Ok (get c (off + 1))) by (apply rd_ok; lia).
  apply (Htransfer c (len v) v e HA).
  { apply (fits_intro c v (get c (off + 1)) hdr Hb); [| exact Hd | exact Hfree | exact Hcap].
    destruct Hh as [(-> & -> & ?) | (-> & -> & _)]; [replace (len v =? 255) with false by lia|]; reflexivity. }
  unfold read_tlv. rewrite rd_ok by lia. rewrite <- HG by lia. rewrite Htag, Hb. cbn [bind Z.eqb orb].
  destruct Hh as [(-> & -> & Hs) | (-> & -> & Hhl)].
  - replace (len v =? 255) with false by lia. cbn [bind fst snd]. unfold len at 1. rewrite Nat2Z.id, Hrv. reflexivity.
  - cbn [Z.eqb Pos.eqb]. rewrite !rd_ok by lia. cbn [bind fst snd]. rewrite Hhl. unfold len at 1. rewrite Nat2Z.id, Hrv. reflexivity.
Qed.

Lemma hdr0_read c : 0 <= l_cap L -> hdr0 c -> READ c = Ok (Some (set_val L [])).
Proof.
  intros Hc0 [HA H0]. apply (read_back c [] 2 (off + 2) HA Hc0); [lia | left; repeat split; exact H0 | apply count_free_bounds | apply read_val_0].
Qed.
Lemma hdr0_mix f c x : hdr0 f -> hdr0 c -> umixed u f c x -> hdr0 x.
Proof.
  intros [[Lf Gf] Zf] [[Lc Gc] Zc] Hm. pose proof (umixed_pointwise u Hu f c x Hm) as Hp. destruct Hm as [Hl _].
  split; [split; [congruence|]|].
  - intros a Ha. unfold get in *. destruct (Hp (Z.to_nat a)) as [E|E]; rewrite E; [apply Gf | apply Gc]; exact Ha.
  - unfold get in *. destruct (Hp (Z.to_nat (off + 1))) as [E|E]; rewrite E; assumption.
Qed.
Lemma touch_hdr0 f c : hdr0 f -> touch f c -> (forall x, 0 <= x -> get c x <> get f x -> off + 1 < x) -> hdr0 c.
Proof.
  intros [[Lf Gf] Zf] T Hx. split; [split; [destruct T; congruence|]|].
  - intros a Ha. rewrite Gf by exact Ha. symmetry. apply (touch_same L f c a T); [lia | left; lia].
  - destruct (Z.eq_dec (get c (off + 1)) (get f (off + 1))) as [E|E]; [congruence|]. apply Hx in E; lia.
Qed.

Lemma len0_spec : exists c1, ph_len0 L em = Ok c1 /\ touch em c1 /\ hdr0 c1 /\
  (forall x, 0 <= x -> x <> off + 1 -> get c1 x = get em x).
Proof.
  unfold ph_len0.
  destruct (upd_ok em (off + 1) 0) as [c1 H1]; [lia|]. exists c1. split; [exact H1|].
  destruct (upd_touch L _ _ _ _ H1) as (T1 & T2 & T3); [lia | apply area_intro; [lia | exact Hs1] |].
  split; [exact T1|]. split; [|exact T2].
  split; [|exact T3]. destruct T1 as [Tl _]. split; [congruence|]. intros a Ha. symmetry. apply T2; lia.
Qed.

Lemma write_prefix (d : list Z) : len d <= l_cap L -> exists c1 c2 e,
  ph_len0 L em = Ok c1 /\ ph_data L d c1 = Ok c2 /\ touch em c1 /\ touch c1 c2 /\ hdr0 c1 /\ hdr0 c2 /\
  length c1 = length em /\ length c2 = length em /\
  (forall x, 0 <= x -> x <> off + 1 -> get c1 x = get em x) /\
  (forall x, 0 <= x < off + (if len d <? 255 then 2 else 4) -> get c2 x = get c1 x) /\
  read_val skip (off + (if len d <? 255 then 2 else 4))
    (skipn (Z.to_nat (off + (if len d <? 255 then 2 else 4))) c2) (length d) = Ok (d, e).
Proof.
  intro Hcap. destruct len0_spec as (c1 & P1 & T1 & Z1 & G1).
  assert (L1 : length c1 = length em) by apply T1.
  destruct (ph_data_spec d c1 L1 Hcap) as (c2 & e & P2 & T2 & G2 & R2).
  assert (L2 : length c2 = length em) by (destruct T2; congruence).
  assert (Z2 : hdr0 c2).
  { apply (touch_hdr0 c1 c2 Z1 T2). intros x Hx Hne. destruct (Z.ltb_spec x (off + (if len d <? 255 then 2 else 4))) as [Hl|Hl].
    - elim Hne. apply G2. lia.
    - destruct (len d <? 255); lia. }
  exists c1, c2, e. split; [exact P1|]. split; [exact P2|]. split; [exact T1|]. split; [exact T2|]. split; [exact Z1|].
  split; [exact Z2|]. split; [exact L1|]. split; [exact L2|]. split; [exact G1|]. split; [exact G2 | exact R2].
Qed.

(* two caches that differ only at addresses of one write unit: an interrupted synchronize leaves one or the other *)
Lemma mix_near f c x lo hi : touch f c -> 0 <= lo -> lo / Z.of_nat u = hi / Z.of_nat u ->
  (forall y, 0 <= y -> y < lo \/ hi < y -> get c y = get f y) -> umixed u f c x -> x = f \/ x = c.
Proof.
  intros [Tl _] H0 Hq Hd Hm. apply (umixed_single u Hu f c x (Z.to_nat (lo / Z.of_nat u)) Hm Tl). intros i Hne.
  assert (H : ~ (Z.of_nat i < lo \/ hi < Z.of_nat i)).
  { intro H. apply Hne. symmetry. rewrite <- (Nat2Z.id i). apply Hd; [apply Nat2Z.is_nonneg | exact H]. }
  apply Nat2Z.inj. rewrite Nat2Z.inj_div, Z2Nat.id by (apply Z.div_pos; [exact H0 | clear - Hu; lia]).
  apply Z.le_antisymm; [rewrite Hq|]; apply Z.div_le_mono; clear Hq; lia.
Qed.
Lemma mix_single f c x : touch f c -> (forall y, 0 <= y -> y <> off + 1 -> get c y = get f y) -> umixed u f c x -> x = f \/ x = c.
Proof. intros T G. apply (mix_near f c x (off + 1) (off + 1) T); [lia | reflexivity|]. intros y Hy H. apply G; lia. Qed.

Lemma tail_short (d c2 : list Z) e : hdr0 c2 -> length c2 = length em -> len d <= l_cap L -> len d < 255 ->
  read_val skip (off + 2) (skipn (Z.to_nat (off + 2)) c2) (length d) = Ok (d, e) ->
  exists c3, ph_len_short L d c2 = Ok c3 /\ touch c2 c3 /\ length c3 = length em /\ READ c3 = Ok (Some (set_val L d)) /\
    (forall x, umixed u c2 c3 x -> x = c2 \/ x = c3).
Proof.
  intros Z2 L2 Hcap Hd R2. unfold ph_len_short.
  destruct (upd_ok c2 (off + 1) (len d)) as [c3 P3]; [unfold len in *; lia|].
  destruct (upd_touch L _ _ _ _ P3) as (T3 & G3 & V3); [lia | apply area_intro; [lia | exact Hs1] |].
  assert (L3 : length c3 = length em) by (destruct T3; congruence).
  exists c3. split; [exact P3|]. split; [exact T3|]. split; [exact L3|]. split; [|intro x; exact (mix_single c2 c3 x T3 G3)].
  apply (read_back c3 d 2 e); [| exact Hcap | lia | left; auto | apply cap_short; assumption |].
  - destruct Z2 as [[Za Zb] _]. split; [congruence|]. intros a Ha. rewrite Zb by exact Ha. symmetry. apply G3; lia.
  - apply (read_val_at_congr skip c2 c3 (off + 2) _ d e); [lia | congruence | exact R2 |].
    intros x Hx. symmetry. apply G3; lia.
Qed.

(* ---- the length phase, three length bytes: low bytes, then FF ---- *)
Lemma tail_long (d c2 : list Z) e : hdr0 c2 -> length c2 = length em -> 255 <= len d -> len d <= l_cap L ->
  read_val skip (off + 4) (skipn (Z.to_nat (off + 4)) c2) (length d) = Ok (d, e) ->
  exists cb c3, ph_len_low L d c2 = Ok cb /\ ph_len_ff L cb = Ok c3 /\ touch c2 cb /\ touch cb c3 /\ hdr0 cb /\
    length cb = length em /\ length c3 = length em /\ READ c3 = Ok (Some (set_val L d)) /\
    (forall x, umixed u cb c3 x -> x = cb \/ x = c3) /\
    get c3 (off + 1) = 255 /\ get c3 (off + 2) = len d / 256 /\ get c3 (off + 3) = len d mod 256 /\
    (forall y, 0 <= y -> y < off + 1 \/ off + 3 < y -> get c3 y = get c2 y).
Proof.
  intros Z2 L2 Hd Hcap R2. destruct (cap_long d Hd Hcap) as (Hd3 & S2 & S3 & Hfree).
  unfold ph_len_low, ph_len_ff.
  (* any two bytes h, lo can be committed this way; that they are quotient and remainder of the length only matters
     for what the reader decodes (and keeps the division out of the arithmetic below) *)
  assert (Hhl : 256 * (len d / 256) + len d mod 256 = len d) by (clear; lia).
  revert Hhl. generalize (len d / 256) (len d mod 256). intros h lo Hhl.
  destruct (upd_ok c2 (off + 2) h) as [ca Pa]; [unfold len in *; lia|].
  destruct (upd_touch L _ _ _ _ Pa) as (Ta & _); [lia | apply area_intro; [lia | exact S2] |].
  assert (La : length ca = length em) by (destruct Ta; congruence).
  destruct (upd_ok ca (off + 3) lo) as [cb Pb]; [unfold len in *; lia|].
  destruct (upd_touch L _ _ _ _ Pb) as (Tb & _); [lia | apply area_intro; [lia | exact S3] |].
  assert (Lb : length cb = length em) by (destruct Tb; congruence).
  destruct (upd_ok cb (off + 1) 255) as [c3 P3]; [unfold len in *; lia|].
  destruct (upd_touch L _ _ _ _ P3) as (T3 & G3 & _); [lia | apply area_intro; [lia | exact Hs1] |].
  assert (L3 : length c3 = length em) by (destruct T3; congruence).
  assert (Tlow : touch c2 cb) by (eapply touch_trans; eassumption).
  destruct (upd3_get c2 off h lo ca cb c3 Pa Pb P3) as (V1 & V2 & V3 & G & Gb).
  assert (Zb : hdr0 cb).
  { apply (touch_hdr0 c2 cb Z2 Tlow). intros x Hx Hne.
    destruct (Z.eq_dec x (off + 3)); [lia|]. destruct (Z.eq_dec x (off + 2)); [lia|]. elim Hne. apply Gb; assumption. }
  exists cb, c3. split; [rewrite Pa; exact Pb|]. split; [exact P3|]. split; [exact Tlow|]. split; [exact T3|]. split; [exact Zb|].
  split; [exact Lb|]. split; [exact L3|]. split.
  { apply (read_back c3 d 4 e); [| exact Hcap | lia | right; rewrite V2, V3; auto | exact Hfree |].
    - destruct Zb as [[Za Zg] _]. split; [congruence|]. intros a Ha. rewrite Zg by exact Ha. symmetry. apply G3; lia.
    - apply (read_val_at_congr skip c2 c3 (off + 4) _ d e); [lia | congruence | exact R2 |].
      intros x Hx. symmetry. apply G; lia. }
  split; [intro x; exact (mix_single cb c3 x T3 G3) | auto].
Qed.

(* the un-repaired order (FF, then the low bytes, one synchronize) reaches the same cache *)
Lemma tail_unrepaired (d c2 cb c3 : list Z) : ph_len_low L d c2 = Ok cb -> ph_len_ff L cb = Ok c3 ->
  ph_len_long_unrepaired L d c2 = Ok c3.
Proof.
  unfold ph_len_low, ph_len_ff, ph_len_long_unrepaired. intros Pl Pf.
  destruct (upd c2 (off + 2) (len d / 256)) as [ca| | |] eqn:Pa; try discriminate. cbn [bind] in Pl.
  destruct (upd_swap ca (off + 3) _ (off + 1) _ _ _ ltac:(lia) Pl Pf) as (x & Px & Pc).
  destruct (upd_swap c2 (off + 2) _ (off + 1) _ _ _ ltac:(lia) Pa Px) as (y & Py & Pxx).
  rewrite Py. cbn [bind]. rewrite Pxx. exact Pc.
Qed.

(* ---- a complete write: the caches, what they touch, what the final and the intermediate memories read as ---- *)
Definition caches_ok (phs : list phase) (d : list Z) (safe : Prop) : Prop :=
  exists cs cf, steps em phs cs /\ last_cache em cs = cf /\
    Forall (fun c => length c = length em) cs /\
    (forall f c, adjacent em cs f c -> touch f c) /\
    READ cf = Ok (Some (set_val L d)) /\
    (safe -> forall f c x, adjacent em cs f c -> umixed u f c x -> x = em \/ hdr0 x \/ x = cf).

(* the first two phases are the same in every variant; the rest of a write is any chain of caches from c2 on *)
Lemma caches_intro (d : list Z) (phs : list phase) (safe : Prop) : len d <= l_cap L ->
  (forall c2 e, hdr0 c2 -> length c2 = length em ->
     read_val skip (off + (if len d <? 255 then 2 else 4))
       (skipn (Z.to_nat (off + (if len d <? 255 then 2 else 4))) c2) (length d) = Ok (d, e) ->
     exists ts, steps c2 phs ts /\ Forall (fun c => length c = length em) ts /\
       (forall f c, adjacent c2 ts f c -> touch f c) /\ READ (last_cache c2 ts) = Ok (Some (set_val L d)) /\
       (safe -> forall f c x, adjacent c2 ts f c -> umixed u f c x -> hdr0 x \/ x = last_cache c2 ts)) ->
  caches_ok (ph_len0 L :: ph_data L d :: phs) d safe.
Proof.
  intros Hcap Htail. destruct (write_prefix d Hcap) as (c1 & c2 & e & P1 & P2 & T1 & T2 & Z1 & Z2 & L1 & L2 & G1 & _ & R2).
  destruct (Htail c2 e Z2 L2 R2) as (ts & St & Lt & Tt & Rf & Mt).
  exists (c1 :: c2 :: ts), (last_cache c2 ts). split; [eapply steps_cons; [exact P1|]; eapply steps_cons; eassumption|].
  split; [reflexivity|]. split; [repeat constructor; assumption|].
  split. { intros f c Ha. apply adjacent_inv in Ha as [[-> ->] | Ha]; [exact T1|].
    apply adjacent_inv in Ha as [[-> ->] | Ha]; [exact T2 | apply Tt, Ha]. }
  split; [exact Rf|]. intros Hs f c x Ha Hm.
  apply adjacent_inv in Ha as [[-> ->] | Ha]; [destruct (mix_single em c1 x T1 G1 Hm) as [-> | ->]; auto|].
  apply adjacent_inv in Ha as [[-> ->] | Ha]; [right; left; exact (hdr0_mix _ _ _ Z1 Z2 Hm) | right; apply (Mt Hs f c); assumption].
Qed.

Lemma caches_short (d : list Z) : len d <= l_cap L -> len d < 255 ->
  caches_ok [ph_len0 L; ph_data L d; ph_len_short L d] d True.
Proof.
  intros Hcap Hd. apply caches_intro; [exact Hcap|]. replace (len d <? 255) with true by lia. intros c2 e Z2 L2 R2.
  destruct (tail_short d c2 e Z2 L2 Hcap Hd R2) as (c3 & P3 & T3 & L3 & Rf & M3).
  exists [c3]. split; [eapply steps_cons; [exact P3 | apply steps_nil]|]. split; [repeat constructor; exact L3|].
  split. { intros f c Ha. apply adjacent_inv in Ha as [[-> ->] | Ha]; [exact T3 | destruct (adjacent_inv _ _ _ _ Ha)]. }
  split; [exact Rf|]. intros _ f c x Ha Hm.
  apply adjacent_inv in Ha as [[-> ->] | Ha]; [|destruct (adjacent_inv _ _ _ _ Ha)]. destruct (M3 x Hm) as [-> | ->]; auto.
Qed.

Lemma caches_split (d : list Z) : len d <= l_cap L -> 255 <= len d ->
  caches_ok [ph_len0 L; ph_data L d; ph_len_low L d; ph_len_ff L] d True.
Proof.
  intros Hcap Hd. apply caches_intro; [exact Hcap|]. replace (len d <? 255) with false by lia. intros c2 e Z2 L2 R2.
  destruct (tail_long d c2 e Z2 L2 Hd Hcap R2) as (cb & c3 & Pl & Pf & Tl & Tf & Zb & Lb & L3 & Rf & M3 & _).
  exists [cb; c3]. split; [eapply steps_cons; [exact Pl|]; eapply steps_cons; [exact Pf | apply steps_nil]|].
  split; [repeat constructor; assumption|].
  split. { intros f c Ha. apply adjacent_inv in Ha as [[-> ->] | Ha]; [exact Tl|].
    apply adjacent_inv in Ha as [[-> ->] | Ha]; [exact Tf | destruct (adjacent_inv _ _ _ _ Ha)]. }
  split; [exact Rf|]. intros _ f c x Ha Hm.
  apply adjacent_inv in Ha as [[-> ->] | Ha]; [left; exact (hdr0_mix _ _ _ Z2 Zb Hm)|].
  apply adjacent_inv in Ha as [[-> ->] | Ha]; [|destruct (adjacent_inv _ _ _ _ Ha)]. destruct (M3 x Hm) as [-> | ->]; auto.
Qed.

(* both one-synchronize variants of the three byte length commit *)
Lemma caches_joint_gen (d : list Z) (ph : phase) : len d <= l_cap L -> 255 <= len d ->
  (forall c2 cb c3, ph_len_low L d c2 = Ok cb -> ph_len_ff L cb = Ok c3 -> ph c2 = Ok c3) ->
  caches_ok [ph_len0 L; ph_data L d; ph] d (one_unit u off).
Proof.
  intros Hcap Hd Hph. apply caches_intro; [exact Hcap|]. replace (len d <? 255) with false by lia. intros c2 e Z2 L2 R2.
  destruct (tail_long d c2 e Z2 L2 Hd Hcap R2) as (cb & c3 & Pl & Pf & Tl & Tf & Zb & Lb & L3 & Rf & _ & _ & _ & _ & G3).
  assert (T23 : touch c2 c3) by (eapply touch_trans; eassumption).
  exists [c3]. split; [eapply steps_cons; [exact (Hph c2 cb c3 Pl Pf) | apply steps_nil]|]. split; [repeat constructor; exact L3|].
  split. { intros f c Ha. apply adjacent_inv in Ha as [[-> ->] | Ha]; [exact T23 | destruct (adjacent_inv _ _ _ _ Ha)]. }
  split; [exact Rf|]. intros H1 f c x Ha Hm.
  apply adjacent_inv in Ha as [[-> ->] | Ha]; [|destruct (adjacent_inv _ _ _ _ Ha)].
  destruct (mix_near c2 c3 x (off + 1) (off + 3) T23 ltac:(lia) (eq_sym H1) G3 Hm) as [-> | ->]; auto.
Qed.
Lemma caches_joint (d : list Z) : len d <= l_cap L -> 255 <= len d ->
  caches_ok [ph_len0 L; ph_data L d; fun c => do c' <- ph_len_low L d c; ph_len_ff L c'] d (one_unit u off).
Proof. intros Hcap Hd. apply caches_joint_gen; [assumption | assumption |].
  intros c2 cb c3 Pl Pf. cbv beta. rewrite Pl. exact Pf. Qed.
Lemma caches_unrepaired (d : list Z) : len d <= l_cap L -> 255 <= len d ->
  caches_ok [ph_len0 L; ph_data L d; ph_len_long_unrepaired L d] d (one_unit u off).
Proof. intros Hcap Hd. apply caches_joint_gen; [assumption | assumption | apply tail_unrepaired]. Qed.

Lemma caches_weaken phs d (safe safe' : Prop) : (safe' -> safe) -> caches_ok phs d safe -> caches_ok phs d safe'.
Proof. intros Hs (cs & cf & H1 & H2 & H3 & H4 & H5 & H6). exists cs, cf. repeat (split; [assumption|]). intro H. apply H6, Hs, H. Qed.

Lemma gen_cut cs j : Forall (fun c => length c = length em) cs ->
  apply_ws em (firstn j (chain_cmds u em cs)) = last_cache em cs \/
  exists f c, adjacent em cs f c /\ umixed u f c (apply_ws em (firstn j (chain_cmds u em cs))).
Proof.
  intro Hl. apply (chain_cut u ku Hu cs em j Hk). eapply Forall_impl; [|exact Hl]. cbv beta. intros; congruence.
Qed.
Lemma gen_apply cs : Forall (fun c => length c = length em) cs -> apply_ws em (chain_cmds u em cs) = last_cache em cs.
Proof. intro Hl. apply (chain_apply u ku Hu cs em Hk). eapply Forall_impl; [|exact Hl]. cbv beta. intros; congruence. Qed.

(* ---- the commands of a chain of caches that only touch the NDEF area, on a tag of n bytes: every write unit that
        holds a byte of the area behind the tag byte lies inside the tag ---- *)
Section Cmds.
Variable n : Z.
Hypothesis Hn : forall x, off < x -> ndef_area L x = true -> x / Z.of_nat u * Z.of_nat u + Z.of_nat u <= n.
Set Default Proof Using "GH Hn".

Lemma gen_cmds_ok cs : Forall (fun c => length c = length em) cs -> (forall f c, adjacent em cs f c -> touch f c) ->
  forall w, In w (chain_cmds u em cs) -> area_cmd L u n w.
Proof.
  intros Hl Ht w Hw. destruct (chain_cmds_in u cs em w Hw) as (f & c & Ha & Hi).
  destruct (adjacent_P (fun c => length c = length em) cs em f c Ha eq_refl Hl) as [Lf Lc].
  destruct w as [b dat]. unfold area_cmd. cbn [fst snd].
  destruct (sync_cmd_spec u ku f c b dat Hu ltac:(congruence) ltac:(congruence) Hi) as (H0 & Hmod & _ & Hd & _ & x & Hx & Hne).
  destruct (Ht f c Ha) as [_ Tg]. destruct (Tg x ltac:(lia) Hne) as [Hox Har].
  split; [exact H0|]. split; [exact Hmod|]. split; [|split; [exact Hd | exists x; auto]].
  rewrite <- (unit_start (Z.of_nat u) x b ltac:(clear - Hu; lia) Hmod Hx) at 1. apply Hn; assumption.
Qed.

Lemma chain_result phs cs : steps em phs cs -> Forall (fun c => length c = length em) cs ->
  (forall f c, adjacent em cs f c -> touch f c) ->
  run_phases u n em phs [] = (Ok tt, chain_cmds u em cs) /\
  (forall w, In w (chain_cmds u em cs) -> area_cmd L u n w) /\
  apply_ws em (chain_cmds u em cs) = last_cache em cs /\ touch em (last_cache em cs).
Proof.
  intros Hst Hlen Htouch. pose proof (gen_cmds_ok cs Hlen Htouch) as Hok.
  split; [|split; [exact Hok | split; [apply gen_apply, Hlen | apply touch_chain, Htouch]]].
  rewrite (run_phases_chain u n phs cs em [] Hst); [reflexivity|].
  intros w Hw. destruct (Hok w Hw) as (? & _ & ? & ? & _). lia.
Qed.

Lemma write_result phs d safe : caches_ok phs d safe -> exists cs cf,
  run_phases u n em phs [] = (Ok tt, chain_cmds u em cs) /\
  (forall w, In w (chain_cmds u em cs) -> area_cmd L u n w) /\
  apply_ws em (chain_cmds u em cs) = cf /\ touch em cf /\ READ cf = Ok (Some (set_val L d)) /\
  (safe -> forall j, let x := apply_ws em (firstn j (chain_cmds u em cs)) in x = em \/ hdr0 x \/ x = cf).
Proof.
  intros (cs & cf & Hst & Hlast & Hlen & Htouch & Hfin & Hmix).
  destruct (chain_result _ cs Hst Hlen Htouch) as (Hrun & Hok & Hv & Ht). rewrite Hlast in Hv, Ht.
  exists cs, cf. repeat (split; [assumption|]). intros Hs j. cbv zeta.
  destruct (gen_cut cs j Hlen) as [E|(f & c & Ha & Hm)].
  - right; right. rewrite E. exact Hlast.
  - exact (Hmix Hs f c _ Ha Hm).
Qed.
End Cmds.
End Generic.
Set Default Proof Using "Type".
