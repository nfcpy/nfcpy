(* C08, Type 2 / Type 1: the readers of Model/TagReadAny.v on ARBITRARY readable memory return no NDEF or an
   NDEF state whose octets were read from non-reserved addresses inside the data area and whose length does
   not exceed the capacity; never Crash, never Hang.  The demand-instrumented variants compute the same
   result, and the demand is bounded. *)
From Coq Require Import ZArith List Bool Lia ZifyBool.
From NV Require Import Base.Result Base.Bytes Model.TlvMem Model.T2T Model.T1T Model.TagReadAny Proofs.TlvLib.
Import ListNotations.
Open Scope Z_scope.
Ltac Zify.zify_post_hook ::= Z.to_euclidean_division_equations.

Lemma rd_byte em a x : bytes_ok em -> rd em a = Ok x -> 0 <= x < 256.
Proof.
  intros Hb H. apply rd_inv in H as [_ ->]. apply nth_byte_ok, Hb. Qed.
Lemma rd_cases em a : 0 <= a -> (exists x, rd em a = Ok x) \/ rd em a = tag_err /\ len em <= a.
Proof.
  intro H. destruct (Z.lt_ge_cases a (len em)); [left; rewrite rd_ok by lia; eauto | right; rewrite rd_beyond by lia; auto].
Qed.

Lemma cf_split skip a b c : a <= b <= c ->
  count_free skip a (Z.to_nat (c - a)) = count_free skip a (Z.to_nat (b - a)) + count_free skip b (Z.to_nat (c - b)).
Proof.
  intro H. replace (Z.to_nat (c - a)) with (Z.to_nat (b - a) + Z.to_nat (c - b))%nat by lia.
  rewrite count_free_app. f_equal. f_equal. lia.
Qed.

(* it ends behind the k-th free address from [a] on, or fails because the readable part has fewer: never a crash *)
Lemma read_val_outcome skip : forall suf a k,
  (exists v e, read_val skip a suf k = Ok (v, e) /\ a <= e /\ count_free skip a (Z.to_nat (e - a)) = Z.of_nat k) \/
  read_val skip a suf k = tag_err /\ count_free skip a (length suf) < Z.of_nat k.
Proof.
  induction suf as [|x suf IH]; intros a [|k].
  1, 3: left; exists [], a; rewrite Z.sub_diag; split; [reflexivity | split; [lia | reflexivity]].
  - right. cbn. split; [reflexivity | lia].
  - cbn [read_val length count_free]. destruct (in_skip skip a) eqn:Es.
    + destruct (IH (a + 1) (S k)) as [(v & e & -> & H1 & H2) | [-> H]]; [left; exists v, e | right; split; [reflexivity | lia]].
      replace (Z.to_nat (e - a)) with (S (Z.to_nat (e - (a + 1)))) by lia. cbn [count_free]. rewrite Es. split; [reflexivity | lia].
    + destruct (IH (a + 1) k) as [(v & e & -> & H1 & H2) | [-> H]]; [left; exists (x :: v), e | right; split; [reflexivity | lia]].
      replace (Z.to_nat (e - a)) with (S (Z.to_nat (e - (a + 1)))) by lia. cbn [count_free]. rewrite Es. split; [reflexivity | lia].
Qed.
Lemma read_val_bytes skip : forall suf a k v e, read_val skip a suf k = Ok (v, e) -> bytes_ok suf -> bytes_ok v.
Proof.
  induction suf as [|x suf IH]; intros a k v e H Hb.
  - destruct k; cbn in H; [|discriminate]. injection H as <- _. constructor.
  - destruct k as [|k]; [cbn in H; injection H as <- _; constructor|]. inversion Hb; subst.
    cbn [read_val] in H. destruct (in_skip skip a); [eapply IH; eauto|].
    destruct (read_val skip (a + 1) suf k) as [[v' e']| | |] eqn:E; cbn in H; try discriminate.
    injection H as <- _. constructor; [auto | eapply IH; eauto].
Qed.

Lemma read_tlv_d_eq em off skip :
  read_tlv_d em off skip = match read_tlv em off skip with Ok (_, _, _, e) => e | _ => len em + 1 end.
Proof.
  unfold read_tlv_d, read_tlv. destruct (rd em off) as [t| | |]; try reflexivity. cbn [bind].
  destruct ((t =? 0) || (t =? 254)); [reflexivity|].
  destruct (rd em (off + 1)) as [l0| | |]; try reflexivity. cbn [bind].
  destruct (l0 =? 255).
  - destruct (rd em (off + 2)) as [h| | |]; try reflexivity. destruct (rd em (off + 3)) as [lo| | |]; try reflexivity.
    cbn [bind fst snd]. destruct (read_val _ _ _ _) as [[v e]| | |] eqn:E; try reflexivity.
    apply read_val_bounds in E. cbn. lia.
  - cbn [bind fst snd]. destruct (read_val _ _ _ _) as [[v e]| | |] eqn:E; try reflexivity.
    apply read_val_bounds in E. cbn. lia.
Qed.

(* what read_tlv at [off] may end with on arbitrary bytes: never a crash.  The length is -1 or what the length field
   says; between [off] and the end - or the failing read - lie at most 4 + 65535 addresses that are not reserved *)
Definition tlv_outcome (em : list Z) (skip : ranges) (off : Z) (r : res (Z * Z * list Z * Z)) : Prop :=
  (exists t l v e, r = Ok (t, l, v, e) /\ -1 <= l /\ len v = Z.max l 0 /\ bytes_ok v /\
     off < e <= len em /\ count_free skip off (Z.to_nat (e - off)) <= 65539) \/
  r = tag_err /\ count_free skip off (Z.to_nat (len em + 1 - off)) <= 65539.
Lemma read_tlv_cases em off skip : bytes_ok em -> 0 <= off -> tlv_outcome em skip off (read_tlv em off skip).
Proof.
  intros Hb Ho. pose proof (count_free_bounds skip) as Hc.
  assert (Hfail : len em <= off + 3 -> tlv_outcome em skip off tag_err)
    by (right; split; [reflexivity | specialize (Hc (Z.to_nat (len em + 1 - off)) off); lia]).
  assert (Hval : forall t l voff, off + 2 <= voff <= off + 4 -> voff <= len em -> 0 <= l <= 65535 ->
    tlv_outcome em skip off (do v <- read_val skip voff (skipn (Z.to_nat voff) em) (Z.to_nat l); Ok (t, l, fst v, snd v))).
  { intros t l voff Hv Hlen Hl. pose proof (Hc (Z.to_nat (voff - off)) off).
    destruct (read_val_outcome skip (skipn (Z.to_nat voff) em) voff (Z.to_nat l)) as [(v & e & E & H1 & H2) | [E Hk]];
      rewrite E; [left; exists t, l, v, e | right]; (split; [reflexivity|]).
    - pose proof (read_val_bounds _ _ _ _ _ _ E) as (B1 & B2 & _). unfold len in *. rewrite skipn_length in B1.
      rewrite (cf_split skip off voff e) by lia. split; [lia|]. split; [lia|].
      split; [exact (read_val_bytes _ _ _ _ _ _ E (bytes_ok_skipn _ _ Hb)) | lia].
    - rewrite skipn_length in Hk. specialize (Hc (Z.to_nat (len em + 1 - len em)) (len em)).
      rewrite (cf_split skip off voff (len em + 1)), (cf_split skip voff (len em) (len em + 1)) by lia.
      replace (Z.to_nat (len em - voff)) with (length em - Z.to_nat voff)%nat by (unfold len; lia). lia. }
  unfold read_tlv.
  destruct (rd_cases em off Ho) as [[t E0] | [-> Hl]]; [|apply Hfail; lia].
  rewrite E0. cbn [bind]. apply rd_inv in E0 as [A0 _].
  destruct ((t =? 0) || (t =? 254)).
  { left. exists t, (-1), [], (off + 1). specialize (Hc (Z.to_nat (off + 1 - off)) off).
    split; [reflexivity|]. split; [lia|]. split; [reflexivity|]. split; [constructor | lia]. }
  destruct (rd_cases em (off + 1)) as [[l0 E1] | [-> Hl]]; [lia | | apply Hfail; lia].
  rewrite E1. cbn [bind]. pose proof (rd_byte _ _ _ Hb E1) as B1. apply rd_inv in E1 as [A1 _].
  destruct (l0 =? 255); [|cbn [bind fst snd]; apply Hval; lia].
  destruct (rd_cases em (off + 2)) as [[h E2] | [-> Hl]]; [lia | | apply Hfail; lia].
  rewrite E2. cbn [bind]. pose proof (rd_byte _ _ _ Hb E2) as B2.
  destruct (rd_cases em (off + 3)) as [[lo E3] | [-> Hl]]; [lia | | apply Hfail; lia].
  rewrite E3. cbn [bind fst snd]. pose proof (rd_byte _ _ _ Hb E3) as B3. apply rd_inv in E3 as [A3 _]. apply Hval; lia.
Qed.

(* what a TLV walk from [off] may end with on arbitrary memory: nothing, or an NDEF TLV at or behind [off];
   never Crash / Hang *)
Definition walk_ok (em : list Z) (off : Z) (r : res (option (Z * ranges * list Z * Z))) : Prop :=
  match r with
  | Ok None => True
  | Ok (Some (o, s, v, _)) => off <= o /\ exists l e, read_tlv em o s = Ok (3, l, v, e)
  | _ => False
  end.
Lemma walk_ok_le em off off' r : off <= off' -> walk_ok em off' r -> walk_ok em off r.
Proof. intro H. destruct r as [[[[[o s] v] h]|]| | |]; cbn; auto. intros [H1 H2]. split; [lia | exact H2]. Qed.

Lemma t2_walk_total : forall fuel em dend skip off inner hw, bytes_ok em -> 0 <= off ->
  walk_ok em off (t2_walk fuel em dend skip off inner hw).
Proof.
  induction fuel as [|f IH]; intros em dend skip off inner hw Hb Ho; [exact I|].
  cbn [t2_walk]. destruct (negb inner && (dend <=? off)); [exact I|].
  destruct (in_skip skip off); [refine (walk_ok_le _ _ _ _ _ (IH _ _ _ _ _ _ Hb _)); lia|].
  destruct (read_tlv_cases em off skip Hb Ho) as [(t & l & v & e & E & Hl & Hv & _) | [-> _]]; [|exact I].
  rewrite E. destruct (dispatch_total 1048576 skip t l v Hv : exists a, t2_dispatch skip t l v = Ok a) as [[skip'| |] D]; rewrite D.
  - refine (walk_ok_le _ _ _ _ _ (IH _ _ _ _ _ _ Hb _)); destruct (l <? 255); lia.
  - apply (dispatch_found 1048576) in D. subst t. split; [lia | eauto].
  - exact I.
Qed.
(* no Hang when the fuel exceeds the distance to the end of the data area *)
Lemma t1_walk_any_total : forall fuel em size skip off hw d, bytes_ok em -> 0 <= off ->
  (Z.to_nat (size - off) < fuel)%nat -> walk_ok em off (fst (t1_walk_any fuel em size skip off hw d)).
Proof.
  induction fuel as [|f IH]; intros em size skip off hw d Hb Ho Hf; [lia|].
  cbn [t1_walk_any]. destruct (size <=? off) eqn:Es; [exact I|].
  destruct (in_skip skip off); [refine (walk_ok_le _ _ _ _ _ (IH _ _ _ _ _ _ Hb _ _)); lia|].
  destruct (read_tlv_cases em off skip Hb Ho) as [(t & l & v & e & E & Hl & Hv & _) | [-> _]]; [|exact I].
  rewrite E. destruct (dispatch_total 2048 skip t l v Hv : exists a, t1_dispatch_any skip t l v = Ok a) as [[skip'| |] D]; rewrite D.
  - refine (walk_ok_le _ _ _ _ _ (IH _ _ _ _ _ _ Hb _ _)); destruct (l <? 255); lia.
  - apply (dispatch_found 2048) in D. subst t. split; [lia | eauto].
  - exact I.
Qed.

Lemma read_val_sound skip : forall suf a k v e, read_val skip a suf k = Ok (v, e) ->
  forall i, (i < k)%nat -> exists p, a <= p < e /\ in_skip skip p = false /\ nth_error v i = nth_error suf (Z.to_nat (p - a)).
Proof.
  induction suf as [|x suf IH]; intros a k v e H i Hi.
  - destruct k; [lia | discriminate].
  - destruct k as [|k]; [lia|]. cbn [read_val] in H. destruct (in_skip skip a) eqn:Es.
    + destruct (IH _ _ _ _ H i Hi) as (p & Hp & Hs & Hn). exists p. split; [lia|]. split; [exact Hs|].
      rewrite Hn. replace (Z.to_nat (p - a)) with (S (Z.to_nat (p - (a + 1)))) by lia. reflexivity.
    + destruct (read_val skip (a + 1) suf k) as [[v' e']| | |] eqn:E; cbn in H; try discriminate.
      injection H as <- <-. pose proof (read_val_bounds _ _ _ _ _ _ E) as [Hb _].
      destruct i as [|i].
      * exists a. split; [lia|]. split; [exact Es|]. rewrite Z.sub_diag. reflexivity.
      * destruct (IH _ _ _ _ E i ltac:(lia)) as (p & Hp & Hs & Hn). exists p. split; [lia|]. split; [exact Hs|].
        cbn [nth_error]. rewrite Hn. replace (Z.to_nat (p - a)) with (S (Z.to_nat (p - (a + 1)))) by lia. reflexivity.
Qed.

(* what the property demands of a reported NDEF state: tag, length field and value inside [first, dend),
   the value read from non-reserved addresses, not longer than the capacity *)
Definition tlv_sound (em : list Z) (first : Z) (L : layout) : Prop :=
  exists start e,
    first <= l_off L /\ l_off L + 2 <= start <= l_off L + 4 /\
    read_val (l_skip L) start (skipn (Z.to_nat start) em) (length (l_val L)) = Ok (l_val L, e) /\
    start <= e <= l_dend L /\ len (l_val L) <= l_cap L.

Lemma nth_error_skipn' {A} (l : list A) : forall n i, nth_error (skipn n l) i = nth_error l (n + i).
Proof. induction l as [|x l IH]; intros [|n] i; cbn; auto. destruct i; reflexivity. Qed.
Lemma tlv_sound_octets em first L : 0 <= first -> tlv_sound em first L ->
  forall i, (i < length (l_val L))%nat ->
  exists p, first + 2 <= p < l_dend L /\ in_skip (l_skip L) p = false /\ nth_error (l_val L) i = nth_error em (Z.to_nat p).
Proof.
  intros H0 (start & e & Hf & Hs & Hr & He & _) i Hi.
  destruct (read_val_sound _ _ _ _ _ _ Hr i Hi) as (p & Hp & Hk & Hn). exists p. split; [lia|]. split; [exact Hk|].
  rewrite Hn, nth_error_skipn'. f_equal. lia.
Qed.

Lemma hdr_size_eq em off l0 : rd em (off + 1) = Ok l0 -> hdr_size em off = if l0 =? 255 then 4 else 2.
Proof. exact (ndef_hdr_eq em off l0). Qed.
(* the last step of both readers: the NDEF TLV the walk found is reported only when it fits, and then it is sound *)
Lemma fits_safe em first bound L l e : first <= l_off L ->
  read_tlv em (l_off L) (l_skip L) = Ok (3, l, l_val L, e) -> l_dend L <= bound ->
  let r := if tlv_fits em L then Ok (Some L) else Ok None in
  r = Ok None \/ exists L', r = Ok (Some L') /\ tlv_sound em first L' /\ l_dend L' <= bound.
Proof.
  intros Hf Hr Hd. cbv zeta. destruct (tlv_fits em L) eqn:Hfit; [right | left; reflexivity].
  exists L. split; [reflexivity|]. split; [|exact Hd].
  apply read_tlv_inv in Hr as (_ & _ & [[C | C] | (_ & _ & l0 & voff & E1 & Hl & Erv & _)]); try lia.
  unfold tlv_fits in Hfit. rewrite (hdr_size_eq _ _ _ E1) in Hfit.
  replace (l_off L + (if l0 =? 255 then 4 else 2)) with voff in Hfit by (destruct (Z.eqb_spec l0 255); lia).
  apply andb_true_iff in Hfit as [Hfit Hcap]. apply andb_true_iff in Hfit as [Hs Hc].
  pose proof (read_val_bounds _ _ _ _ _ _ Erv) as (Hb1 & Hlen & _).
  pose proof (read_val_fits _ _ _ _ _ _ (Z.to_nat (l_dend L - voff)) Erv) as F.
  exists voff, e. rewrite Hlen. unfold len in *. repeat split; try assumption; lia.
Qed.

Theorem t2_read_safe em : bytes_ok em ->
  t2_read_any em = Ok None \/
  exists L, t2_read_any em = Ok (Some L) /\ tlv_sound em 16 L /\ l_dend L <= 2056.
Proof.
  intro Hb. unfold t2_read_any, t2_read.
  destruct (rd em 12) as [b12| | |]; auto. destruct (rd em 13) as [b13| | |]; auto.
  destruct (rd em 14) as [b14| | |] eqn:E14; auto. destruct (rd em 15) as [b15| | |]; auto.
  destruct (negb _); auto. destruct (negb _); auto.
  pose proof (t2_walk_total (S (length em)) em (b14 * 8 + 16) [] 16 false 16 Hb ltac:(lia)) as W.
  destruct (t2_walk _ _ _ _ _ _ _) as [[[[[o s] v] h]|]| | |]; try contradiction; [|auto].
  destruct W as (Ho & l & e & R). cbn [bind].
  apply fits_safe with (l := l) (e := e); [exact Ho | exact R | pose proof (rd_byte _ _ _ Hb E14); cbn; lia].
Qed.

(* the repaired reader changes nothing on a tag whose NDEF TLV fits (in particular on every layout C01-C03 are about) *)
Theorem t2_read_any_conservative em L : t2_read em = Ok (Some L) -> tlv_fits em L = true -> t2_read_any em = t2_read em.
Proof. intros H F. unfold t2_read_any. rewrite H, F. reflexivity. Qed.
(* ... and before the repair the reader reported NDEF TLVs that run past the data area: a 48 byte data area
   (16..64) on a 96 byte tag, NDEF TLV of 60 bytes: length 60 > capacity 46 *)
Definition ex_t2_overrun : list Z :=
  [4; 1; 2; 143; 4; 5; 6; 7; 0; 72; 0; 0; 225; 16; 6; 0; 3; 60] ++ repeat 170 60 ++ repeat 0 18.
Lemma t2_read_overrun_refuted :
  (exists L, t2_read ex_t2_overrun = Ok (Some L) /\ len (l_val L) = 60 /\ l_cap L = 46 /\ l_dend L = 64) /\
  t2_read_any ex_t2_overrun = Ok None.
Proof. split; [eexists; split; [vm_compute; reflexivity | repeat split] | vm_compute; reflexivity]. Qed.

Lemma t2_walk_beyond : forall fuel em dend skip off inner hw, len em <= off ->
  t2_walk fuel em dend skip off inner hw = Ok None.
Proof.
  induction fuel as [|f IH]; intros em dend skip off inner hw H; [reflexivity|].
  cbn [t2_walk]. destruct (negb inner && (dend <=? off)); [reflexivity|].
  destruct (in_skip skip off); [apply IH; lia|].
  unfold read_tlv. rewrite rd_beyond by lia. reflexivity.
Qed.
Lemma t2_walk_d_fst : forall fuel em dend skip off inner hw d,
  fst (t2_walk_d fuel em dend skip off inner hw d) = t2_walk fuel em dend skip off inner hw.
Proof.
  induction fuel as [|f IH]; intros em dend skip off inner hw d; [reflexivity|].
  cbn [t2_walk_d]. destruct (len em <=? off) eqn:E.
  { cbn [fst]. symmetry. apply t2_walk_beyond. lia. }
  cbn [t2_walk]. destruct (negb inner && (dend <=? off)); [reflexivity|].
  destruct (in_skip skip off); [apply IH|].
  destruct (read_tlv em off skip) as [[[[t l] v] e]| | |]; try reflexivity.
  destruct (t2_dispatch skip t l v) as [[skip'| |]| | |]; try reflexivity. apply IH.
Qed.
Theorem t2_read_d_fst em : fst (t2_read_d em) = t2_read_any em.
Proof.
  unfold t2_read_d, t2_read_any, t2_read.
  destruct (rd em 12) as [b12| | |]; try reflexivity. destruct (rd em 13) as [b13| | |]; try reflexivity.
  destruct (rd em 14) as [b14| | |]; try reflexivity. destruct (rd em 15) as [b15| | |]; try reflexivity.
  destruct (negb (b12 =? 225)); [reflexivity|]. destruct (negb (Z.shiftr b13 4 =? 1)); [reflexivity|].
  pose proof (t2_walk_d_fst (S (length em)) em (b14 * 8 + 16) [] 16 false 16 16) as W.
  destruct (t2_walk_d (S (length em)) em (b14 * 8 + 16) [] 16 false 16 16) as [r d]. cbn [fst] in W. rewrite <- W.
  destruct r as [[[[[off skip] v] hw]|]| | |]; reflexivity.
Qed.

(* the demand of the reader: [len em + 1] when the capability container cannot be read, 13 or 14 when it is not
   that of an NDEF tag, else that of the walk *)
Lemma t2_read_d_snd em :
  len em < 16 /\ snd (t2_read_d em) = len em + 1 \/ snd (t2_read_d em) = 13 \/ snd (t2_read_d em) = 14 \/
  exists b14, rd em 14 = Ok b14 /\ 16 <= len em /\
    snd (t2_read_d em) = snd (t2_walk_d (S (length em)) em (b14 * 8 + 16) [] 16 false 16 16).
Proof.
  unfold t2_read_d. destruct (Z.lt_ge_cases (len em) 16) as [H | H].
  - left. split; [exact H|]. rewrite (rd_beyond em 15) by lia.
    destruct (rd em 12); try reflexivity. destruct (rd em 13); try reflexivity. destruct (rd em 14); reflexivity.
  - right. rewrite (rd_ok em 12), (rd_ok em 13), (rd_ok em 14), (rd_ok em 15) by lia.
    destruct (negb _); [auto|]. destruct (negb _); [auto|].
    right. right. exists (get em 14). split; [reflexivity|]. split; [exact H|].
    destruct (t2_walk_d _ _ _ _ _ _ _ _) as [[[[[[o s] v] h]|]| | |] d]; reflexivity.
Qed.

(* the demand never exceeds what can be loaded by more than the one failing read *)
Lemma t2_walk_d_le : forall fuel em dend skip off inner hw d, 0 <= off -> bytes_ok em -> d <= len em + 1 ->
  snd (t2_walk_d fuel em dend skip off inner hw d) <= len em + 1.
Proof.
  induction fuel as [|f IH]; intros em dend skip off inner hw d Ho Hb Hd; [exact Hd|].
  cbn [t2_walk_d]. destruct (len em <=? off); [cbn [snd]; destruct (inner || (off <? dend)); lia|].
  destruct (negb inner && (dend <=? off)); [exact Hd|].
  destruct (in_skip skip off); [apply IH; auto; lia|].
  rewrite read_tlv_d_eq.
  destruct (read_tlv_cases em off skip Hb Ho) as [(t & l & v & e & -> & Hl & _ & _ & He & _) | [-> _]]; [|cbn; lia].
  destruct (t2_dispatch skip t l v) as [[skip'| |]| | |]; cbn [snd]; try lia.
  apply IH; auto; destruct (l <? 255); lia.
Qed.
Theorem t2_demand_le em : bytes_ok em -> snd (t2_read_d em) <= Z.max (len em + 1) 14.
Proof.
  intro Hb. destruct (t2_read_d_snd em) as [[_ ->] | [-> | [-> | (b14 & _ & H & ->)]]]; try lia.
  pose proof (t2_walk_d_le (S (length em)) em (b14 * 8 + 16) [] 16 false 16 16 ltac:(lia) Hb ltac:(lia)). lia.
Qed.

(* on ANY image (RALL data of any length followed by whatever READ8 / RSEG delivered) *)
Theorem t1_read_img_safe hr0 m : bytes_ok m ->
  fst (t1_read_img hr0 m) = Ok None \/
  exists L, fst (t1_read_img hr0 m) = Ok (Some L) /\ tlv_sound m 12 L /\ l_dend L <= 2048.
Proof.
  intro Hb. unfold t1_read_img. destruct (negb _); [left; reflexivity|].
  destruct (rd m 8) as [b8| | |]; try (left; reflexivity). destruct (negb (b8 =? 225)); [left; reflexivity|].
  destruct (rd m 9) as [b9| | |]; try (left; reflexivity). destruct (negb (Z.shiftr b9 4 =? 1)); [left; reflexivity|].
  destruct (rd m 11) as [b11| | |]; try (left; reflexivity).
  destruct (rd m 10) as [b10| | |] eqn:E10; try (left; reflexivity).
  pose proof (rd_byte _ _ _ Hb E10) as B10.
  set (size := (b10 + 1) * 8). set (skip0 := [(104, if size =? 120 then 120 else 128)]).
  pose proof (t1_walk_any_total (S (Z.to_nat size)) m size skip0 12 12 12 Hb ltac:(lia) ltac:(lia)) as W.
  destruct (t1_walk_any _ _ _ _ _ _ _) as [[[[[[o s] v] h]|]| | |] d]; try contradiction; [|left; reflexivity].
  destruct W as (Ho & l & e & R). cbn [fst].
  apply fits_safe with (l := l) (e := e); [exact Ho | exact R | unfold size; cbn; lia].
Qed.
(* the reader sees the first 2048 bytes only; the numeral stays folded *)
Theorem t1_read_safe hr0 em : bytes_ok em ->
  t1_read_any hr0 em = Ok None \/
  exists L, t1_read_any hr0 em = Ok (Some L) /\ tlv_sound (firstn 2048 em) 12 L /\ l_dend L <= 2048.
Proof.
  intro Hb. apply (bytes_ok_firstn 2048) in Hb. revert Hb. unfold t1_read_any, t1_read_d. cbv zeta.
  generalize (firstn 2048 em). intros l Hb. destruct (len l <? 120); [left; reflexivity | apply t1_read_img_safe, Hb].
Qed.

(* the demand of the Type 1 reader: never beyond the 2048 addressable bytes (plus the failing read) *)
Lemma t1_walk_any_le : forall fuel em size skip off hw d, 0 <= off -> bytes_ok em -> d <= len em + 1 ->
  snd (t1_walk_any fuel em size skip off hw d) <= len em + 1.
Proof.
  induction fuel as [|f IH]; intros em size skip off hw d Ho Hb Hd; [exact Hd|].
  cbn [t1_walk_any]. destruct (size <=? off); [exact Hd|].
  destruct (in_skip skip off); [apply IH; auto; lia|].
  rewrite read_tlv_d_eq.
  destruct (read_tlv_cases em off skip Hb Ho) as [(t & l & v & e & -> & Hl & _ & _ & He & _) | [-> _]]; [|cbn; lia].
  destruct (t1_dispatch_any skip t l v) as [[skip'| |]| | |]; cbn [snd]; try lia.
  apply IH; auto; destruct (l <? 255); lia.
Qed.
Theorem t1_img_demand_le hr0 m : bytes_ok m -> snd (t1_read_img hr0 m) <= Z.max (len m + 1) 12.
Proof.
  intro Hb. unfold t1_read_img. destruct (negb _); [cbn; lia|].
  destruct (rd m 8) as [b8| | |]; cbn [snd]; try lia. destruct (negb (b8 =? 225)); [cbn; lia|].
  destruct (rd m 9) as [b9| | |]; cbn [snd]; try lia. destruct (negb (Z.shiftr b9 4 =? 1)); [cbn; lia|].
  destruct (rd m 11) as [b11| | |] eqn:E11; cbn [snd]; try lia. apply rd_inv in E11 as [H11 _].
  destruct (rd m 10) as [b10| | |]; cbn [snd]; try lia.
  set (size := (b10 + 1) * 8). set (skip0 := [(104, if size =? 120 then 120 else 128)]).
  pose proof (t1_walk_any_le (S (Z.to_nat size)) m size skip0 12 12 12 ltac:(lia) Hb ltac:(lia)) as W.
  destruct (t1_walk_any (S (Z.to_nat size)) m size skip0 12 12 12) as [r d]. cbn [snd] in W.
  destruct r as [[[[[off skip] v] hw]|]| | |]; cbn [snd]; lia.
Qed.
Theorem t1_demand_le hr0 em : bytes_ok em -> snd (t1_read_d hr0 em) <= 2049.
Proof.
  intro Hb. apply (bytes_ok_firstn 2048) in Hb.
  assert (Hl : len (firstn 2048 em) <= 2048) by (unfold len; rewrite firstn_length; lia).
  revert Hb Hl. unfold t1_read_d. cbv zeta. generalize (firstn 2048 em). intros l Hb Hl.
  destruct (len l <? 120); [cbn; lia|]. pose proof (t1_img_demand_le hr0 l Hb). lia.
Qed.
(* at most RALL, READ8 and 15 RSEG commands, the last one sent three times *)
Theorem t1_read_cmds hr0 em : bytes_ok em -> t1_cmds_max (snd (t1_read_d hr0 em)) <= 20.
Proof.
  intro Hb. pose proof (t1_demand_le hr0 em Hb) as H. unfold t1_cmds_max.
  destruct (120 <? _), (128 <? _); lia.
Qed.

(* the reader as it was (Model/T1T.v): errors and crashes leave the TLV walk, values run past the data area *)
Definition ex_t1_short_lock : list Z := [1; 2; 3; 4; 5; 6; 7; 0; 225; 16; 14; 0; 1; 0; 3; 0] ++ repeat 0 104.
Definition ex_t1_beyond : list Z := [1; 2; 3; 4; 5; 6; 7; 0; 225; 16; 14; 0; 3; 200] ++ repeat 0 106.
Definition ex_t1_overrun : list Z := [1; 2; 3; 4; 5; 6; 7; 0; 225; 16; 31; 0; 3; 255; 1; 0] ++ repeat 7 496.
Lemma t1_read_legacy_refuted :
  t1_read 17 ex_t1_short_lock = Crash IndexErr /\ (exists L, t1_read_any 17 ex_t1_short_lock = Ok (Some L) /\ l_val L = []) /\
  t1_read 17 ex_t1_beyond = Err (TagCommandError 0) /\ t1_read_any 17 ex_t1_beyond = Ok None /\
  (exists L, t1_read 18 ex_t1_overrun = Ok (Some L) /\ len (l_val L) = 256 /\ l_cap L = 218) /\
  t1_read_any 18 ex_t1_overrun = Ok None.
Proof.
  split; [vm_compute; reflexivity|]. split; [eexists; split; vm_compute; reflexivity|].
  split; [vm_compute; reflexivity|]. split; [vm_compute; reflexivity|].
  split; [eexists; split; [vm_compute; reflexivity | split; reflexivity] | vm_compute; reflexivity].
Qed.
