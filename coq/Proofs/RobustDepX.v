(* C07: the NFC-DEP exchange layer is total against an ARBITRARY peer: for every payload, configuration and answer stream
   Initiator.exchange / Target.exchange (Model/DepAny.v) return a result or one of the documented errors - never Crash,
   never Hang - and hand at most (answers left + 3) frames to the frontend. *)
From Coq Require Import ZArith List Bool Lia ZifyBool.
From NV Require Import Base.Result Base.Bytes Model.DepDecode Proofs.RobustDep Model.DepAny.
Import ListNotations.
Open Scope Z_scope.

Definition A (s : st) : nat := length (ans s).
Definition Sn (s : st) : nat := length (sent s).

Definition good {T} (r : res T) : Prop :=
  match r with Ok _ | Err TimeoutError | Err TransmissionError | Err ProtocolError => True | _ => False end.
Definition okb {T} (r : res T) : bool := match r with Ok _ => true | _ => false end.

(* what a piece of the machine started in state s does: the result is documented; answers are only consumed; a successful
   result has consumed at least one answer (strict); frames are handed to the frontend one per consumed answer, plus at most k
   more, and those only when the answers are used up and the piece fails *)
Definition spec {T} (strict : bool) (k : nat) (s : st) (p : M T) : Prop :=
  good (fst p) /\ (A (snd p) <= A s)%nat /\
  (strict = true -> okb (fst p) = true -> (A (snd p) < A s)%nat) /\
  (Sn (snd p) + A (snd p) <= Sn s + A s + (if okb (fst p) then 0 else if (A (snd p) =? 0)%nat then k else 0))%nat.

Definition cfg_ok (c : cfg) : Prop := 0 < cmiu c /\ cmiu c + len (optl (cdid c)) + len (optl (cnad c)) <= 251.

(* the two facts the loops take from a piece that has run: it consumed nothing it did not have; a strict success consumed *)
Lemma spec_le {T} b k s (r : res T) s1 : spec b k s (r, s1) -> (A s1 <= A s)%nat.
Proof. intros (_ & H & _). exact H. Qed.
Lemma spec_lt {T} k s (a : T) s1 : spec true k s (Ok a, s1) -> (A s1 < A s)%nat.
Proof. intros (_ & _ & H & _). apply H; reflexivity. Qed.

Lemma xchg_spec c s fr t : spec true 1 s (xchg c s fr t).
Proof.
  unfold xchg, spec, A, Sn. destruct s as [n a snt]. cbn [ans sent now].
  destruct a as [|[|d|f] r]; try destruct ((0 <? d) && (d <=? t));
    cbn [fst snd ans sent good okb length Nat.eqb]; rewrite ?app_length; cbn [length];
    repeat split; try exact I; try lia; try discriminate.
Qed.

Lemma enc_ok req c fmt pni data : cfg_ok c -> len data <= cmiu c -> exists fr, enc_dep req c (cdid c) (cnad c) fmt pni data = Ok fr.
Proof.
  intros [H0 H1] Hd. unfold enc_dep.
  set (body := (if req then [212; 6] else [213; 7]) ++ _).
  assert (Hb : len body = 3 + len (optl (cdid c)) + len (optl (cnad c)) + len data).
  { unfold body. destruct req; rewrite !len_app, !len_cons, (@len_nil Z); lia. }
  replace (255 <? len body + 1) with false by lia. eexists. reflexivity.
Qed.

(* sequencing: a failed first piece followed by a second piece that starts where the first one stopped *)
Lemma after_err {T U} k1 k2 s (r1 : res T) s1 (p2 : M U) :
  spec true k1 s (r1, s1) -> okb r1 = false -> spec true k2 s1 p2 -> spec true (k1 + k2) s p2.
Proof.
  intros (_ & H2 & _ & H4) Hn (G1 & G2 & G3 & G4). cbn [fst snd] in *. rewrite Hn in H4.
  split; [exact G1|]. split; [lia|]. split; [intros Hb Ho; specialize (G3 Hb Ho); lia|].
  destruct (okb (fst p2)); [specialize (G3 eq_refl eq_refl)|];
    destruct (Nat.eqb_spec (A s1) 0); destruct (Nat.eqb_spec (A (snd p2)) 0); lia.
Qed.

(* a piece that accounts exactly for what it consumed, followed by another piece *)
Lemma after_exact {U} b k s s1 (p2 : M U) :
  (A s1 <= A s)%nat -> (Sn s1 + A s1 <= Sn s + A s)%nat -> spec b k s1 p2 -> spec b k s p2.
Proof.
  intros H2 H4 (G1 & G2 & G3 & G4).
  split; [exact G1|]. split; [lia|]. split; [intros Hb Hq; specialize (G3 Hb Hq); lia|].
  destruct (okb (fst p2)); destruct (Nat.eqb_spec (A (snd p2)) 0); lia.
Qed.
(* a piece that succeeded, or stopped with answers left, has accounted exactly *)
Lemma spec_exact {T} b k s (r : res T) s1 : spec b k s (r, s1) -> okb r = true \/ (0 < A s1)%nat ->
  (A s1 <= A s)%nat /\ (Sn s1 + A s1 <= Sn s + A s)%nat.
Proof.
  intros (_ & H2 & _ & H4) H. cbn [fst snd] in *. split; [exact H2|].
  destruct (okb r); [lia|]. destruct H as [H|H]; [discriminate|]. destruct (Nat.eqb_spec (A s1) 0); lia.
Qed.
Lemma after_live {T U} b1 b k1 k2 s (r1 : res T) s1 (p2 : M U) :
  spec b1 k1 s (r1, s1) -> okb r1 = true \/ (0 < A s1)%nat -> spec b k2 s1 p2 -> spec b k2 s p2.
Proof. intros H1 Hl. destruct (spec_exact _ _ _ _ _ H1 Hl). apply after_exact; assumption. Qed.
(* ... and after a successful strict piece the whole is strict *)
Lemma after_ok {T U} b k1 k2 s (r1 : res T) s1 (p2 : M U) :
  spec true k1 s (r1, s1) -> okb r1 = true -> spec b k2 s1 p2 -> spec true k2 s p2.
Proof.
  intros H1 Ho H2. destruct r1 as [a| | |]; try discriminate Ho.
  pose proof (spec_lt _ _ _ _ H1) as Hlt. pose proof (proj1 (proj2 H2)) as Hle.
  destruct (after_live _ _ _ _ _ _ _ _ H1 (or_introl Ho) H2) as (G1 & G2 & _ & G4).
  repeat split; try assumption. intros _ _. lia.
Qed.
Lemma spec_any {T} b k s (p : M T) : spec true k s p -> spec b k s p.
Proof. intros (H1 & H2 & H3 & H4). repeat split; try assumption. intros _. apply H3. reflexivity. Qed.
Lemma spec_k {T} b k k' s (p : M T) : (k <= k')%nat -> spec b k s p -> spec b k' s p.
Proof.
  intros Hk (H1 & H2 & H3 & H4). repeat split; try assumption.
  destruct (okb (fst p)); [exact H4|]. destruct (Nat.eqb_spec (A (snd p)) 0); lia.
Qed.
Lemma spec_weaken {T} b k k' s (p : M T) : (k <= k')%nat -> spec b k s p -> spec false k' s p.
Proof. intros Hk H. apply (spec_k _ k); [exact Hk|]. destruct b; [apply spec_any|]; exact H. Qed.
(* a result replaced by a documented error, the state kept *)
Lemma spec_err {T U} b b' k s (r : res T) s1 (e : err) : spec b k s (r, s1) -> good (@Err U e) -> spec b' k s (@Err U e, s1).
Proof.
  intros (_ & H2 & _ & H4) Hg. cbn [fst snd] in *. repeat split; cbn [fst snd okb]; try assumption; try discriminate.
  destruct (okb r); destruct (Nat.eqb_spec (A s1) 0); lia.
Qed.
Lemma spec_here {T} b k s (e : err) : good (@Err T e) -> spec b k s (@Err T e, s).
Proof. intro Hg. repeat split; cbn [fst snd okb]; try assumption; try discriminate; try lia; try (destruct (Nat.eqb_spec (A s) 0); lia). Qed.

Lemma spec_ok {T U} b k k' s (a : T) (a' : U) s1 : spec b k s (Ok a, s1) -> spec b k' s (Ok a', s1).
Proof. intros (_ & H2 & H3 & H4). repeat split; cbn [fst snd okb good] in *; try assumption; exact I. Qed.
Lemma spec_ret {T} k s (a : T) : spec false k s (Ok a, s).
Proof. repeat split; cbn [fst snd okb good]; try exact I; try lia; discriminate. Qed.
Lemma spec_bad {T U} b k s (r : res T) s1 (p : M U) : spec b k s (r, s1) -> ~ good r -> spec b k s p.
Proof. intros (H & _) Hn. cbn [fst] in H. contradiction. Qed.
Lemma nil_le_miu c : cfg_ok c -> len (@nil Z) <= cmiu c.
Proof. intros [H _]. unfold len. cbn [length]. lia. Qed.

Ltac absurd_spec H := exfalso; exact (proj1 H).

Lemma i_srr_spec c s fmt pni data t : cfg_ok c -> len data <= cmiu c -> spec true 1 s (i_srr c s fmt pni data t).
Proof.
  intros Hc Hd. unfold i_srr. destruct (enc_ok true c fmt pni data Hc Hd) as [fr ->].
  pose proof (xchg_spec c s (Some fr) t) as Hx. destruct (xchg c s (Some fr) t) as [r s'].
  destruct r as [rsp|e|x|]; try exact Hx.
  destruct (dep_decode_total Ini (c106 c) rsp) as [[p ->] | [-> | ->]].
  - (* a DEP_RES is handed on, any other PDU is a ProtocolError *)
    destruct p; try destruct req; first [eapply spec_ok; exact Hx | eapply spec_err; [exact Hx | exact I]].
  - eapply spec_err; [exact Hx | exact I].
  - eapply spec_err; [exact Hx | exact I].
Qed.

Lemma i_attention_spec n : forall c s rwt dl, cfg_ok c -> spec true n s (i_attention n c s rwt dl).
Proof.
  induction n as [|n IH]; intros c s rwt dl Hc; cbn [i_attention]; [apply spec_here; exact I|].
  destruct (tmo s rwt dl <=? 0); [apply spec_here; exact I|].
  pose proof (i_srr_spec c s 8 0 [] (tmo s rwt dl) Hc (nil_le_miu c Hc)) as Hx.
  destruct (i_srr c s 8 0 [] (tmo s rwt dl)) as [r s'].
  destruct r as [res|e|x|].
  - destruct (rfmt res =? 9); [eapply spec_err; [eapply spec_k; [|exact Hx]; lia | exact I]|].
    destruct (negb (rfmt res =? 8)); [eapply spec_err; [eapply spec_k; [|exact Hx]; lia | exact I]|].
    eapply spec_ok; exact Hx.
  - change (S n) with (1 + n)%nat. eapply after_err; [exact Hx | reflexivity | apply IH, Hc].
  - absurd_spec Hx.
  - absurd_spec Hx.
Qed.

Lemma i_retrans_spec n : forall c s pni rwt dl ch, cfg_ok c -> spec true n s (i_retrans n c s pni rwt dl ch).
Proof.
  induction n as [|n IH]; intros c s pni rwt dl ch Hc; cbn [i_retrans]; [apply spec_here; exact I|].
  destruct (tmo s rwt dl <=? 0); [apply spec_here; exact I|].
  pose proof (i_srr_spec c s 5 pni [] (tmo s rwt dl) Hc (nil_le_miu c Hc)) as Hx.
  destruct (i_srr c s 5 pni [] (tmo s rwt dl)) as [r s'].
  destruct r as [res|e|x|].
  - destruct (rfmt res =? 9); [eapply spec_err; [eapply spec_k; [|exact Hx]; lia | exact I]|].
    destruct ((rfmt res =? 0) || (rfmt res =? 1) || (ch && (rfmt res =? 4))).
    + eapply spec_k; [|exact Hx]. lia.
    + eapply spec_err; [eapply spec_k; [|exact Hx]; lia | exact I].
  - change (S n) with (1 + n)%nat. eapply after_err; [exact Hx | reflexivity | apply IH, Hc].
  - absurd_spec Hx.
  - absurd_spec Hx.
Qed.

Lemma i_sdr_loop_spec fuel : forall c s spni fmt pni data rwt dl, cfg_ok c -> len data <= cmiu c -> (A s < fuel)%nat ->
  spec true 3 s (i_sdr_loop fuel c s spni fmt pni data rwt dl).
Proof.
  induction fuel as [|f IH]; intros c s spni fmt pni data rwt dl Hc Hd Hf; [lia|]. cbn [i_sdr_loop].
  destruct (tmo s rwt dl <=? 0); [apply spec_here; exact I|].
  pose proof (i_srr_spec c s fmt pni data (tmo s rwt dl) Hc Hd) as Hx.
  destruct (i_srr c s fmt pni data (tmo s rwt dl)) as [r s1].
  destruct r as [res|e|x|]; [eapply spec_k; [|exact Hx]; lia | | absurd_spec Hx | absurd_spec Hx].
  pose proof (spec_le _ _ _ _ _ Hx) as Hs1.
  destruct e; try (eapply spec_k; [|exact Hx]; lia).
  - (* TransmissionError: retransmission request *)
    change 3%nat with (1 + 2)%nat. eapply after_err; [exact Hx | reflexivity | apply i_retrans_spec, Hc].
  - (* TimeoutError: attention, then once more *)
    pose proof (i_attention_spec 2 c s1 rwt dl Hc) as Ha. destruct (i_attention 2 c s1 rwt dl) as [a s2].
    destruct a as [u|e|x|]; [| | absurd_spec Ha | absurd_spec Ha].
    + pose proof (spec_lt _ _ _ _ Ha) as Hl.
      eapply after_live; [exact Hx | right; lia |].
      eapply after_ok; [exact Ha | reflexivity | apply IH; [exact Hc | exact Hd | lia]].
    + eapply spec_err; [|destruct Ha as (G & _); exact G].
      change 3%nat with (1 + 2)%nat. eapply after_err; [exact Hx | reflexivity | exact Ha].
Qed.

Lemma i_sdr_spec fuel c s spni fmt pni data rwt timeout : cfg_ok c -> len data <= cmiu c -> (A s < fuel)%nat ->
  spec true 3 s (i_sdr fuel c s spni fmt pni data rwt timeout).
Proof.
  intros Hc Hd Hf. unfold i_sdr. pose proof (i_sdr_loop_spec fuel c s spni fmt pni data rwt (now s + timeout) Hc Hd Hf) as H.
  destruct (i_sdr_loop fuel c s spni fmt pni data rwt (now s + timeout)) as [r s'].
  destruct r as [res| | |]; try exact H. destruct (rfmt res =? 5); [eapply spec_err; [exact H | exact I] | exact H].
Qed.

Lemma one_le_miu c : cfg_ok c -> len [0] <= cmiu c.
Proof. intros [H _]. change (len [0]) with 1. lia. Qed.

Lemma i_rtox_rounds_spec k : forall fuel c s spni res0 timeout, cfg_ok c -> corig c = false -> (A s < fuel)%nat ->
  spec true 3 s (i_rtox_rounds k fuel c s spni res0 timeout).
Proof.
  induction k as [|k IH]; intros fuel c s spni res0 timeout Hc Ho Hf; cbn [i_rtox_rounds]; [apply spec_here; exact I|].
  unfold rtox_of. rewrite Ho. destruct (rtox_total (rdata res0)) as [(v & -> & _) | ->]; [|apply spec_here; exact I].
  pose proof (i_sdr_spec fuel c s spni 9 0 [v] (v * crwt c) timeout Hc ltac:(destruct Hc; change (len [v]) with 1; lia) Hf) as H.
  destruct (i_sdr fuel c s spni 9 0 [v] (v * crwt c) timeout) as [r s'].
  destruct r as [res1| | |]; try exact H.
  destruct (rfmt res1 =? 9); [|exact H].
  pose proof (spec_lt _ _ _ _ H) as Hl.
  eapply after_ok; [exact H | reflexivity | apply IH; [exact Hc | exact Ho | lia]].
Qed.

Lemma i_after_rtox_spec fuel c s spni res0 timeout : cfg_ok c -> corig c = false -> (A s < fuel)%nat ->
  spec false 3 s (i_after_rtox fuel c s spni res0 timeout).
Proof.
  intros Hc Ho Hf. unfold i_after_rtox. destruct (rfmt res0 =? 9); [|apply spec_ret].
  eapply spec_weaken; [|apply i_rtox_rounds_spec; assumption]. lia.
Qed.


(* one information / acknowledge step: send_dep_req_recv_dep_res followed by the RTOX rounds *)
Lemma i_step_spec fuel c s spni fmt pni data timeout : cfg_ok c -> corig c = false -> len data <= cmiu c -> (A s < fuel)%nat ->
  forall r1 s1, i_sdr fuel c s spni fmt pni data (crwt c) timeout = (r1, s1) ->
  match r1 with
  | Ok res1 => spec true 3 s (i_after_rtox fuel c s1 spni res1 timeout) /\ (A s1 < A s)%nat
  | _ => spec true 3 s (r1, s1)
  end.
Proof.
  intros Hc Ho Hd Hf r1 s1 E. pose proof (i_sdr_spec fuel c s spni fmt pni data (crwt c) timeout Hc Hd Hf) as H. rewrite E in H.
  destruct r1 as [res1| | |]; try exact H.
  pose proof (spec_lt _ _ _ _ H) as Hl.
  split; [|exact Hl]. eapply after_ok; [exact H | reflexivity | apply i_after_rtox_spec; [exact Hc | exact Ho | lia]].
Qed.

Lemma i_send_loop_spec fuel' : forall fuel c s pni data timeout, cfg_ok c -> corig c = false -> (A s < fuel')%nat -> (A s < fuel)%nat ->
  spec true 3 s (i_send_loop fuel' fuel c s pni data timeout).
Proof.
  induction fuel' as [|f IH]; intros fuel c s pni data timeout Hc Ho Hf' Hf; [lia|]. cbn [i_send_loop].
  set (more := nonempty (drop (cmiu c) data)).
  pose proof (i_step_spec fuel c s pni (if more then 1 else 0) pni (take (cmiu c) data) timeout Hc Ho
                (len_take_le _ _ (Z.lt_le_incl _ _ (proj1 Hc))) Hf) as Hs.
  destruct (i_sdr fuel c s pni (if more then 1 else 0) pni (take (cmiu c) data) (crwt c) timeout) as [r1 s1].
  specialize (Hs r1 s1 eq_refl). destruct r1 as [res1|e|x|]; [| exact Hs | absurd_spec Hs | absurd_spec Hs].
  destruct Hs as [Hs Hl]. destruct (i_after_rtox fuel c s1 pni res1 timeout) as [r2 s2].
  destruct r2 as [res2|e|x|]; [| exact Hs | absurd_spec Hs | absurd_spec Hs].
  destruct ((rfmt res2 =? 4) && negb more); [eapply spec_err; [exact Hs | exact I]|].
  destruct (negb (rpni res2 =? pni)); [eapply spec_err; [exact Hs | exact I]|].
  destruct more; [|eapply spec_ok; exact Hs].
  pose proof (spec_lt _ _ _ _ Hs) as Hl3.
  eapply after_ok; [exact Hs | reflexivity | apply IH; [exact Hc | exact Ho | lia | lia]].
Qed.

Lemma i_recv_loop_spec fuel' : forall fuel c s pni res0 acc timeout, cfg_ok c -> corig c = false -> (A s < fuel')%nat -> (A s < fuel)%nat ->
  spec false 3 s (i_recv_loop fuel' fuel c s pni res0 acc timeout).
Proof.
  induction fuel' as [|f IH]; intros fuel c s pni res0 acc timeout Hc Ho Hf' Hf; [lia|]. cbn [i_recv_loop].
  destruct (negb (rfmt res0 =? 1)); [apply spec_ret|].
  pose proof (i_step_spec fuel c s pni 4 pni [] timeout Hc Ho (nil_le_miu c Hc) Hf) as Hs.
  destruct (i_sdr fuel c s pni 4 pni [] (crwt c) timeout) as [r1 s1].
  specialize (Hs r1 s1 eq_refl).
  destruct r1 as [res1|e|x|]; [| eapply spec_weaken; [|exact Hs]; lia | absurd_spec Hs | absurd_spec Hs].
  destruct Hs as [Hs Hl]. destruct (i_after_rtox fuel c s1 pni res1 timeout) as [r2 s2].
  destruct r2 as [res2|e|x|]; [| eapply spec_weaken; [|exact Hs]; lia | absurd_spec Hs | absurd_spec Hs].
  destruct (negb ((rfmt res2 =? 0) || (rfmt res2 =? 1))); [eapply spec_err; [exact Hs | exact I]|].
  destruct (negb (rpni res2 =? pni)); [eapply spec_err; [exact Hs | exact I]|].
  pose proof (spec_lt _ _ _ _ Hs) as Hl3.
  eapply spec_weaken; [|eapply after_ok; [exact Hs | reflexivity | apply IH; [exact Hc | exact Ho | lia | lia]]]. lia.
Qed.

Lemma i_exchange_spec fuel c s pni payload timeout : cfg_ok c -> corig c = false -> payload <> [] -> (A s < fuel)%nat ->
  spec false 3 s (i_exchange fuel c s pni payload timeout).
Proof.
  intros Hc Ho Hp Hf. unfold i_exchange. destruct payload as [|b t]; [contradiction|].
  pose proof (i_send_loop_spec fuel fuel c s pni (b :: t) timeout Hc Ho Hf Hf) as H.
  destruct (i_send_loop fuel fuel c s pni (b :: t) timeout) as [r s1].
  destruct r as [[res1 pni1]|e|x|]; [| eapply spec_weaken; [|exact H]; lia | absurd_spec H | absurd_spec H].
  destruct (negb ((rfmt res1 =? 0) || (rfmt res1 =? 1))); [eapply spec_err; [exact H | exact I]|].
  pose proof (spec_lt _ _ _ _ H) as Hl.
  eapply spec_weaken; [|eapply after_ok; [exact H | reflexivity | apply i_recv_loop_spec; [exact Hc | exact Ho | lia | lia]]]. lia.
Qed.

Theorem dep_initiator_exchange_total fuel c s pni payload timeout :
  cfg_ok c -> corig c = false -> payload <> [] -> (length (ans s) < fuel)%nat ->
  let r := fst (i_exchange fuel c s pni payload timeout) in
  let s' := snd (i_exchange fuel c s pni payload timeout) in
  ((exists data pni', r = Ok (data, pni')) \/ r = Err TimeoutError \/ r = Err TransmissionError \/ r = Err ProtocolError) /\
  (length (sent s') <= length (sent s) + length (ans s) + 3)%nat /\ (length (ans s') <= length (ans s))%nat.
Proof.
  intros Hc Ho Hp Hf. destruct (i_exchange_spec fuel c s pni payload timeout Hc Ho Hp Hf) as (H1 & H2 & _ & H4).
  cbv zeta. destruct (i_exchange fuel c s pni payload timeout) as [r s']. cbn [fst snd] in *. unfold A, Sn in *.
  split; [|split; [|exact H2]].
  - destruct r as [[d p]|e|x|]; cbn [good] in H1; try contradiction; [left; eauto|].
    destruct e; try contradiction; auto.
  - destruct (okb r); destruct (Nat.eqb_spec (length (ans s')) 0); lia.
Qed.

Lemma t_decode_good c rsp s' : exists r, t_decode c rsp s' = (r, s') /\ good r.
Proof.
  unfold t_decode. destruct rsp as [|x t]; [eexists; split; [reflexivity | exact I]|].
  destruct (dep_decode_dir Tgt (c106 c) (x :: t)) as [(p & -> & Hp) | [-> | ->]]; try (eexists; split; [reflexivity | exact I]).
  destruct p; try destruct req; cbn [is_req] in Hp; try discriminate; eexists; split; try reflexivity; exact I.
Qed.

Lemma xchg_corrupt c s fr t s' : xchg c s fr t = (Err TransmissionError, s') ->
  (A s' < A s)%nat /\ (Sn s' + A s' <= Sn s + A s)%nat.
Proof.
  unfold xchg, A, Sn. destruct s as [n a snt]. cbn [ans sent now].
  destruct a as [|[|d|f] r]; try destruct ((0 <? d) && (d <=? t)); intro H; inversion H; subst.
  cbn [ans sent length]. rewrite app_length. cbn [length]. lia.
Qed.

Lemma t_listen_spec fuel : forall c s fr dl, (A s < fuel)%nat -> spec true 1 s (t_listen fuel c s fr dl).
Proof.
  induction fuel as [|f IH]; intros c s fr dl Hf; [lia|]. cbn [t_listen].
  set (t := if now s <? dl then dl - now s else 0).
  pose proof (xchg_spec c s fr t) as Hx. destruct (xchg c s fr t) as [r s'] eqn:E.
  destruct r as [rsp|e|x|]; [| | absurd_spec Hx | absurd_spec Hx].
  - destruct (t_decode_good c rsp s') as (r' & -> & Hg).
    destruct r' as [o|e|x|]; [eapply spec_ok; exact Hx | eapply spec_err; [exact Hx | exact Hg] | contradiction | contradiction].
  - destruct e; try exact Hx.
    destruct (xchg_corrupt _ _ _ _ _ E) as [H1 H2]. apply (after_exact true 1 s s'); [lia | exact H2 | apply IH; lia].
Qed.

Definition res_ok (c : cfg) (r : option (Z * Z * list Z)) : Prop :=
  match r with Some (_, _, d) => len d <= cmiu c | None => True end.

Lemma t_send_spec fuel c s res dl : cfg_ok c -> res_ok c res -> (A s < fuel)%nat -> spec true 1 s (t_send fuel c s None res dl).
Proof.
  intros Hc Hr Hf. unfold t_send. destruct res as [[[fmt pni] data]|]; [|apply t_listen_spec, Hf].
  destruct (enc_ok false c fmt pni data Hc Hr) as [fr ->]. apply t_listen_spec, Hf.
Qed.
Lemma t_send_inj_spec fuel c s cmd res dl : spec false 1 s (t_send fuel c s (Some cmd) res dl).
Proof.
  unfold t_send. destruct (t_decode_good c cmd s) as (r & -> & Hg).
  destruct r as [o|e|x|]; [apply spec_ret | apply spec_here; exact Hg | contradiction | contradiction].
Qed.

(* one round of send_dep_res_recv_dep_req, given what send_res_recv_req does and the rest of the loop *)
Lemma t_sdr_step b f fuel c s inj spni dep_res res dl :
  cfg_ok c -> res_ok c dep_res -> spec b 1 s (t_send fuel c s inj res dl) ->
  (forall o s', t_send fuel c s inj res dl = (Ok o, s') -> (A s' < fuel)%nat /\
     forall res', res_ok c res' -> spec true 1 s' (t_sdr f fuel c s' None spni dep_res res' dl)) ->
  spec b 1 s (t_sdr (S f) fuel c s inj spni dep_res res dl).
Proof.
  intros Hc Hr Hs Hk. cbn [t_sdr]. destruct (t_send fuel c s inj res dl) as [r s'].
  destruct r as [[q|]|e|x|]; try exact Hs. destruct (Hk _ _ eq_refl) as [Hf Hrec].
  assert (Hatn : res_ok c (Some (8, 0, []))) by (cbn; apply nil_le_miu, Hc).
  assert (Hgo : forall res', res_ok c res' -> spec b 1 s (t_sdr f fuel c s' None spni dep_res res' dl)).
  { intros res' H'. eapply after_live; [exact Hs | left; reflexivity | apply spec_any, Hrec, H']. }
  assert (Hrel : forall rls, spec b 1 s
            (let (r2, s2) := t_listen fuel c s' (Some (enc_rel c rls)) 0 in
             match r2 with Ok _ => (@Ok (option dpd) None, s2) | Err e => (Err e, s2) | Crash x => (Crash x, s2) | Hang => (Hang, s2) end)).
  { intro rls. pose proof (t_listen_spec fuel c s' (Some (enc_rel c rls)) 0 Hf) as Hl.
    destruct (t_listen fuel c s' (Some (enc_rel c rls)) 0) as [r2 s2].
    eapply after_live; [exact Hs | left; reflexivity | apply spec_any].
    destruct r2 as [o|e|x|]; [eapply spec_ok; exact Hl | exact Hl | absurd_spec Hl | absurd_spec Hl]. }
  destruct (negb (oeqb (treq_did q) (cdid c))); [apply Hgo; exact I|].
  destruct q as [d|dd|dd|dd].
  - destruct (rfmt d =? 8); [apply Hgo, Hatn|]. destruct (rfmt d =? 5); [apply Hgo, Hr|].
    destruct (rfmt d =? 9).
    + destruct dep_res as [[[fm pn] dt]|]; [|apply Hgo; exact I].
      destruct (fm =? 9) eqn:E9.
      * apply Z.eqb_eq in E9. subst fm. eapply spec_ok; exact Hs.
      * assert (X : match fm with 9 => (@Ok (option dpd) (Some d), s') | _ => t_sdr f fuel c s' None spni (Some (fm, pn, dt)) (Some (fm, pn, dt)) dl end
                    = t_sdr f fuel c s' None spni (Some (fm, pn, dt)) (Some (fm, pn, dt)) dl).
        { destruct fm as [|q|q]; try reflexivity. repeat (destruct q as [q|q|]; try reflexivity). discriminate. }
        rewrite X. apply Hgo, Hr.
    + destruct (oeqb (Some (rpni d)) spni); [apply Hgo, Hr | eapply spec_ok; exact Hs].
  - apply (Hrel false).
  - apply (Hrel true).
  - apply Hgo. exact I.
Qed.

Lemma t_sdr_spec fuel' : forall fuel c s spni dep_res res dl, cfg_ok c -> res_ok c dep_res -> res_ok c res ->
  (A s < fuel')%nat -> (A s < fuel)%nat -> spec true 1 s (t_sdr fuel' fuel c s None spni dep_res res dl).
Proof.
  induction fuel' as [|f IH]; intros fuel c s spni dep_res res dl Hc Hd Hr Hf' Hf; [lia|].
  pose proof (t_send_spec fuel c s res dl Hc Hr Hf) as Hs.
  apply t_sdr_step; [exact Hc | exact Hd | exact Hs |]. intros o s' E. rewrite E in Hs.
  pose proof (spec_lt _ _ _ _ Hs) as Hlt. split; [lia|].
  intros res' H'. apply IH; try assumption; lia.
Qed.

Lemma t_sdr_inj_spec fuel' fuel c s cmd spni dep_res res dl : cfg_ok c -> res_ok c dep_res ->
  (A s + 1 < fuel')%nat -> (A s < fuel)%nat -> spec false 1 s (t_sdr fuel' fuel c s (Some cmd) spni dep_res res dl).
Proof.
  intros Hc Hd Hf' Hf. destruct fuel' as [|f]; [lia|].
  pose proof (t_send_inj_spec fuel c s cmd res dl) as Hs.
  apply t_sdr_step; [exact Hc | exact Hd | exact Hs |]. intros o s' E. rewrite E in Hs.
  pose proof (spec_le _ _ _ _ _ Hs) as Hle. split; [lia|].
  intros res' H'. apply t_sdr_spec; try assumption; lia.
Qed.

Lemma t_send_loop_spec fuel' : forall fuel c s pni data dl, cfg_ok c -> (A s < fuel')%nat -> (A s < fuel)%nat ->
  spec true 1 s (t_send_loop fuel' fuel c s pni data dl).
Proof.
  induction fuel' as [|f IH]; intros fuel c s pni data dl Hc Hf' Hf; [lia|]. cbn [t_send_loop].
  set (res := Some ((if cmiu c <? len data then 1 else 0), pni, take (cmiu c) data)).
  assert (Hr : res_ok c res) by (cbn; apply len_take_le, Z.lt_le_incl, Hc).
  pose proof (t_sdr_spec fuel fuel c s (Some pni) res res dl Hc Hr Hr Hf Hf) as Hs.
  destruct (t_sdr fuel fuel c s None (Some pni) res res dl) as [r s1].
  destruct r as [[req|]|e|x|]; [| eapply spec_ok; exact Hs | exact Hs | absurd_spec Hs | absurd_spec Hs].
  pose proof (spec_lt _ _ _ _ Hs) as Hlt.
  destruct ((cmiu c <? len data) && negb (rfmt req =? 4)); [eapply spec_err; [exact Hs | exact I]|].
  destruct (negb (rpni req =? Z.land (pni + 1) 3)); [eapply spec_err; [exact Hs | exact I]|].
  destruct (nonempty (drop (cmiu c) data)); [|eapply spec_ok; exact Hs].
  eapply after_ok; [exact Hs | reflexivity | apply IH; [exact Hc | lia | lia]].
Qed.

Lemma t_recv_loop_spec fuel' : forall fuel c s pni req acc dl, cfg_ok c -> (A s < fuel')%nat -> (A s < fuel)%nat ->
  spec false 1 s (t_recv_loop fuel' fuel c s pni req acc dl).
Proof.
  induction fuel' as [|f IH]; intros fuel c s pni req acc dl Hc Hf' Hf; [lia|]. cbn [t_recv_loop].
  destruct (negb (rfmt req =? 1)); [apply spec_ret|].
  assert (Hr : res_ok c (Some (4, pni, []))) by (cbn; apply nil_le_miu, Hc).
  pose proof (t_sdr_spec fuel fuel c s (Some pni) _ _ dl Hc Hr Hr Hf Hf) as Hs.
  destruct (t_sdr fuel fuel c s None (Some pni) (Some (4, pni, [])) (Some (4, pni, [])) dl) as [r s1].
  destruct r as [[req1|]|e|x|]; [| | | absurd_spec Hs | absurd_spec Hs].
  - pose proof (spec_lt _ _ _ _ Hs) as Hlt.
    destruct (negb (rpni req1 =? Z.land (pni + 1) 3)); [eapply spec_err; [exact Hs | exact I]|].
    eapply spec_weaken; [|eapply after_ok; [exact Hs | reflexivity | apply IH; [exact Hc | lia | lia]]]. lia.
  - apply (spec_weaken true 1 1); [lia | eapply spec_ok; exact Hs].
  - eapply spec_weaken; [|exact Hs]. lia.
Qed.

Lemma t_exchange_spec fuel c s spni first payload timeout : cfg_ok c ->
  (first <> None \/ (payload <> [] /\ spni <> None)) -> (A s + 1 < fuel)%nat ->
  spec false 1 s (t_exchange fuel c s spni first payload timeout).
Proof.
  intros Hc Hp Hf. unfold t_exchange. destruct first as [cmd|].
  - pose proof (t_sdr_inj_spec fuel fuel c s cmd spni None None (now s + timeout) Hc I Hf ltac:(lia)) as Hs.
    destruct (t_sdr fuel fuel c s (Some cmd) spni None None (now s + timeout)) as [r s1].
    pose proof (spec_le _ _ _ _ _ Hs) as Hle.
    destruct r as [[req|]|e|x|]; [| eapply spec_ok; exact Hs | exact Hs | absurd_spec Hs | absurd_spec Hs].
    eapply after_live; [exact Hs | left; reflexivity | apply t_recv_loop_spec; [exact Hc | lia | lia]].
  - destruct Hp as [Hp | [Hp Hq]]; [contradiction|]. destruct payload as [|b t]; [contradiction|]. destruct spni as [pni|]; [|contradiction].
    pose proof (t_send_loop_spec fuel fuel c s pni (b :: t) (now s + timeout) Hc ltac:(lia) ltac:(lia)) as Hs.
    destruct (t_send_loop fuel fuel c s pni (b :: t) (now s + timeout)) as [r s1].
    destruct r as [[[req pni1]|]|e|x|]; [| | | absurd_spec Hs | absurd_spec Hs].
    + pose proof (spec_lt _ _ _ _ Hs) as Hlt.
      eapply spec_weaken; [|eapply after_ok; [exact Hs | reflexivity | apply t_recv_loop_spec; [exact Hc | lia | lia]]]. lia.
    + apply (spec_weaken true 1 1); [lia | eapply spec_ok; exact Hs].
    + eapply spec_weaken; [|exact Hs]. lia.
Qed.

(* Target.exchange against an arbitrary peer: `first` is the command injected by activate (first call, send_data None),
   otherwise the payload is not empty and self.pni has been set by the first call *)
Theorem dep_target_exchange_total fuel c s spni first payload timeout :
  cfg_ok c -> (first <> None \/ (payload <> [] /\ spni <> None)) -> (length (ans s) + 1 < fuel)%nat ->
  let r := fst (t_exchange fuel c s spni first payload timeout) in
  let s' := snd (t_exchange fuel c s spni first payload timeout) in
  ((exists data pni', r = Ok (Some (data, pni'))) \/ r = Ok None \/
   r = Err TimeoutError \/ r = Err TransmissionError \/ r = Err ProtocolError) /\
  (length (sent s') <= length (sent s) + length (ans s) + 1)%nat /\ (length (ans s') <= length (ans s))%nat.
Proof.
  intros Hc Hp Hf. destruct (t_exchange_spec fuel c s spni first payload timeout Hc Hp Hf) as (H1 & H2 & _ & H4).
  cbv zeta. destruct (t_exchange fuel c s spni first payload timeout) as [r s']. cbn [fst snd] in *. unfold A, Sn in *.
  split; [|split; [|exact H2]].
  - destruct r as [[[d p]|]|e|x|]; cbn [good] in H1; try contradiction; [left; eauto | right; left; reflexivity|].
    destruct e; try contradiction; auto.
  - destruct (okb r); destruct (Nat.eqb_spec (length (ans s')) 0); lia.
Qed.

(* RTOX without value in reply to the ACK of a chained response (the seeded regression C07-2 and, as first response, the
   defect repaired by c07-3): IndexError leaves Initiator.exchange *)
Definition ex_cfg (orig : bool) : cfg := mkcfg false None None 128 8 1 orig.
Definition ex_answers : list answer := [AFrame [6; 213; 7; 16; 0; 0]; AFrame [4; 213; 7; 144]].
Lemma orig_rtox_in_chaining : fst (i_exchange 8 (ex_cfg true) (mkst 0 ex_answers []) 0 [0; 0] 1024) = Crash IndexErr.
Proof. vm_compute. reflexivity. Qed.
Lemma fixed_rtox_in_chaining : fst (i_exchange 8 (ex_cfg false) (mkst 0 ex_answers []) 0 [0; 0] 1024) = Err ProtocolError.
Proof. vm_compute. reflexivity. Qed.
Lemma ex_cfg_ok o : cfg_ok (ex_cfg o).
Proof. split; cbn; lia. Qed.

Definition slow (eps : Z) (a : answer) : Prop := match a with ACorrupt d => eps <= d | _ => True end.
Definition jam (eps : Z) (a : answer) : Prop := exists d, a = ACorrupt d /\ eps <= d.
Definition budget (eps rem : Z) : nat := Z.to_nat (Z.max 0 rem / eps).

(* the measure of both deadline loops: a round that uses up at least eps of the time left costs one unit *)
Lemma budget_dec eps rem rem' : 0 < eps -> 0 <= rem' -> rem' + eps <= rem -> (budget eps rem' + 1 <= budget eps rem)%nat.
Proof.
  intros He H0 H. unfold budget. rewrite !Z.max_r by lia.
  assert (H1 : rem' / eps + 1 <= rem / eps) by (rewrite <- Z.div_add by lia; apply Z.div_le_mono; lia).
  pose proof (Z.div_pos rem' eps H0 He). lia.
Qed.
Lemma budget_mono eps a b : 0 < eps -> a <= b -> (budget eps a <= budget eps b)%nat.
Proof. intros He H. unfold budget. apply Z2Nat.inj_le; try (apply Z.div_pos; lia). apply Z.div_le_mono; lia. Qed.

Lemma jam_slow eps l : Forall (jam eps) l -> Forall (slow eps) l.
Proof. apply Forall_impl. intros a (d & -> & H). exact H. Qed.

Lemma nresp_snoc n n' a a' snt fr t :
  nresp (mkst n a (snt ++ [(fr, t)])) = (nresp (mkst n' a' snt) + (if isome fr then 1 else 0))%nat.
Proof. unfold nresp. cbn [sent]. rewrite filter_app, app_length. cbn [filter fst]. destruct (isome fr); cbn [length]; lia. Qed.

(* What one run of the listen loop, started in s, guarantees of its outcome p.  The first group is about the deadline: each
   corrupted frame that makes the loop listen again has used up at least eps of the time left, so the number of calls is
   bounded by the budget, whatever the length of the script.  The second group: time only moves forward, a received frame
   costs a clock tick, at most the one response is sent, and the answers left are a remainder of the script. *)
Definition listen_post (c : cfg) (eps dl : Z) (frame : option (list Z)) (s : st) (p : M (option treq)) : Prop :=
  (good (fst p) /\ now (snd p) <= Z.max (now s) dl + 2 * ctick c /\ (Sn (snd p) <= Sn s + budget eps (dl - now s) + 1)%nat /\
   (Forall (jam eps) (ans s) -> fst p = Err TimeoutError)) /\
  now s <= now (snd p) /\ (okb (fst p) = true -> now s + ctick c <= now (snd p)) /\
  (nresp (snd p) <= nresp s + (if isome frame then 1 else 0))%nat /\ (forall P, Forall P (ans s) -> Forall P (ans (snd p))).

Lemma t_listen_run fuel : forall c s frame dl eps,
  0 < eps -> 0 <= ctick c -> Forall (slow eps) (ans s) -> (budget eps (dl - now s) < fuel)%nat ->
  listen_post c eps dl frame s (t_listen fuel c s frame dl).
Proof.
  induction fuel as [|f IH]; intros c s frame dl eps He Ht Hs Hf; [lia|]. cbn [t_listen].
  set (t := if now s <? dl then dl - now s else 0).
  assert (Et : t = Z.max 0 (dl - now s)) by (unfold t; destruct (now s <? dl) eqn:E; lia).
  clearbody t. unfold xchg. destruct s as [n a snt]. cbn [ans sent now] in *.
  assert (Htl : forall P x (r : list answer), Forall P (x :: r) -> Forall P r) by (intros P x r H; inversion H; assumption).
  (* nothing heard: the call lasts a clock tick and the time-out that was granted *)
  assert (Hsil : forall r, (forall P, Forall P a -> Forall P r) ->
            listen_post c eps dl frame (mkst n a snt) (Err TimeoutError, mkst (n + ctick c + Z.max t (ctick c)) r (snt ++ [(frame, t)]))).
  { intros r Hr. unfold listen_post, Sn. cbn [fst snd now ans sent okb good]. rewrite app_length, (nresp_snoc _ n _ a). cbn [length].
    repeat split; try exact I; try discriminate; try lia. exact Hr. }
  destruct a as [|[|d|fr] r].
  - apply Hsil. auto.
  - apply Hsil. intro P. apply Htl.
  - destruct ((0 <? d) && (d <=? t)) eqn:E; [|apply Hsil; intro P; apply Htl].
    (* a corrupted frame inside the time left: listen again for the rest *)
    pose proof (Htl _ _ _ Hs) as Hr. assert (Hd : eps <= d) by (inversion Hs; assumption).
    pose proof (budget_dec eps (dl - n) (dl - (n + d)) He ltac:(lia) ltac:(lia)) as Hb.
    specialize (IH c (mkst (n + d) r (snt ++ [(frame, t)])) None dl eps He Ht Hr ltac:(cbn [now]; lia)).
    unfold listen_post in IH |- *. destruct (t_listen f c _ None dl) as [r' s']. cbn [fst snd now ans isome] in IH |- *.
    destruct IH as ((G1 & G2 & G3 & G4) & G5 & G6 & G7 & G8).
    unfold Sn in G3 |- *. cbn [sent] in G3 |- *. rewrite app_length in G3. rewrite (nresp_snoc _ n _ (ACorrupt d :: r)) in G7. cbn [length] in G3.
    repeat split; [exact G1 | lia | lia | intro Hj; apply G4, (Htl _ _ _ Hj) | lia | intro H; specialize (G6 H); lia | lia |].
    intros P H. apply G8, (Htl _ _ _ H).
  - destruct (t_decode_good c fr (mkst (n + ctick c) r (snt ++ [(frame, t)]))) as (r' & -> & Hg).
    unfold listen_post, Sn. cbn [fst snd now ans sent]. rewrite app_length, (nresp_snoc _ n _ (AFrame fr :: r)). cbn [length].
    repeat split; [exact Hg | lia | lia | | lia | lia | lia | intro P; apply Htl].
    intro Hj. inversion Hj as [|? ? (d & Hd & _) _]. discriminate.
Qed.

(* Target.send_res_recv_req listens again after a TransmissionError, each time for what is LEFT until the deadline.  Against
   a peer that keeps sending corrupted frames - an arbitrarily long script, each frame needing at least eps > 0 time units -
   the loop therefore ends: the number of calls depends on the time left and eps only, never on the length of the script. *)
Theorem t_listen_deadline fuel : forall c s frame dl eps,
  0 < eps -> 0 <= ctick c -> Forall (slow eps) (ans s) -> (budget eps (dl - now s) < fuel)%nat ->
  let r := fst (t_listen fuel c s frame dl) in
  let s' := snd (t_listen fuel c s frame dl) in
  good r /\ now s' <= Z.max (now s) dl + 2 * ctick c /\ (Sn s' <= Sn s + budget eps (dl - now s) + 1)%nat /\
  (Forall (jam eps) (ans s) -> r = Err TimeoutError).
Proof. intros c s frame dl eps He Ht Hs Hf. exact (proj1 (t_listen_run fuel c s frame dl eps He Ht Hs Hf)). Qed.

Lemma t_send_frame fuel c s res dl : cfg_ok c -> res_ok c res ->
  exists fr, t_send fuel c s None res dl = t_listen fuel c s fr dl.
Proof.
  intros Hc Hr. unfold t_send. destruct res as [[[fmt pni] data]|]; [|eexists; reflexivity].
  destruct (enc_ok false c fmt pni data Hc Hr) as [fr ->]. eexists. reflexivity.
Qed.

(* Target.exchange(send_data, timeout) against a peer that does nothing but send corrupted frames, however many: TimeoutError
   after at most the time-out (plus two clock ticks of the frontend), with a number of listens that depends on timeout / eps only *)
Theorem dep_target_jammed fuel c s pni payload timeout eps :
  cfg_ok c -> 0 < eps -> 0 <= ctick c -> payload <> [] -> Forall (jam eps) (ans s) -> (budget eps timeout < fuel)%nat ->
  let r := fst (t_exchange fuel c s (Some pni) None payload timeout) in
  let s' := snd (t_exchange fuel c s (Some pni) None payload timeout) in
  r = Err TimeoutError /\ now s' <= now s + Z.max 0 timeout + 2 * ctick c /\ (Sn s' <= Sn s + budget eps timeout + 1)%nat.
Proof.
  intros Hc He Ht Hp Hj Hf. cbv zeta. destruct fuel as [|f]; [lia|].
  set (res := Some ((if cmiu c <? len payload then 1 else 0), pni, take (cmiu c) payload)).
  destruct (t_send_frame (S f) c s res (now s + timeout) Hc (len_take_le _ _ (Z.lt_le_incl _ _ (proj1 Hc)))) as [fr Efr].
  pose proof (t_listen_deadline (S f) c s fr (now s + timeout) eps He Ht (jam_slow _ _ Hj)) as H.
  replace (now s + timeout - now s) with timeout in H by lia. destruct (H Hf) as (_ & G2 & G3 & G4).
  destruct (t_listen (S f) c s fr (now s + timeout)) as [r s']. cbn [fst snd] in *. specialize (G4 Hj). subst r.
  (* the error of the first listen is the result of t_sdr, of t_send_loop and of t_exchange *)
  assert (E : t_exchange (S f) c s (Some pni) None payload timeout = (Err TimeoutError, s')).
  { unfold t_exchange. destruct payload as [|b t]; [contradiction|]. cbn [t_send_loop t_sdr]. fold res. rewrite Efr. reflexivity. }
  rewrite E. cbn [fst snd]. repeat split; [lia | exact G3].
Qed.

(* what the release loop, started in s with deadline dl, guarantees of its outcome p *)
Definition deact_post (c : cfg) (dl : Z) (s : st) (p : M unit) : Prop :=
  fst p = Ok tt /\ now s <= now (snd p) /\ now (snd p) <= Z.max (now s) (dl + 4 * ctick c) /\
  (nresp (snd p) <= nresp s + (if (now s <? dl)%Z then budget (ctick c) (dl - now s)%Z + 2 else 0))%nat.

(* the loop ends in s1, at most two listens after s *)
Lemma deact_stop c dl s s1 : now s < dl -> now s <= now s1 -> now s1 <= dl + 4 * ctick c -> (nresp s1 <= nresp s + 2)%nat ->
  deact_post c dl s (Ok tt, s1).
Proof. intros Hl H1 H2 H3. unfold deact_post. cbn [fst snd]. replace (now s <? dl) with true by lia. repeat split; lia. Qed.

(* one answered request: at least a clock tick of the time left is used up, one response was sent *)
Lemma deact_step c dl s s1 p : 0 < ctick c -> now s < dl -> now s + ctick c <= now s1 -> now s1 <= dl + 4 * ctick c ->
  (nresp s1 <= nresp s + 1)%nat -> deact_post c dl s1 p -> deact_post c dl s p.
Proof.
  intros Ht Hl H1 H2 H3 (P1 & P2 & P3 & P4). unfold deact_post. replace (now s <? dl) with true by lia.
  repeat split; [exact P1 | lia | lia |]. destruct (now s1 <? dl) eqn:E; [|lia].
  pose proof (budget_dec (ctick c) (dl - now s) (dl - now s1) Ht ltac:(lia) ltac:(lia)). lia.
Qed.

Lemma t_deact_loop_spec fuel' : forall fuel c s res data dl eps,
  cfg_ok c -> len data <= cmiu c -> res_ok c res -> 0 < eps -> 0 < ctick c -> 0 <= now s -> Forall (slow eps) (ans s) ->
  (now s < dl -> (budget (ctick c) (dl - now s) < fuel')%nat) -> (budget eps (dl - now s) < fuel)%nat ->
  deact_post c dl s (t_deact_loop fuel' fuel c s res data dl).
Proof.
  assert (Hdone : forall c dl s, (now s <? dl) = false -> deact_post c dl s (Ok tt, s)).
  { intros c dl s E. unfold deact_post. rewrite E. cbn [fst snd]. repeat split; lia. }
  induction fuel' as [|f IH]; intros fuel c s res data dl eps Hc Hd Hr He Ht Hn Hs Hf' Hf; cbn [t_deact_loop];
    (destruct (now s <? dl) eqn:E; cbn [negb]; [|apply Hdone, E]).
  - (* the deadline has not passed: Hf' leaves an iteration *)
    specialize (Hf' ltac:(lia)). lia.
  - assert (Hlt : now s < dl) by lia. specialize (Hf' Hlt).
    destruct (t_send_frame fuel c s res dl Hc Hr) as [fr ->].
    pose proof (t_listen_run fuel c s fr dl eps He ltac:(lia) Hs Hf) as HL. unfold listen_post in HL.
    destruct (t_listen fuel c s fr dl) as [r s1]. cbn [fst snd] in HL.
    destruct HL as ((Hg & Hb & _ & _) & M1 & M2 & M3 & M4).
    assert (M3' : (nresp s1 <= nresp s + 1)%nat) by (destruct (isome fr); lia).
    assert (Hret : deact_post c dl s (Ok tt, s1)) by (apply deact_stop; lia).
    assert (Hgo : forall res', res_ok c res' -> okb r = true -> deact_post c dl s (t_deact_loop f fuel c s1 res' data dl)).
    { intros res' Hr' Hok. specialize (M2 Hok). apply (deact_step c dl s s1 _ Ht Hlt M2 ltac:(lia) M3').
      apply (IH fuel c s1 res' data dl eps Hc Hd Hr' He Ht ltac:(lia) (M4 _ Hs)).
      - intro H1. pose proof (budget_dec (ctick c) (dl - now s) (dl - now s1) Ht ltac:(lia) ltac:(lia)). lia.
      - pose proof (budget_mono eps (dl - now s1) (dl - now s) He ltac:(lia)). lia. }
    destruct r as [[q|]|e|x|]; [| exact Hret | exact Hret | contradiction | contradiction].
    destruct (oeqb (treq_did q) (cdid c)); [|apply Hgo; [exact I | reflexivity]].
    (* DSL_REQ / RLS_REQ: the response goes out with a listen whose deadline has passed *)
    assert (Hrel : forall rls, deact_post c dl s
              (let (r2, s2) := t_listen fuel c s1 (Some (enc_rel c rls)) 0 in
               match r2 with Crash x => (@Crash unit x, s2) | Hang => (Hang, s2) | _ => (Ok tt, s2) end)).
    { intro rls. pose proof (budget_mono eps (0 - now s1) (dl - now s) He ltac:(lia)) as F0.
      pose proof (t_listen_run fuel c s1 (Some (enc_rel c rls)) 0 eps He ltac:(lia) (M4 _ Hs) ltac:(lia)) as HL2. unfold listen_post in HL2.
      destruct (t_listen fuel c s1 (Some (enc_rel c rls)) 0) as [r2 s2]. cbn [fst snd isome] in HL2.
      destruct HL2 as ((Hg2 & Hb2 & _ & _) & N1 & _ & N3 & _).
      assert (deact_post c dl s (Ok tt, s2)) by (apply deact_stop; lia).
      destruct r2 as [o|e|x|]; try contradiction; assumption. }
    destruct q as [d|dd|dd|dd].
    + destruct (rfmt d =? 8); apply Hgo; try reflexivity; [cbn; apply nil_le_miu, Hc | cbn; exact Hd].
    + apply (Hrel false).
    + apply (Hrel true).
    + apply Hgo; [exact I | reflexivity].
Qed.

(* Target._deactivate against ANY script of requests, of any length - valid ATN / INF / NAK / ACK with matching DID included -
   and any corrupted frames (each needing eps > 0 time units): it returns, no later than the grace period (1 s) plus four clock
   ticks after it began, and has sent at most (grace / tick) + 2 responses.  The fuel - the number of loop iterations - depends
   on grace / tick and grace / eps only, never on the length of the script. *)
Theorem dep_target_deactivate_deadline fuel c s data grace eps :
  cfg_ok c -> len data <= cmiu c -> 0 < eps -> 0 < ctick c -> 0 <= now s -> Forall (slow eps) (ans s) ->
  (budget (ctick c) grace < fuel)%nat -> (budget eps grace < fuel)%nat ->
  let r := fst (t_deactivate fuel c s data grace) in
  let s' := snd (t_deactivate fuel c s data grace) in
  r = Ok tt /\ now s' <= now s + Z.max 0 grace + 4 * ctick c /\ (nresp s' <= nresp s + budget (ctick c) grace + 2)%nat.
Proof.
  intros Hc Hd He Ht Hn Hs Hf1 Hf2. unfold t_deactivate.
  pose proof (t_deact_loop_spec fuel fuel c s None data (now s + grace) eps Hc Hd I He Ht Hn Hs) as H.
  unfold deact_post in H. replace (now s + grace - now s) with grace in H by lia. destruct (H (fun _ => Hf1) Hf2) as (H1 & H2 & H3 & H4).
  cbv zeta. repeat split; [exact H1 | lia |]. destruct (now s <? now s + grace); lia.
Qed.
