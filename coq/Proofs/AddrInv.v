(* C17 - the building blocks that preserve the invariant [wf]. *)
From Coq Require Import ZArith List Bool Lia ZifyBool.
From NV Require Import Base.Result Base.Bytes Base.PyPrims Model.Addr Proofs.Addr.
Import ListNotations.
Open Scope Z_scope.

Lemma sap_set_dmpdu c a e : sd_dmpdu (sap_set c a e) = sd_dmpdu c.
Proof. unfold sap_set. destruct (in_range a); reflexivity. Qed.

Lemma nth_repeat_none n k : nth k (repeat SapNone n) SapNone = SapNone.
Proof. revert k; induction n; intros [|k]; cbn; auto. Qed.

Lemma sap_get_init b a : sap_get (init_ctl b) a = if a =? 0 then Sap [] [] else if a =? 1 then SapSD else SapNone.
Proof.
  unfold sap_get. destruct (in_range a) eqn:E.
  - apply in_range_iff in E. cbn [c_sap init_ctl init_sap].
    destruct (a =? 0) eqn:E0; [replace a with 0 by lia; reflexivity|].
    destruct (a =? 1) eqn:E1; [replace a with 1 by lia; reflexivity|].
    replace (Z.to_nat a) with (S (S (Z.to_nat (a - 2)))) by lia. unfold init_sap. cbn [nth]. apply nth_repeat_none.
  - destruct (a =? 0) eqn:E0; [unfold in_range in E; lia|].
    destruct (a =? 1) eqn:E1; [unfold in_range in E; lia|]. reflexivity.
Qed.

Lemma wf_init b : wf (init_ctl b).
Proof.
  assert (NL : forall a i, ~ listed (init_ctl b) a i).
  { intros a i. unfold listed. rewrite sap_get_init. destruct (a =? 0); [|destruct (a =? 1)]; cbn; auto. }
  assert (NS : forall i, get_sock (init_ctl b) i = None) by (intros [|i]; reflexivity).
  constructor; try (intros; exfalso; eapply NL; eassumption); try (intros ? ? ? H; rewrite NS in H; discriminate);
    try (intros ? ? H; rewrite NS in H; discriminate).
  - reflexivity.
  - exists []. reflexivity.
  - reflexivity.
  - intros a Ha. rewrite sap_get_init. destruct (a =? 0); [discriminate|]. destruct (a =? 1) eqn:E; [lia | discriminate].
  - intros a l sl Ha. rewrite sap_get_init. destruct (a =? 0) eqn:E0; [lia|]. destruct (a =? 1) eqn:E1; [lia | discriminate].
  - intro a. rewrite sap_get_init. destruct (a =? 0); [|destruct (a =? 1)]; cbn; constructor.
  - cbn. constructor; [intros [] | constructor].
  - reflexivity.
  - intros n a. cbn [lookup c_snl init_ctl]. destruct (name_eqb name_sdp n) eqn:E; [|discriminate].
    intro H; inversion H; subst. left. apply name_eqb_eq in E. auto.
  - intros n1 n2 a Ha. cbn [lookup c_snl init_ctl]. destruct (name_eqb name_sdp n1); [|discriminate].
    intro H; inversion H; lia.
  - intros a l sl p. rewrite sap_get_init. destruct (a =? 0); [intro H; inversion H; subst; intros []|].
    destruct (a =? 1); discriminate.
  - intros p [].
Qed.

Record evolves (s s' : sock) : Prop := mkEv {
  ev_addr : s_addr s' = s_addr s;
  ev_type : s_type s' = s_type s;
  ev_bname : s_bname s' = s_bname s;
  ev_shut : s_state s = StShutdown -> s_state s' = StShutdown;
  ev_nolisten : nolisten (s_state s) -> nolisten (s_state s');
  ev_sq : s_type s = TLdl -> forall p, In p (s_sendq s') -> In p (s_sendq s) \/ ui_src (s_addr s') p;
  ev_rq : s_type s = TLdl -> forall p, In p (s_recvq s') -> In p (s_recvq s) \/ ui_dst (s_addr s') p;
  ev_dq : s_type s = TDlc -> forall p, In p (s_sendq s') -> In p (s_sendq s) \/ is_ui p = false }.

Lemma evolves_refl s : evolves s s.
Proof. constructor; auto. Qed.
Lemma evolves_trans s1 s2 s3 : evolves s1 s2 -> evolves s2 s3 -> evolves s1 s3.
Proof.
  intros [A1 T1 B1 S1 N1 Q1 R1 D1] [A2 T2 B2 S2 N2 Q2 R2 D2]. constructor; try congruence; auto.
  - intros T p H. destruct (Q2 (eq_trans T1 T) p H) as [H2|H2]; auto.
    destruct (Q1 T p H2) as [H1|H1]; auto. right. rewrite A2. auto.
  - intros T p H. destruct (R2 (eq_trans T1 T) p H) as [H2|H2]; auto.
    destruct (R1 T p H2) as [H1|H1]; auto. right. rewrite A2. auto.
  - intros T p H. destruct (D2 (eq_trans T1 T) p H) as [H2|H2]; auto.
Qed.

Definition blank (x : sock) : Prop := s_addr x = None /\ s_bname x = None /\ s_sendq x = [] /\ s_recvq x = [].

(* The tables stay, every socket evolves, and a socket that was not there is blank. *)
Lemma wf_socks c c' : wf c -> c_sap c' = c_sap c -> c_snl c' = c_snl c ->
  (forall p, In p (sd_dmpdu c') -> is_ui p = false) ->
  (forall j sj, get_sock c j = Some sj -> exists sj', get_sock c' j = Some sj' /\ evolves sj sj') ->
  (forall j sj', get_sock c' j = Some sj' -> get_sock c j = None -> blank sj') ->
  wf c'.
Proof.
  intros W E1 E2 DM OLD NEW.
  assert (BACK : forall j sj', get_sock c' j = Some sj' -> (exists sj, get_sock c j = Some sj /\ evolves sj sj') \/ blank sj').
  { intros j sj' G'. destruct (get_sock c j) as [sj|] eqn:G; [left | right; eapply NEW; eauto].
    destruct (OLD j sj G) as (x & Gx & E). exists sj. split; [reflexivity | congruence]. }
  assert (LOLD : forall a j sj', listed c a j -> get_sock c' j = Some sj' -> exists sj, get_sock c j = Some sj /\ evolves sj sj').
  { intros a j sj' L G'. destruct (wf_listed_addr _ W a j L) as (sj & G & _). destruct (OLD j sj G) as (x & Gx & E).
    exists sj. split; [exact G | congruence]. }
  (* sap_get, listed, is_free and lookup see the tables only *)
  destruct c, c'. cbn in E1, E2. subst.
  destruct W as [Wlen W0 W1 Wsd Wne Wla Wnd Wol War Whg Wk Wsdp Wval Winj Wbs Wsb Wun Wsq Wrq Wdq Wsl Wdm].
  constructor; try assumption.
  - intros a j L. destruct (Wla a j L) as (sj & G & A). destruct (OLD j sj G) as (sj' & G' & E).
    exists sj'. split; [exact G' | rewrite (ev_addr _ _ E); exact A].
  - intros j sj' a G' A S. destruct (BACK j sj' G') as [(sj & G & E)|(N & _)]; [|congruence].
    apply (Wol j sj a G); [rewrite <- (ev_addr _ _ E); exact A | intro H; exact (S (ev_shut _ _ E H))].
  - intros j sj' a G' A. destruct (BACK j sj' G') as [(sj & G & E)|(N & _)]; [|congruence].
    apply (War j sj a G). rewrite <- (ev_addr _ _ E). exact A.
  - intros a j k sj' sk' Lj Lk Gj Gk. destruct (LOLD a j sj' Lj Gj) as (sj & Gj0 & Ej). destruct (LOLD a k sk' Lk Gk) as (sk & Gk0 & Ek).
    rewrite (ev_type _ _ Ej), (ev_type _ _ Ek). exact (Whg a j k sj sk Lj Lk Gj0 Gk0).
  - intros a j sj' n L G' B. destruct (LOLD a j sj' L G') as (sj & G & E). apply (Wbs a j sj n L G). rewrite <- (ev_bname _ _ E). exact B.
  - intros a j sj' n Ha Ln L G'. destruct (LOLD a j sj' L G') as (sj & G & E). rewrite (ev_bname _ _ E).
    destruct (Wsb a j sj n Ha Ln L G) as [B|[B N]]; [left; exact B | right; split; [exact B | exact (ev_nolisten _ _ E N)]].
  - intros j sj' G' A. destruct (BACK j sj' G') as [(sj & G & E)|(_ & B & _)]; [|exact B].
    rewrite (ev_bname _ _ E). apply (Wun j sj G). rewrite <- (ev_addr _ _ E). exact A.
  - intros j sj' p G' T Hp. destruct (BACK j sj' G') as [(sj & G & E)|(_ & _ & Q & _)]; [|rewrite Q in Hp; destruct Hp].
    rewrite (ev_type _ _ E) in T. destruct (ev_sq _ _ E T p Hp) as [H|H]; [|exact H]. rewrite (ev_addr _ _ E). exact (Wsq j sj p G T H).
  - intros j sj' p G' T Hp. destruct (BACK j sj' G') as [(sj & G & E)|(_ & _ & _ & Q)]; [|rewrite Q in Hp; destruct Hp].
    rewrite (ev_type _ _ E) in T. destruct (ev_rq _ _ E T p Hp) as [H|H]; [|exact H]. rewrite (ev_addr _ _ E). exact (Wrq j sj p G T H).
  - intros j sj' p G' T Hp. destruct (BACK j sj' G') as [(sj & G & E)|(_ & _ & Q & _)]; [|rewrite Q in Hp; destruct Hp].
    rewrite (ev_type _ _ E) in T. destruct (ev_dq _ _ E T p Hp) as [H|H]; [|exact H]. exact (Wdq j sj p G T H).
Qed.

Lemma get_put c i s' s j : get_sock c i = Some s ->
  get_sock (put_sock c i s') j = if Nat.eqb i j then Some s' else get_sock c j.
Proof. intro H. destruct (Nat.eqb i j) eqn:E.
  - apply Nat.eqb_eq in E. subst. eapply get_put_same; eauto.
  - apply Nat.eqb_neq in E. apply get_put_other; auto. Qed.

Lemma wf_put_evolve c i s s' : wf c -> get_sock c i = Some s -> evolves s s' -> wf (put_sock c i s').
Proof.
  intros W G E. apply (wf_socks c); auto; try apply W; intros j sj; rewrite (get_put c i s' s j G); destruct (Nat.eqb i j) eqn:N.
  - apply Nat.eqb_eq in N. subst j. intro Gj. exists s'. split; [reflexivity | congruence].
  - intro Gj. exists sj. split; [exact Gj | apply evolves_refl].
  - apply Nat.eqb_eq in N. congruence.
  - congruence.
Qed.

Lemma get_sock_app_old c x j : (j < length (c_socks c))%nat ->
  get_sock (set_socks c (c_socks c ++ [x])) j = get_sock c j.
Proof. intro H. unfold get_sock. cbn. apply nth_error_app1. auto. Qed.
Lemma get_sock_app_new c x : get_sock (set_socks c (c_socks c ++ [x])) (length (c_socks c)) = Some x.
Proof. unfold get_sock. cbn. rewrite nth_error_app2 by lia. rewrite Nat.sub_diag. reflexivity. Qed.
Lemma get_sock_app c x j : get_sock (set_socks c (c_socks c ++ [x])) j =
  if Nat.eqb j (length (c_socks c)) then Some x else get_sock c j.
Proof.
  destruct (Nat.eqb j (length (c_socks c))) eqn:E.
  - apply Nat.eqb_eq in E. subst. apply get_sock_app_new.
  - apply Nat.eqb_neq in E. destruct (Nat.lt_ge_cases j (length (c_socks c))).
    + apply get_sock_app_old; auto.
    + unfold get_sock. cbn. assert (N1 : nth_error (c_socks c ++ [x]) j = None).
      { apply nth_error_None. rewrite app_length. cbn. lia. }
      assert (N2 : nth_error (c_socks c) j = None) by (apply nth_error_None; lia). congruence.
Qed.
Lemma get_sock_lt c j s : get_sock c j = Some s -> (j < length (c_socks c))%nat.
Proof. unfold get_sock. intro H. apply nth_error_Some. congruence. Qed.

Lemma wf_new_sock c x : wf c -> blank x -> wf (set_socks c (c_socks c ++ [x])).
Proof.
  intros W B. apply (wf_socks c); auto; try apply W; intros j sj; rewrite get_sock_app; destruct (Nat.eqb j (length (c_socks c))) eqn:N.
  - apply Nat.eqb_eq in N. intro Gj. apply get_sock_lt in Gj. lia.
  - intro Gj. exists sj. split; [exact Gj | apply evolves_refl].
  - intros Gj _. inversion Gj; subst. auto.
  - congruence.
Qed.

Lemma set_snl_same c : set_snl c (c_snl c) = c.
Proof. destruct c; reflexivity. Qed.
Lemma set_bname_same s : set_bname s (s_bname s) = s.
Proof. destruct s; reflexivity. Qed.

Lemma lookup_none_notin {V} (l : list (name * V)) n : lookup l n = None -> ~ In n (map fst l).
Proof. induction l as [|[k v] t IH]; cbn; auto. destruct (name_eqb k n) eqn:E; [discriminate|].
  intros H [->|Hin]; [rewrite name_eqb_refl in E; discriminate | apply IH; auto]. Qed.

Lemma NoDup_app_single {A} (l : list A) x : NoDup l -> ~ In x l -> NoDup (l ++ [x]).
Proof. induction l as [|h t IH]; cbn; intros ND H; [constructor; [intros []|constructor]|].
  inversion ND; subst. constructor.
  - rewrite in_app_iff. cbn. intros [?|[?|[]]]; [contradiction | subst; tauto].
  - apply IH; auto. Qed.

Definition place_named (c : ctl) (i : nat) (s : sock) (a : Z) (on : option name) : ctl :=
  set_snl (place c i (set_bname s on) a)
          (match on with Some n => c_snl c ++ [(n, a)] | None => c_snl c end).

(* Slot a (free, or a SAP with sockets l) now holds Sap (j :: l) sl0 with sl0 free of UI PDUs, where socket j is new or
   was unbound and is now s', bound at a.  With a service name (bind by name) the slot was free and the name unknown;
   without one s' carries no name and, if it joins other sockets (accept), cannot listen. *)
Lemma wf_grow c c' a l sl0 j s' on :
  wf c -> 2 <= a < 64 -> socks_of (sap_get c a) = l ->
  (forall p, In p sl0 -> is_ui p = false) ->
  (forall b, sap_get c' b = if a =? b then Sap (j :: l) sl0 else sap_get c b) ->
  (forall k, get_sock c' k = if Nat.eqb j k then Some s' else get_sock c k) ->
  length (c_sap c') = 64%nat -> sd_dmpdu c' = sd_dmpdu c ->
  c_snl c' = match on with Some n => c_snl c ++ [(n, a)] | None => c_snl c end ->
  (forall sj, get_sock c j = Some sj -> s_addr sj = None) ->
  s_addr s' = Some a ->
  (forall k sk, In k l -> get_sock c k = Some sk -> s_type s' = s_type sk) ->
  (s_type s' = TLdl -> forall p, (In p (s_sendq s') -> ui_src (Some a) p) /\ (In p (s_recvq s') -> ui_dst (Some a) p)) ->
  (s_type s' = TDlc -> forall p, In p (s_sendq s') -> is_ui p = false) ->
  match on with
  | Some n => sap_get c a = SapNone /\ s_bname s' = Some n /\ lookup (c_snl c) n = None /\ name_valid n = true /\
              (wks n = Some a \/ (wks n = None /\ 16 <= a < 32))
  | None => s_bname s' = None /\ (sap_get c a = SapNone \/ nolisten (s_state s'))
  end -> wf c'.
Proof.
  intros W R SO SL0 SG GS LEN DM SN OLD A' HOM QL QD NM.
  destruct W as [Wlen W0 W1 Wsd Wne Wla Wnd Wol War Whg Wk Wsdp Wval Winj Wbs Wsb Wun Wsq Wrq Wdq Wsl Wdm].
  assert (NLj : forall b, ~ listed c b j).
  { intros b L. destruct (Wla b j L) as (sj & Gj & Aj). rewrite (OLD sj Gj) in Aj. discriminate. }
  assert (LI : forall b k, listed c' b k <-> (b = a /\ k = j) \/ listed c b k).
  { intros b k. unfold listed. rewrite SG. destruct (a =? b) eqn:E.
    - replace b with a by lia. rewrite SO. cbn. split; [intros [<-|H]; auto | intros [[_ ->]|H]; auto].
    - split; auto. intros [[-> _]|H]; auto. lia. }
  assert (FR : forall b, is_free c' b = if a =? b then false else is_free c b).
  { intro b. unfold is_free. rewrite SG. destruct (a =? b); reflexivity. }
  assert (OLDk : forall b k, listed c b k -> get_sock c' k = get_sock c k).
  { intros b k L. rewrite GS. destruct (Nat.eqb j k) eqn:E; auto. apply Nat.eqb_eq in E. subst k. destruct (NLj b L). }
  (* a free slot has no name *)
  assert (NA : sap_get c a = SapNone -> forall m, lookup (c_snl c) m <> Some a).
  { intros Fa m L. destruct (Wval m a L) as [[_ ?]|(_ & _ & F & _)]; [lia|]. unfold is_free in F. rewrite Fa in F. discriminate. }
  assert (LKold : forall m x, lookup (c_snl c) m = Some x -> lookup (c_snl c') m = Some x).
  { intros m x L. rewrite SN. destruct on; auto. apply lookup_app_some; auto. }
  assert (LK : forall m x, lookup (c_snl c') m = Some x ->
               lookup (c_snl c) m = Some x \/ (on = Some m /\ x = a /\ lookup (c_snl c) m = None)).
  { intros m x. rewrite SN. destruct on as [n|]; auto. destruct (lookup (c_snl c) m) eqn:L.
    - rewrite (lookup_app_some _ _ _ _ _ L). auto.
    - rewrite (lookup_app_none _ _ _ _ L). destruct (name_eqb n m) eqn:E; [|discriminate].
      apply name_eqb_eq in E. subst m. intro H; inversion H; auto. }
  constructor.
  - exact LEN.
  - rewrite SG. replace (a =? 0) with false by lia. auto.
  - rewrite SG. replace (a =? 1) with false by lia. auto.
  - intros b Hb. rewrite SG. destruct (a =? b); [discriminate | auto].
  - intros b l0 sl Hb. rewrite SG. destruct (a =? b); [intro E; inversion E; discriminate | apply Wne; auto].
  - intros b k L. destruct (proj1 (LI b k) L) as [[-> ->]|L0].
    + rewrite GS, Nat.eqb_refl. eauto.
    + rewrite (OLDk b k L0). auto.
  - intro b. rewrite SG. destruct (a =? b); auto. cbn. constructor.
    + intro H. apply (NLj a). unfold listed. rewrite SO. exact H.
    + rewrite <- SO. apply Wnd.
  - intros k sk b Gk Ak Sk. apply LI. rewrite GS in Gk. destruct (Nat.eqb j k) eqn:E.
    + apply Nat.eqb_eq in E. inversion Gk; subst. left. split; congruence.
    + right. eapply Wol; eauto.
  - intros k sk b Gk Ak. rewrite GS in Gk. destruct (Nat.eqb j k); [|eapply War; eauto].
    inversion Gk; subst sk. rewrite A' in Ak. inversion Ak; subst b. exact R.
  - intros b k m sk sm Lk Lm Gk Gm. apply LI in Lk. apply LI in Lm.
    (* a socket listed in c' at b is s', with b = a, or an old one *)
    assert (TK : forall x sx, (b = a /\ x = j) \/ listed c b x -> get_sock c' x = Some sx ->
                 (b = a /\ sx = s') \/ (listed c b x /\ get_sock c x = Some sx)).
    { intros x sx [[-> ->]|L] Gx.
      - rewrite GS, Nat.eqb_refl in Gx. inversion Gx; auto.
      - rewrite (OLDk b x L) in Gx. auto. }
    assert (IN : forall x, b = a -> listed c b x -> In x l) by (intros x -> L; unfold listed in L; rewrite SO in L; exact L).
    destruct (TK k sk Lk Gk) as [[E1 ->]|[L1 G1]]; destruct (TK m sm Lm Gm) as [[E2 ->]|[L2 G2]]; auto.
    + eapply HOM; eauto.
    + symmetry. eapply HOM; eauto.
    + exact (Whg _ _ _ _ _ L1 L2 G1 G2).
  - rewrite SN. destruct on as [n|]; auto. destruct NM as (_ & _ & L & _).
    rewrite map_app. cbn. apply NoDup_app_single; auto. apply lookup_none_notin; auto.
  - apply LKold. auto.
  - intros m x L. rewrite FR. destruct (LK m x L) as [L0|(-> & -> & L0)].
    + destruct (Wval m x L0) as [?|(V & X2 & Fx & K)]; auto. right. rewrite Fx. destruct (a =? x); auto.
    + destruct NM as (_ & _ & _ & V & K). right. rewrite Z.eqb_refl. repeat split; auto; lia.
  - intros n1 n2 x Hx L1 L2.
    destruct (LK n1 x L1) as [L10|(O1 & E1 & L10)]; destruct (LK n2 x L2) as [L20|(O2 & E2 & L20)].
    + eapply Winj; eauto.
    + subst on x. destruct (NA (proj1 NM) _ L10).
    + subst on x. destruct (NA (proj1 NM) _ L20).
    + congruence.
  - intros b k sk m L Gk Bk. destruct (proj1 (LI b k) L) as [[-> ->]|L0].
    + rewrite GS, Nat.eqb_refl in Gk. inversion Gk; subst sk. rewrite SN. destruct on as [n|]; [|destruct NM; congruence].
      destruct NM as (_ & B & L1 & _). assert (m = n) by congruence. subst m.
      rewrite (lookup_app_none _ _ _ _ L1), name_eqb_refl. reflexivity.
    + rewrite (OLDk b k L0) in Gk. apply LKold. eapply Wbs; eauto.
  - intros b k sk m Hb Lm L Gk. destruct (proj1 (LI b k) L) as [[-> ->]|L0].
    + rewrite GS, Nat.eqb_refl in Gk. inversion Gk; subst sk.
      destruct (LK m a Lm) as [L1|(O & _ & _)].
      * destruct on; [destruct (NA (proj1 NM) _ L1)|]. destruct NM as [B [Fa|NL]]; [destruct (NA Fa _ L1) | auto].
      * subst on. left. apply NM.
    + rewrite (OLDk b k L0) in Gk. destruct (LK m b Lm) as [L1|(O & -> & _)]; [eapply Wsb; eauto|].
      subst on. unfold listed in L0. rewrite (proj1 NM) in L0. destruct L0.
  - intros k sk Gk Ak. rewrite GS in Gk. destruct (Nat.eqb j k); [|eapply Wun; eauto]. inversion Gk; subst. congruence.
  - intros k sk p Gk Tk Hp. rewrite GS in Gk. destruct (Nat.eqb j k); [|eapply Wsq; eauto].
    inversion Gk; subst. rewrite A'. apply (QL Tk p); auto.
  - intros k sk p Gk Tk Hp. rewrite GS in Gk. destruct (Nat.eqb j k); [|eapply Wrq; eauto].
    inversion Gk; subst. rewrite A'. apply (QL Tk p); auto.
  - intros k sk p Gk Tk Hp. rewrite GS in Gk. destruct (Nat.eqb j k); [|eapply Wdq; eauto]. inversion Gk; subst. auto.
  - intros b l0 sl p. rewrite SG. destruct (a =? b); [intro E; inversion E; subst; auto | apply Wsl].
  - rewrite DM. exact Wdm.
Qed.

Lemma wf_place_named c i s a on :
  wf c -> get_sock c i = Some s -> s_addr s = None -> is_free c a = true -> 2 <= a < 64 ->
  (forall n, on = Some n -> lookup (c_snl c) n = None /\ name_valid n = true /\
                            (wks n = Some a \/ (wks n = None /\ 16 <= a < 32))) ->
  wf (place_named c i s a on).
Proof.
  intros W G A F Ra ON. apply is_free_iff in F.
  apply (wf_grow c _ a [] [] i (set_addr (set_bname s on) (Some a)) on); auto.
  - rewrite F. reflexivity.
  - intros p [].
  - intro b. unfold place_named, place. apply (sap_get_set (put_sock c i _)); [apply W | lia].
  - intro k. unfold place_named, place, get_sock. cbn [c_socks set_snl]. rewrite sap_set_socks. eapply get_put; eauto.
  - unfold place_named, place. cbn [c_sap set_snl]. rewrite sap_set_len. apply W.
  - unfold place_named, place. cbn [sd_dmpdu set_snl]. rewrite sap_set_dmpdu. reflexivity.
  - intros sj Gj. congruence.
  - intros k sk [].
  - (* an unbound datagram socket has empty queues *)
    intros T p. cbn. split; intro H; exfalso.
    + destruct (wf_ldl_sq _ W i s p G T H) as (? & ? & ? & _ & E). congruence.
    + destruct (wf_ldl_rq _ W i s p G T H) as (? & ? & ? & _ & E). congruence.
  - intros T p. apply (wf_dlc_sq _ W i s p G T).
  - destruct on as [n|]; cbn; [destruct (ON n eq_refl) as (L & V & K)|]; auto.
Qed.

Lemma place_named_none c i s a : s_bname s = None -> place_named c i s a None = place c i s a.
Proof. intro B. unfold place_named. rewrite <- B at 1. rewrite set_bname_same.
  replace (c_snl c) with (c_snl (place c i s a)) by (unfold place; rewrite sap_set_snl; reflexivity).
  apply set_snl_same. Qed.

Lemma sap_get_range c a e : sap_get c a = e -> e <> SapNone -> 0 <= a < 64.
Proof. intros G N. destruct (Z_lt_dec a 0); [rewrite sap_get_oob in G by lia; congruence|].
  destruct (Z_lt_dec a 64); [lia|]. rewrite sap_get_oob in G by lia; congruence. Qed.

(* Slot a held Sap l sl and now holds e'; the sockets are as before.  The sockets of e' are sockets of l, all the open
   ones among them; a slot that becomes empty is set to None and its names go (remove_socket), otherwise the names stay. *)
Lemma wf_shrink c c' a l sl e' :
  wf c -> sap_get c a = Sap l sl ->
  (forall b, sap_get c' b = if a =? b then e' else sap_get c b) ->
  c_socks c' = c_socks c -> length (c_sap c') = 64%nat -> sd_dmpdu c' = sd_dmpdu c ->
  NoDup (socks_of e') -> (forall j, In j (socks_of e') -> In j l) ->
  (forall j s, In j l -> get_sock c j = Some s -> s_state s <> StShutdown -> In j (socks_of e')) ->
  match e' with
  | Sap l' sl' => (2 <= a -> l' <> []) /\ (forall p, In p sl' -> is_ui p = false) /\ c_snl c' = c_snl c
  | SapNone => 2 <= a /\ c_snl c' = filter (fun kv => negb (snd kv =? a)) (c_snl c)
  | SapSD => False
  end -> wf c'.
Proof.
  intros W G SG ES LEN DM ND SUB KEEP SH.
  assert (GS : forall j, get_sock c' j = get_sock c j) by (intro; unfold get_sock; rewrite ES; reflexivity).
  assert (LI : forall b j, listed c' b j -> listed c b j).
  { intros b j. unfold listed. rewrite SG. destruct (a =? b) eqn:E; auto. replace b with a by lia. rewrite G. apply SUB. }
  (* a name survives unless its address is the slot that became empty *)
  assert (LK : forall n x, lookup (c_snl c') n = Some x <-> lookup (c_snl c) n = Some x /\ (e' = SapNone -> x <> a)).
  { intros n x. destruct e' as [| |l' sl']; [|destruct SH|].
    - destruct SH as [_ ->]. rewrite (lookup_drop_addr _ a n x (wf_snl_keys _ W)). intuition congruence.
    - destruct SH as (_ & _ & ->). split; [intro; split; [auto | discriminate] | tauto]. }
  assert (FR : forall x, (e' = SapNone -> x <> a) -> is_free c x = false -> is_free c' x = false).
  { intros x P. unfold is_free. rewrite SG. destruct (a =? x) eqn:E; auto. destruct e'; auto. specialize (P eq_refl). lia. }
  assert (NL : forall b j, listed c' b j -> e' = SapNone -> b <> a).
  { intros b j L E' ->. unfold listed in L. rewrite SG, Z.eqb_refl, E' in L. destruct L. }
  assert (A2 : e' = SapNone -> 2 <= a) by (intros ->; apply SH).
  destruct W as [Wlen W0 W1 Wsd Wne Wla Wnd Wol War Whg Wk Wsdp Wval Winj Wbs Wsb Wun Wsq Wrq Wdq Wsl Wdm].
  (* the clauses about the sockets alone, and listed_addr, hold as before since the sockets are the same *)
  constructor; try (intros j sj; rewrite GS; eauto; fail); auto.
  - rewrite SG. destruct (a =? 0) eqn:E; auto. replace a with 0 in * by lia. destruct W0 as (sl0 & E0).
    rewrite E0 in G. inversion G; subst l. destruct e' as [| |[|x t] sl']; [lia | destruct SH | eauto | destruct (SUB x); left; auto].
  - rewrite SG. destruct (a =? 1) eqn:E; auto. replace a with 1 in * by lia. congruence.
  - intros b Hb. rewrite SG. destruct (a =? b); auto. intros ->. exact SH.
  - intros b l0 sl0 Hb. rewrite SG. destruct (a =? b) eqn:E; [|apply Wne; auto]. intros ->. apply SH. lia.
  - intro b. rewrite SG. destruct (a =? b); auto.
  - intros j sj b Gj Aj Sj. rewrite GS in Gj. pose proof (Wol j sj b Gj Aj Sj) as L. unfold listed in *. rewrite SG.
    destruct (a =? b) eqn:E; auto. replace b with a in L by lia. rewrite G in L. eauto.
  - intros b j k sj sk Lj Lk. rewrite !GS. eauto.
  - destruct e' as [| |l' sl']; [|destruct SH|]; [destruct SH as [_ ->]; apply filter_keys_nodup | destruct SH as (_ & _ & ->)]; auto.
  - apply LK. split; auto. intros E' E1. specialize (A2 E'). lia.
  - intros n x L. apply LK in L. destruct L as [L P]. destruct (Wval n x L) as [?|(V & X & Fx & K)]; auto.
    right. repeat split; auto.
  - intros n1 n2 x Hx L1 L2. apply LK in L1. apply LK in L2. eapply Winj; eauto; tauto.
  - intros b j sj n L Gj Bj. rewrite GS in Gj. apply LK. split; [eapply Wbs; eauto | intros E' ->; eapply NL; eauto].
  - intros b j sj n Hb Ln L Gj. apply LK in Ln. rewrite GS in Gj. eapply Wsb; eauto; tauto.
  - intros b l0 sl0 p. rewrite SG. destruct (a =? b) eqn:E; [|apply Wsl]. intros ->. apply SH.
  - rewrite DM. auto.
Qed.

Lemma wf_sendl c a l sl sl' : wf c -> sap_get c a = Sap l sl -> (forall p, In p sl' -> is_ui p = false) ->
  wf (sap_set c a (Sap l sl')).
Proof.
  intros W G NU. assert (Ra : 0 <= a < 64) by (eapply sap_get_range; eauto; discriminate).
  apply (wf_shrink c _ a l sl (Sap l sl')); auto.
  - intro b. apply sap_get_set; auto. apply W.
  - apply sap_set_socks.
  - rewrite sap_set_len. apply W.
  - apply sap_set_dmpdu.
  - pose proof (wf_nodup _ W a) as N. rewrite G in N. exact N.
  - split; [intro; eapply (wf_nonempty _ W); eauto | split; [auto | apply sap_set_snl]].
Qed.

Lemma wf_sap_remove c a i s : wf c -> get_sock c i = Some s -> s_state s = StShutdown -> 2 <= a ->
  wf (sap_remove c a i).
Proof.
  intros W G St Ha. unfold sap_remove. destruct (sap_get c a) as [| |l sl] eqn:SG; auto.
  assert (Ra : 0 <= a < 64) by (eapply sap_get_range; eauto; discriminate).
  pose proof (wf_nodup _ W a) as NDl. rewrite SG in NDl. cbn in NDl.
  set (e' := match remove_id l i with [] => SapNone | l' => Sap l' sl end).
  assert (SO : socks_of e' = remove_id l i) by (unfold e'; destruct (remove_id l i); reflexivity).
  apply (wf_shrink c _ a l sl e'); auto; try rewrite SO.
  - intro b. unfold e'. destruct (remove_id l i); [change (sap_get (sap_set c a SapNone) b = if a =? b then SapNone else sap_get c b)|];
      apply sap_get_set; auto; apply W.
  - destruct (remove_id l i); [change (c_socks (sap_set c a SapNone) = c_socks c)|]; apply sap_set_socks.
  - destruct (remove_id l i); [change (length (c_sap (sap_set c a SapNone)) = 64%nat)|]; rewrite sap_set_len; apply W.
  - destruct (remove_id l i); [change (sd_dmpdu (sap_set c a SapNone) = sd_dmpdu c)|]; apply sap_set_dmpdu.
  - apply remove_id_nodup; auto.
  - intro j. apply remove_id_in.
  - intros j sj Lj Gj Sj. apply remove_id_keeps; auto. intro; subst j. congruence.
  - unfold e'. destruct (remove_id l i); [split; [auto | reflexivity]|].
    split; [discriminate | split; [|apply sap_set_snl]]. intros p Hp. eapply (wf_sendl_ui _ W); eauto.
Qed.

Lemma wf_accept c a i si client :
  wf c -> listed c a i -> get_sock c i = Some si -> s_type si = TDlc ->
  s_addr client = Some a -> s_type client = TDlc -> s_bname client = None -> nolisten (s_state client) ->
  s_sendq client = [] ->
  exists c3, sap_insert (set_socks c (c_socks c ++ [client])) a (length (c_socks c)) TDlc = Some c3 /\ wf c3 /\
             forall k, get_sock c3 k = if Nat.eqb k (length (c_socks c)) then Some client else get_sock c k.
Proof.
  intros W Li Gi Ti Ac Tc Bc Nc Qc.
  set (j := length (c_socks c)). set (c2 := set_socks c (c_socks c ++ [client])).
  assert (G2 : forall k, get_sock c2 k = if Nat.eqb k j then Some client else get_sock c k) by (intro; apply get_sock_app).
  destruct (sap_get c a) as [| |l sl] eqn:SG; try (unfold listed in Li; rewrite SG in Li; destruct Li).
  assert (Ra : 0 <= a < 64) by (eapply sap_get_range; eauto; discriminate).
  assert (LA : forall k, In k l -> listed c a k) by (intros k H; unfold listed; rewrite SG; exact H).
  unfold sap_insert. change (sap_get c2 a) with (sap_get c a). rewrite SG.
  (* insert_socket accepts the new socket: the first socket of the SAP is a connection socket as well *)
  assert (INS : match l with [] => true | h :: _ => match get_sock c2 h with Some sh => stype_eqb (s_type sh) TDlc | None => false end end = true).
  { destruct l as [|h t]; auto. assert (Lh : listed c a h) by (apply LA; left; auto).
    destruct (wf_listed_addr _ W a h Lh) as (sh & Gh & _). rewrite G2.
    replace (Nat.eqb h j) with false by (symmetry; apply Nat.eqb_neq; apply get_sock_lt in Gh; unfold j; lia). rewrite Gh.
    rewrite (wf_homog _ W a h i sh si Lh Li Gh Gi), Ti. reflexivity. }
  rewrite INS. set (c3 := sap_set c2 a (Sap (j :: l) sl)). exists c3. split; auto.
  assert (GS : forall k, get_sock c3 k = if Nat.eqb k j then Some client else get_sock c k)
    by (intro k; unfold c3; rewrite get_sock_sap_set; apply G2).
  split; [|exact GS].
  apply (wf_grow c c3 a l sl j client None); auto.
  - destruct (wf_listed_addr _ W a i Li) as (s0 & G0 & A0). eapply (wf_addr_range _ W); eauto.
  - rewrite SG. reflexivity.
  - intro p. apply (wf_sendl_ui _ W a l sl p SG).
  - intro b. apply (sap_get_set c2); auto. apply W.
  - intro k. rewrite GS, Nat.eqb_sym. reflexivity.
  - unfold c3. rewrite sap_set_len. apply W.
  - unfold c3. rewrite sap_set_dmpdu. reflexivity.
  - unfold c3. rewrite sap_set_snl. reflexivity.
  - intros sj Gj. apply get_sock_lt in Gj. unfold j in Gj. lia.
  - intros k sk Lk Gk. rewrite Tc, <- Ti. symmetry. exact (wf_homog _ W a k i sk si (LA k Lk) Li Gk Gi).
  - congruence.
  - intros _ p H. rewrite Qc in H. destruct H.
Qed.
