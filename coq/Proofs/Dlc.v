(* C05 - the two-direction invariant of the data link connection pair (Model/Dlc.v) holds in
   every reachable state: for ALL op lists (induction over fold_left step) and all windows 0..15
   on each side, all MIUs.  Corollaries: in order / exactly once, window respected across the
   modulo-16 wrap-around, no receive-queue overflow / no FRMR, EMSGSIZE. *)
From Coq Require Import ZArith List Bool Lia ZifyBool.
From NV Require Import Base.Result Base.Bytes Model.Dlc Proofs.DlcBase.
Import ListNotations.
Open Scope Z_scope.

Lemma other_other sd : other (other sd) = sd. Proof. destruct sd; reflexivity. Qed.
Lemma set_ep_same s sd : set_ep s sd (get_ep s sd) = s. Proof. destruct s, sd; reflexivity. Qed.

Ltac sim := cbn [est vs vsa vr vra rwl rbuf rwr smiu rmiu confs acks busy busy_sent send_busy sq rq
                 set_est set_vs set_vsa set_vr set_vra set_confs set_acks set_busy set_busy_sent set_send_busy
                 set_sq set_rq fst snd].

Definition Dir (x y : ep) (wxy wyx : list pdu) (g : ghost) : Prop :=
  DirInv (vs x) (vsa x) (rwr x) (smiu x) (Is wxy ++ Is (sq x))
         (vr y) (vra y) (rwl y) (rbuf y) (rmiu y) (confs y) (rq y) (nrs wyx) g.

(* what holds for the direction sd -> other sd, and for endpoint / outgoing wire of sd *)
Definition Inv1 (s : sys) (sd : side) : Prop :=
  Dir (get_ep s sd) (get_ep s (other sd)) (get_w s sd) (get_w s (other sd)) (get_g s sd) /\
  est (get_ep s sd) = true /\
  Forall (fun p => isI p = true) (sq (get_ep s sd)) /\
  Forall (fun p => notF p = true) (get_w s sd).

Definition Inv (s : sys) : Prop := forall sd, Inv1 s sd.

Lemma inv_two s sd : Inv1 s sd -> Inv1 s (other sd) -> Inv s.
Proof. intros H1 H2 sd'. destruct sd, sd'; assumption. Qed.

Definition cfg_ok (c : cfg) : Prop := 0 <= rw_a c <= 15 /\ 0 <= rw_b c <= 15.

Lemma inv_init c : cfg_ok c -> Inv (init c).
Proof.
  intros [Ha Hb] sd. destruct sd; unfold Inv1, Dir, DirInv, init, ep_init, g_init; cbn;
    repeat split; try lia; try reflexivity; constructor.
Qed.

(* the invariant seen from one endpoint: x sends to y over wxy, and receives over wyx *)
Definition Half (x y : ep) (wxy wyx : list pdu) (g : ghost) : Prop :=
  Dir x y wxy wyx g /\ est x = true /\
  Forall (fun p => isI p = true) (sq x) /\ Forall (fun p => notF p = true) wxy.
Definition Pair (x y : ep) (wxy wyx : list pdu) (gx gy : ghost) : Prop :=
  Half x y wxy wyx gx /\ Half y x wyx wxy gy.

Lemma inv_view s sd : Inv s <->
  Pair (get_ep s sd) (get_ep s (other sd)) (get_w s sd) (get_w s (other sd)) (get_g s sd) (get_g s (other sd)).
Proof.
  split.
  - intro H. split; [exact (H sd)|]. specialize (H (other sd)). unfold Inv1 in H. rewrite other_other in H. exact H.
  - intros [H1 H2]. apply (inv_two _ sd); [exact H1|]. unfold Inv1. rewrite other_other. exact H2.
Qed.

Lemma pair_send x y wxy wyx gx gy m : Pair x y wxy wyx gx gy ->
  (smiu x <? len m) = false -> (send_window_slots x =? 0) = false ->
  Pair (set_sq (set_vs x ((vs x + 1) mod 16)) (sq x ++ [PI (vs x) 0 m])) y wxy wyx (g_sent gx m) gy.
Proof.
  intros [(Hxy & Ex & Ix & Fxy) (Hyx & Hy)] E1 E2. unfold send_window_slots in E2.
  split; (split; [unfold Dir in *; sim|]).
  - rewrite Is_app. cbn [Is]. rewrite app_assoc. apply dir_send; [exact Hxy | lia | lia].
  - sim. repeat split; try assumption. apply Forall_app. split; [exact Ix|]. repeat constructor.
  - exact Hyx.
  - exact Hy.
Qed.

(* under the invariant recv never raises; it returns the head of the receive queue *)
Lemma pair_recv x y wxy wyx gx gy : Pair x y wxy wyx gx gy ->
  match rq x with
  | [] => ep_recv_nb x = (x, Ok None)
  | d :: q => let x' := set_confs (set_rq x q) (confs x + 1) in
              ep_recv_nb x = (x', Ok (Some d)) /\ Pair x' y wxy wyx gx (g_dlv gy d)
  end.
Proof.
  intros [(Hxy & Ex & Hx) (Hyx & Hy)]. unfold ep_recv_nb, ep_poll_recv, ep_recv. rewrite Ex; cbn [negb].
  destruct (rq x) as [|d q] eqn:Erq; [reflexivity|].
  unfold Dir in Hyx. rewrite Erq in Hyx. apply dir_recv in Hyx. destruct Hyx as [Hc Hyx].
  replace (rwl x <? confs x + 1) with false by lia.
  split; [reflexivity|]. split; (split; [unfold Dir in *; sim; assumption|]); [exact (conj Ex Hx) | exact Hy].
Qed.

(* what dequeue / sendack return: nothing and no change, or a PDU for the wire; the receive
   confirmations it acknowledges advance the ghost RA of the opposite direction (as in [emit]) *)
Definition Emits (x y : ep) (wxy wyx : list pdu) (gx gy : ghost) (r : ep * option pdu) : Prop :=
  match snd r with
  | None => fst r = x
  | Some p => Pair (fst r) y (wxy ++ [p]) wyx gx (g_ra gy (confs x - confs (fst r)))
  end.

Lemma Is_ack x nr : Is [ack_pdu x nr] = []. Proof. unfold ack_pdu; destruct (busy x); reflexivity. Qed.
Lemma nrs_ack x nr : nrs [ack_pdu x nr] = [nr]. Proof. unfold ack_pdu; destruct (busy x); reflexivity. Qed.
Lemma notF_ack x nr : notF (ack_pdu x nr) = true. Proof. unfold ack_pdu; destruct (busy x); reflexivity. Qed.

(* x with all its receive confirmations put into V(RA), or unchanged *)
Definition ackd (b : bool) (x : ep) : ep :=
  if b then set_confs (set_vra x ((vra x + confs x) mod 16)) 0 else x.

(* every PDU an endpoint emits: p carries V(RA) after an acknowledgement of all or none of the
   receive confirmations; its I PDU and those of the new send queue q are those of the old one *)
Lemma pair_emit b q p x y wxy wyx gx gy : Pair x y wxy wyx gx gy ->
  let x' := ackd b (set_sq x q) in
  Is [p] ++ Is q = Is (sq x) -> Forall (fun p => isI p = true) q -> notF p = true -> nrs [p] = [vra x'] ->
  Pair x' y (wxy ++ [p]) wyx gx (g_ra gy (confs x - confs x')).
Proof.
  intros [(Hxy & Ex & Ix & Fxy) (Hyx & Hy)] x' EI Iq Fp En.
  assert (Fw : Forall (fun p => notF p = true) (wxy ++ [p])).
  { apply Forall_app. split; [exact Fxy|]. repeat constructor. exact Fp. }
  unfold Pair, Half, Dir in *. rewrite Is_app, nrs_app, <- app_assoc, En. subst x'.
  destruct b; unfold ackd; sim; rewrite EI; (split; [exact (conj Hxy (conj Ex (conj Iq Fw)))|]); (split; [|exact Hy]).
  - eapply dir_ack; [exact Hyx | lia | reflexivity].
  - eapply dir_push; [exact Hyx | lia].
Qed.

Lemma emits_ack_now x y wxy wyx gx gy : Pair x y wxy wyx gx gy -> Emits x y wxy wyx gx gy (ack_now x).
Proof.
  intros H. pose proof H as [(_ & _ & Ix & _) _].
  exact (pair_emit true (sq x) _ x y wxy wyx gx gy H (f_equal (fun l => l ++ _) (Is_ack x _)) Ix (notF_ack x _) (nrs_ack x _)).
Qed.

Lemma emits_sendack x y wxy wyx gx gy : Pair x y wxy wyx gx gy -> Emits x y wxy wyx gx gy (ep_sendack x).
Proof.
  intro H. unfold ep_sendack. destruct (est x && negb (confs x =? 0) && negb (vr x =? vra x)).
  - apply emits_ack_now, H.
  - reflexivity.
Qed.

Lemma emits_necessary x y wxy wyx gx gy : Pair x y wxy wyx gx gy -> Emits x y wxy wyx gx gy (necessary_ack x).
Proof.
  intro H. unfold necessary_ack. destruct (est x && negb (confs x =? 0) && (recv_window_slots x =? 0)).
  - apply emits_ack_now, H.
  - reflexivity.
Qed.

Lemma emits_dequeue x y wxy wyx gx gy miu icv : Pair x y wxy wyx gx gy ->
  Emits x y wxy wyx gx gy (ep_dequeue x miu icv).
Proof.
  intro H. pose proof H as [(_ & Ex & Ix & _) _]. unfold ep_dequeue. rewrite Ex; cbn [andb].
  destruct (negb (eqb (busy_sent x) (busy x))).
  { (* receiver busy state changed: RR / RNR with the unchanged V(RA) *)
    exact (pair_emit false (sq x) _ x y wxy wyx gx gy H (f_equal (fun l => l ++ _) (Is_ack x _)) Ix (notF_ack x _) (nrs_ack x _)). }
  destruct (sq x) as [|p q] eqn:Esq; [apply emits_necessary, H|].
  destruct (miu <? pdu_info_size p icv); [apply emits_necessary, H|].
  inversion Ix as [|? ? HpI Iq]; subst. destruct p as [ns nr d| | |]; try discriminate HpI.
  (* an I PDU, with or without a piggy-backed acknowledgement *)
  apply (pair_emit (negb (confs x =? 0) && negb (vr x =? vra x)) q); [exact H | rewrite Esq | exact Iq | ..]; reflexivity.
Qed.

Lemma process_nr_eq x nr : let a := (nr - vsa x) mod 16 in
  process_nr x nr = set_vsa (set_acks x (acks x + a)) (if a =? 0 then vsa x else nr).
Proof.
  cbv zeta. unfold process_nr. destruct (_ =? 0) eqn:E; [|reflexivity].
  apply Z.eqb_eq in E. rewrite E, Z.add_0_r. destruct x; reflexivity.
Qed.

(* enqueue of the first PDU on the incoming wire: never a frame reject, never a discard.
   N(R) of any PDU is the head of the list the direction x -> y waits for (dir_pop);
   an I PDU is also the first frame in flight of the direction y -> x (dir_accept). *)
Lemma pair_enqueue x y wxy p wyx gx gy : Pair x y wxy (p :: wyx) gx gy ->
  let x' := fst (ep_enqueue x p) in
  sq x' = sq x /\ Pair x' y wxy wyx (g_acked gx (acks x' - acks x)) (g_enq gy (snd (ep_enqueue x p))).
Proof.
  intros [(Hxy & Ex & Ix & Fxy) (Hyx & Ey & Iy & Fyx)]. inversion Fyx as [|? ? HpF Fw]; subst.
  unfold ep_enqueue. rewrite Ex; cbn [negb]. unfold Dir in Hxy, Hyx.
  destruct p as [ns nr d|nr|nr|]; try discriminate HpF; cbn [Is app nrs] in Hxy, Hyx; rewrite process_nr_eq.
  - apply dir_accept in Hyx. destruct Hyx as (Hns & Hd & Hroom & Hyx).
    replace (rmiu x <? len d) with false by lia. replace (negb (ns =? vr x)) with false by lia. sim.
    replace (len (rq x) <? rbuf x) with true by lia. cbn [fst snd]. sim.
    split; [reflexivity|]. split; (split; [unfold Dir; sim | sim; repeat split; assumption]).
    + eapply dir_pop; [exact Hxy | lia | reflexivity].
    + exact Hyx.
  - cbn [fst snd g_enq]. sim.
    split; [reflexivity|]. split; (split; [unfold Dir; sim | sim; repeat split; assumption]).
    + eapply dir_pop; [exact Hxy | lia | reflexivity].
    + exact Hyx.
  - cbn [fst snd g_enq]. sim.
    split; [reflexivity|]. split; (split; [unfold Dir; sim | sim; repeat split; assumption]).
    + eapply dir_pop; [exact Hxy | lia | reflexivity].
    + exact Hyx.
Qed.

Lemma emit_inv s sd r : Inv s ->
  Emits (get_ep s sd) (get_ep s (other sd)) (get_w s sd) (get_w s (other sd)) (get_g s sd) (get_g s (other sd)) r ->
  Inv (fst (emit s sd r)).
Proof.
  intros HI H. destruct r as [x' [p|]]; unfold Emits in H; cbn [fst snd] in H; unfold emit; cbn [fst].
  - apply (inv_view _ sd). destruct s, sd; exact H.
  - rewrite H, set_ep_same. exact HI.
Qed.

Theorem inv_step s o : Inv s -> Inv (step s o).
Proof.
  intro HI. unfold step, step_full.
  destruct o as [sd m|sd|sd b|sd|sd miu icv|sd|sd]; pose proof (proj1 (inv_view s sd) HI) as HP.
  - pose proof HP as [(_ & Ex & _) _]. unfold ep_send. rewrite Ex; cbn [negb].
    destruct (smiu (get_ep s sd) <? len m) eqn:E1; [exact HI|].
    destruct (send_window_slots (get_ep s sd) =? 0) eqn:E2; [exact HI|].
    cbn [fst]. apply (pair_send _ _ _ _ _ _ m HP) in E1; [|exact E2]. apply (inv_view _ sd). destruct s, sd; exact E1.
  - apply pair_recv in HP. destruct (rq (get_ep s sd)) as [|d q].
    + rewrite HP. cbn [fst]. rewrite set_ep_same. exact HI.
    + destruct HP as [-> HP]. cbn [fst]. apply (inv_view _ sd). destruct s, sd; exact HP.
  - cbn [fst]. apply (inv_view _ sd). destruct s, sd; exact HP.
  - unfold ep_poll_acks. destruct (negb (est (get_ep s sd))); [cbn [fst]; rewrite set_ep_same; exact HI|].
    destruct (0 <? acks (get_ep s sd)); cbn [fst]; [|rewrite set_ep_same; exact HI].
    apply (inv_view _ sd). destruct s, sd; exact HP.
  - apply emit_inv, emits_dequeue, HP. exact HI.
  - apply emit_inv, emits_sendack, HP. exact HI.
  - destruct (get_w s (other sd)) as [|p w]; [exact HI|].
    apply pair_enqueue in HP. destruct HP as [_ HP]. destruct (ep_enqueue (get_ep s sd) p) as [x' r].
    cbn [fst snd] in *. apply (inv_view _ sd). destruct s, sd; exact HP.
Qed.

Lemma inv_run_from s ops : Inv s -> Inv (fold_left step ops s).
Proof. revert s; induction ops as [|o ops IH]; intros s H; cbn [fold_left]; [exact H|]. apply IH, inv_step, H. Qed.

Theorem inv_reachable c ops : cfg_ok c -> Inv (run c ops).
Proof. intro Hc. apply inv_run_from, inv_init, Hc. Qed.

(* llc.collect() without aggregation is one or two ops of the alphabet, so everything above applies *)
Lemma collect1_ops s sd miu : exists ops, fst (collect1 s sd miu) = fold_left step ops s.
Proof.
  unfold collect1. destruct (step_full s (Deq sd miu 0)) as [s1 o] eqn:E.
  assert (Es : s1 = step s (Deq sd miu 0)) by (unfold step; rewrite E; reflexivity).
  destruct o as [r|r| |r|[p|]|d];
    try (exists [Deq sd miu 0]; cbn [fold_left fst]; exact Es).
  exists [Deq sd miu 0; Ack sd]. cbn [fold_left]. rewrite <- Es. reflexivity.
Qed.
