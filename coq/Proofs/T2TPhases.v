(* Type 2 writer: the caches after each phase of _write_ndef_data on a well-formed layout, what
   they change (only NDEF-area bytes), what a reader finds in them, and how the tag memory (seen
   through READ) follows the executed WRITE commands. *)
From Coq Require Import ZArith List Bool Lia ZifyBool.
From NV Require Import Base.Result Base.Bytes Model.TlvMem Model.T2T Proofs.TlvLib Proofs.TlvPhases Proofs.T2TRead.
Import ListNotations.
Open Scope Z_scope.
Ltac Zify.zify_post_hook ::= Z.to_euclidean_division_equations.

Lemma pad_spec (n : nat) : exists k, (n + (16 - n mod 16) mod 16 = k * 4)%nat.
Proof.
  pose proof (Nat.div_mod n 16 ltac:(lia)). pose proof (Nat.mod_upper_bound n 16 ltac:(lia)).
  set (r := (n mod 16)%nat) in *. set (q := (n / 16)%nat) in *.
  assert (E : ((16 - r) mod 16 = if Nat.eqb r 0 then 0 else 16 - r)%nat).
  { destruct (Nat.eqb_spec r 0) as [e|e]; [rewrite e; reflexivity | rewrite Nat.mod_small by lia; reflexivity]. }
  rewrite E. destruct (Nat.eqb_spec r 0); [exists (4 * q)%nat | exists (4 * (q + 1))%nat]; lia.
Qed.
Lemma view_length m : 16 <= len m -> exists k, length (view m) = (k * 4)%nat /\ (length m <= length (view m))%nat.
Proof.
  intro H. unfold view, len in *. destruct (pad_spec (length m)) as [k Hk].
  pose proof (Nat.mod_upper_bound (16 - length m mod 16) 16 ltac:(lia)) as Hp.
  rewrite app_length, firstn_length_le by lia. exists k. lia.
Qed.
Lemma get_view m a : 0 <= a < len m -> get (view m) a = get m a.
Proof. intro H. unfold get, view. apply app_nth1. unfold len in H. lia. Qed.
Lemma view_prefix m : firstn (length m) (view m) = m.
Proof. unfold view. rewrite firstn_app, Nat.sub_diag, firstn_all. cbn. apply app_nil_r. Qed.

Lemma apply1_length m w : 0 <= fst w -> fst w + len (snd w) <= len m -> length (apply1 m w) = length m.
Proof. intros H0 H1. unfold apply1. unfold len in *. rewrite !app_length, firstn_length_le, skipn_length by lia. lia. Qed.

(* READ sees the effect of a WRITE to the pages 4 .. n-1 *)
Lemma view_apply1 m w : 16 <= fst w -> fst w + len (snd w) <= len m -> view (apply1 m w) = apply1 (view m) w.
Proof.
  intros H0 H1. unfold view. rewrite apply1_length by lia.
  set (p := ((16 - length m mod 16) mod 16)%nat). assert (Hp : (p < 16)%nat) by (subst p; apply Nat.mod_upper_bound; lia).
  unfold len in *.
  assert (E : firstn p (apply1 m w) = firstn p m).
  { unfold apply1. rewrite firstn_app, firstn_firstn. rewrite firstn_length_le by lia.
    replace (p - Z.to_nat (fst w))%nat with O by lia. cbn [firstn]. rewrite app_nil_r. f_equal. lia. }
  rewrite E. unfold apply1. rewrite firstn_app. replace (Z.to_nat (fst w) - length m)%nat with O by lia.
  cbn [firstn]. rewrite app_nil_r. rewrite skipn_app.
  replace (Z.to_nat (fst w) + length (snd w) - length m)%nat with O by lia. cbn [skipn].
  rewrite <- !app_assoc. reflexivity.
Qed.
Lemma view_apply m ws : (forall w, In w ws -> 16 <= fst w /\ fst w + len (snd w) <= len m) ->
  view (apply_ws m ws) = apply_ws (view m) ws /\ len (apply_ws m ws) = len m.
Proof.
  revert m. induction ws as [|w ws IH]; intros m H; [split; reflexivity|].
  destruct (H w (or_introl eq_refl)) as [H0 H1]. cbn [apply_ws fold_left].
  change (fold_left apply1 ?l ?x) with (apply_ws x l).
  assert (Hl : len (apply1 m w) = len m) by (unfold len; rewrite apply1_length by lia; reflexivity).
  destruct (IH (apply1 m w)) as [I1 I2]; [intros w' Hw'; rewrite Hl; apply H; right; exact Hw'|].
  rewrite I1, I2, view_apply1 by lia. split; [reflexivity | exact Hl].
Qed.

(* outside the NDEF area the tag memory is what it was *)
Lemma touch_frame m L cf m' : touch L (view m) cf -> view m' = cf -> len m' = len m ->
  forall a, 0 <= a < len m -> ndef_area L a = false -> get m' a = get m a.
Proof.
  intros T Hv Hl a Ha Har. rewrite <- (get_view m a Ha), <- (get_view m' a) by lia. rewrite Hv.
  apply (touch_same L _ _ a T); [lia | right; exact Har].
Qed.

Lemma straddle_one_unit off : 0 <= off -> straddle off = false -> one_unit 4 off.
Proof.
  intros H0 Es. unfold one_unit. unfold straddle in Es. rewrite !Z.shiftr_div_pow2 in Es by lia.
  change (2 ^ 2) with 4 in Es. change (Z.of_nat 4) with 4. lia.
Qed.

Definition wfL (m : list Z) (L : layout) : Prop :=
  t2_reader (view m) = Ok (Some L) /\ (length m mod 4 = 0)%nat /\ 16 <= len m /\ l_rd L = true /\ l_wr L = true /\
  l_dend L <= len m /\ l_hw L <= l_off L /\ 16 <= l_off L /\ l_off L + 1 < l_dend L /\
  in_skip (l_skip L) (l_off L) = false /\ in_skip (l_skip L) (l_off L + 1) = false /\
  (255 <= l_cap L -> in_skip (l_skip L) (l_off L + 2) = false /\ in_skip (l_skip L) (l_off L + 3) = false).
Lemma wfL_reader m L : wfL m L -> t2_reader (view m) = Ok (Some L). Proof. intro H. apply H. Qed.
Lemma wfL_rd m L : wfL m L -> l_rd L = true. Proof. intro H. apply H. Qed.
Lemma wfL_wr m L : wfL m L -> l_wr L = true. Proof. intro H. apply H. Qed.
Lemma wfL_layout m L L' : wfL m L' -> t2_layout m = Some L -> L' = L.
Proof. intros H HL. unfold t2_layout in HL. rewrite (wfL_reader _ _ H) in HL. congruence. Qed.
Ltac use_wfL H := destruct H as (?Hr & ?H4 & ?H16 & ?Hrd & ?Hwr & ?Hde & ?Hhw & ?Ho16 & ?Ho1 & ?S0 & ?S1 & ?S23).

Lemma wf_layout_wfL m : wf_layout m -> exists L, wfL m L.
Proof.
  unfold wf_layout, wf_layoutb. intro H. apply andb_true_iff in H as [Hsz H]. apply andb_true_iff in Hsz as [H4 H16].
  destruct (t2_reader (view m)) as [[L|]| | |] eqn:E; try discriminate.
  exists L. split; [exact E|]. split; [apply Nat.eqb_eq, H4|]. split; [lia | apply wf_tail_iff, H].
Qed.

Section Layout.
Variables (m : list Z) (L : layout).
Hypothesis WF : wfL m L.
Set Default Proof Using "WF".

Notation em := (view m).
Notation off := (l_off L).
Notation skip := (l_skip L).
Notation dend := (l_dend L).

(* the generic analysis (Proofs/TlvPhases.v) applies with everything READ can deliver as readable image, unit 4 and
   reader t2_reader *)
Lemma wfL_gen : gen_layout em L 4 (length em / 4) t2_reader.
Proof.
  use_wfL WF. destruct (view_length m H16) as (k & Ek & Hle).
  pose proof (t2_reader_inv _ _ Hr) as [Hr0 _].
  destruct (t2_read_inv _ _ Hr0) as (b13 & b14 & b15 & _ & _ & _ & _ & _ & _ & Hw & Hc & _).
  constructor; try assumption; try (unfold len in *; lia).
  - rewrite Ek, Nat.div_mul by lia. reflexivity.
  - destruct (t2_walk_found _ _ _ _ _ _ _ _ _ _ _ Hw) as (_ & _ & l & e & H).
    apply read_tlv_inv in H. destruct H as (H & _). apply rd_inv in H. symmetry. apply H.
  - intros c l' v' e' HA HF HR. apply (t2_reader_transfer em c L l' v' e' Hr0); [| exact HF | exact HR].
    apply (agree_below_le (off + 1)); [lia | exact HA].
Qed.
(* every page that holds a byte of the NDEF area lies inside the memory *)
Lemma wfL_bound : forall x, off < x -> ndef_area L x = true -> x / Z.of_nat 4 * Z.of_nat 4 + Z.of_nat 4 <= len m.
Proof.
  use_wfL WF. intros x Hx Ha. unfold ndef_area in Ha.
  assert (Hm : len m mod 4 = 0) by (unfold len; change 4 with (Z.of_nat 4); rewrite <- Nat2Z.inj_mod, H4; reflexivity).
  change (Z.of_nat 4) with 4. lia.
Qed.
(* the commands are pages behind page 3: READ sees their effect *)
Lemma view_cmds ws : (forall w, In w ws -> area_cmd L 4 (len m) w) ->
  view (apply_ws m ws) = apply_ws em ws /\ len (apply_ws m ws) = len m.
Proof.
  intro H. apply view_apply. intros w Hw. destruct (H w Hw) as (H0 & Hmod & Hb & Hd & x & Hx & Hox & _).
  use_wfL WF. change (Z.of_nat 4) with 4 in *. lia.
Qed.

Lemma t2_caches (d : list Z) : len d <= l_cap L ->
  caches_ok em L 4 t2_reader (t2_phases L d) d True.
Proof.
  intro Hcap. pose proof wfL_gen as G. unfold t2_phases.
  destruct (Z.ltb_spec (len d) 255) as [Hd|Hd]; cbn [app].
  - apply (caches_short _ _ _ _ _ G); assumption.
  - destruct (straddle off) eqn:Es; cbn [app].
    + apply (caches_split _ _ _ _ _ G); assumption.
    + apply (caches_weaken _ _ _ _ _ G _ _ (one_unit 4 off)); [|apply (caches_joint _ _ _ _ _ G); assumption].
      intros _. apply straddle_one_unit; [apply G | exact Es].
Qed.

Lemma wipe_loop_spec w : forall n a c, length c = length em -> off < a -> a + Z.of_nat n <= dend ->
  exists c', wipe_loop skip a n w c = Ok c' /\ touch L c c'.
Proof.
  pose proof wfL_gen as [_ _ Hde' Ho0 _ _ _ _ _ _].
  induction n as [|n IH]; intros a c Hl Ha Hn; [exists c; split; [reflexivity | apply touch_refl]|].
  cbn [wipe_loop]. destruct (in_skip skip a) eqn:Es; [apply IH; [assumption | lia | lia]|].
  destruct (upd_ok c a w) as [c1 H1]; [unfold len in *; lia|]. rewrite H1. cbn [bind].
  destruct (upd_touch L _ _ _ _ H1 ltac:(lia) (area_intro L a ltac:(lia) Es)) as [T1 _].
  destruct (IH (a + 1) c1) as (c' & H' & T'); [destruct T1; congruence | lia | lia |].
  exists c'. split; [exact H' | eapply touch_trans; eassumption].
Qed.
Lemma ph_format_spec wipe : exists c, ph_format L wipe em = Ok c /\ touch L em c.
Proof.
  pose proof wfL_gen as [_ _ Hde' Ho0 Ho1' _ _ Hs1 _ _]. unfold ph_format.
  destruct (upd_ok em (off + 1) 0) as [c1 H1]; [lia|]. rewrite H1. cbn [bind].
  destruct (upd_touch L _ _ _ _ H1 ltac:(lia) (area_intro L (off + 1) ltac:(lia) Hs1)) as [T1 _].
  assert (L1 : length c1 = length em) by apply T1.
  destruct (term_pos skip (off + 2) (Z.to_nat (dend - (off + 2)))) as [t|] eqn:Et; [|exists c1; auto].
  apply term_pos_spec in Et. destruct Et as [Et1 Et2].
  destruct (upd_ok c1 t 254) as [c2 H2]; [unfold len in *; lia|]. rewrite H2. cbn [bind].
  destruct (upd_touch L _ _ _ _ H2 ltac:(lia) (area_intro L t ltac:(lia) Et2)) as [T2 _].
  assert (T12 : touch L em c2) by (eapply touch_trans; eassumption).
  destruct wipe as [w|]; [|exists c2; auto].
  destruct (wipe_loop_spec (Z.land w 255) (Z.to_nat (dend - (t + 1))) (t + 1) c2) as (c3 & H3 & T3);
    [destruct T12; congruence | lia | lia |].
  exists c3. split; [exact H3 | eapply touch_trans; eassumption].
Qed.

Lemma t2_write_result (d : list Z) : len d <= l_cap L ->
  exists cs cf, t2_write m d = (Ok tt, chain_cmds 4 em cs) /\
    (forall w, In w (chain_cmds 4 em cs) -> area_cmd L 4 (len m) w) /\
    view (apply_ws m (chain_cmds 4 em cs)) = cf /\ len (apply_ws m (chain_cmds 4 em cs)) = len m /\
    touch L em cf /\ t2_reader cf = Ok (Some (set_val L d)) /\
    (forall j, let x := view (apply_ws m (firstn j (chain_cmds 4 em cs))) in x = em \/ hdr0 em L x \/ x = cf).
Proof.
  intro Hcap.
  destruct (write_result _ _ _ _ _ wfL_gen _ wfL_bound _ _ _ (t2_caches d Hcap)) as (cs & cf & Hrun & Hok & Hv & Ht & Hf & Hcut).
  exists cs, cf. split.
  { unfold t2_write. use_wfL WF. rewrite Hr, Hwr. cbn [negb]. replace (l_cap L <? len d) with false by lia. exact Hrun. }
  destruct (view_cmds _ Hok) as [V1 V2]. rewrite V1. repeat (split; [assumption|]). intro j. cbv zeta.
  rewrite (proj1 (view_cmds (firstn j _) (fun w Hw => Hok w (In_firstn _ _ _ Hw)))). exact (Hcut I j).
Qed.
End Layout.
Set Default Proof Using "Type".
