(* C18 - connect(): the contract theorems, derived from the structure of the trace
   (Proofs/Connect.v: connect_struct, mrounds, block_ok).  For ALL options, oracle states, fuel. *)
From Coq Require Import ZArith List Bool Arith Lia.
From NV Require Import Model.Connect Proofs.ConnectSense Proofs.Connect.
Import ListNotations.

(* a piece of trace after which everything reads as without it: nothing in it decides the result, no callback
   is pending after it, terminate() has not answered true *)
Record transparent (l : list ev) : Prop := {
  tp_scan : spec_scan l = None; tp_held : held_after None (cbs l) = Some None;
  tp_noterm : has_term_true l = false; tp_stops : stops_b false l = true }.

Lemma transparent_app l1 l2 : transparent l1 -> transparent l2 -> transparent (l1 ++ l2).
Proof.
  intros [a1 b1 c1 d1] [a2 b2 c2 d2]. constructor.
  - rewrite spec_scan_app, a1. exact a2.
  - rewrite cbs_app, held_after_app, b1. exact b2.
  - rewrite has_term_app, c1. exact c2.
  - rewrite stops_app, d1, c1. exact d2.
Qed.
Lemma term_log_transparent has : transparent (term_log has false).
Proof. destruct has; constructor; reflexivity. Qed.
Lemma opt_startup_transparent b l : opt_startup b l -> transparent l.
Proof. intros [->|(u & ->)]; constructor; reflexivity. Qed.
Lemma startup_transparent pre : startup_shape pre -> transparent pre.
Proof. intros (x & y & z & -> & Hx & Hy & Hz). repeat apply transparent_app; eapply opt_startup_transparent; eassumption. Qed.
Lemma held_ok_none x : held_ok BNone x = true -> x = Some None.
Proof. destruct x as [[b|]|]; cbn; congruence. Qed.
Lemma block_transparent b l : block_ok b BNone l -> transparent l.
Proof. intros [_ _ sc st nt h]. constructor; auto using held_ok_none. Qed.

(* how a trace of connect() ends *)
Inductive last_piece : out rv -> list ev -> Prop :=
| LpTypeError : last_piece (Raise XTypeError) [EvRaise XTypeError]
| LpNothing : last_piece (Ret RNone) []
| LpStop : last_piece (Ret RNone) [EvTerm true]
| LpBlock b r l : is_fin r = true -> block_ok b r l -> last_piece (final r) l.

Lemma final_not_hang r : final r <> Hang -> r <> BHang.
Proof. destruct r; cbn; congruence. Qed.
Lemma handle_not_hang e : handle e <> Hang.
Proof. destruct e; cbn; discriminate. Qed.

Lemma mrounds_last has r l : mrounds has r l -> r <> Hang ->
  exists pre last, l = pre ++ last /\ transparent pre /\ last_piece r last.
Proof.
  pose proof (term_log_transparent has) as T.
  induction 1 as [| |s1 s2 s3 r rest B1 B2 B3 _ IH|r1 s1 F B1|r2 s1 s2 F B1 B2|r3 s1 s2 s3 F B1 B2 B3]; intro Hnh.
  - congruence.
  - exists [], [EvTerm true]. repeat constructor.
  - destruct (IH Hnh) as (pre & last & -> & Tp & L). exists (term_log has false ++ s1 ++ s2 ++ s3 ++ pre), last.
    rewrite <- !app_assoc. split; [reflexivity|]; split; [repeat apply transparent_app; eauto using block_transparent | exact L].
  - exists (term_log has false), s1. pose proof (B1 (final_not_hang _ Hnh)). eauto using LpBlock.
  - exists (term_log has false ++ s1), s2. rewrite <- app_assoc. pose proof (B2 (final_not_hang _ Hnh)).
    split; [reflexivity|]; split; [repeat apply transparent_app; eauto using block_transparent | eauto using LpBlock].
  - exists (term_log has false ++ s1 ++ s2), s3. rewrite <- !app_assoc. pose proof (B3 (final_not_hang _ Hnh)).
    split; [reflexivity|]; split; [repeat apply transparent_app; eauto using block_transparent | eauto using LpBlock].
Qed.

Lemma connect_last o fuel inner s r l s' : connect true o fuel inner s = (r, l, s') -> r <> Hang ->
  exists pre last, l = pre ++ last /\ transparent pre /\ last_piece r last.
Proof.
  intros H Hnh. destruct (connect_struct _ _ _ _ _ _ _ H) as (pre & body & -> & Hs & Hb). apply startup_transparent in Hs.
  destruct Hb as [[-> ->]|[[-> ->]|Hm]]; [exists pre, [EvRaise XTypeError] | exists pre, [] |]; eauto using last_piece.
  destruct (mrounds_last _ _ _ Hm Hnh) as (p & last & -> & Tp & L). exists (pre ++ p), last.
  rewrite app_assoc. auto using transparent_app.
Qed.

Theorem connect_result_proof : forall o fuel inner s r l s',
  connect true o fuel inner s = (r, l, s') -> r <> Hang -> r = spec_result l.
Proof.
  intros o fuel inner s r l s' H Hnh. destruct (connect_last _ _ _ _ _ _ _ H Hnh) as (pre & last & -> & T & L).
  unfold spec_result. rewrite spec_scan_app, (tp_scan _ T). destruct L as [| | |b rb last F B]; try reflexivity.
  rewrite (bo_scan _ _ _ B). destruct rb; try discriminate; reflexivity.
Qed.

(* the callbacks are balanced (every on-connect(true) got its on-release, no other on-release), or the
   last on-connect(true) was left pending by an exception in the hold phase and connect() returned False *)
Definition release_ok (r : out rv) (x : option (option blk)) : Prop :=
  x = Some None \/ ((exists b, x = Some (Some b)) /\ r = Ret RFalse).

Lemma held_ok_cases r x : held_ok r x = true -> release_ok (final r) x.
Proof.
  destruct x as [[b|]|]; cbn; intro H; [|left; reflexivity|discriminate].
  right. split; [eauto|]. destruct r; try discriminate. destruct e; try discriminate; reflexivity.
Qed.

Theorem release_iff_connect_true_proof : forall o fuel inner s r l s',
  connect true o fuel inner s = (r, l, s') -> r <> Hang -> release_ok r (held_after None (cbs l)).
Proof.
  intros o fuel inner s r l s' H Hnh. destruct (connect_last _ _ _ _ _ _ _ H Hnh) as (pre & last & -> & T & L).
  rewrite cbs_app, held_after_app, (tp_held _ T). destruct L as [| | |b rb last F B]; try (left; reflexivity).
  exact (held_ok_cases _ _ (bo_held _ _ _ B)).
Qed.

(* counting form: as many on-release calls as on-connect calls that returned a true value
   (one less when an exception ended the hold phase) *)
Definition n_connect_true (l : list cev) : nat :=
  length (filter (fun c => match c with CConnect _ v => truthy v | _ => false end) l).
Definition n_release (l : list cev) : nat :=
  length (filter (fun c => match c with CRelease _ _ => true | _ => false end) l).
Definition held_n (h : option blk) : nat := match h with Some _ => 1 | None => 0 end.

Lemma held_after_count : forall l h h', held_after h l = Some h' ->
  n_connect_true l + held_n h = n_release l + held_n h'.
Proof.
  induction l as [|c l IH]; intros h h' H; cbn in H.
  - inversion H; subst. reflexivity.
  - destruct c; destruct h as [hb|]; try discriminate.
    + apply IH in H. exact H.
    + apply IH in H. exact H.
    + apply IH in H. unfold n_connect_true, n_release in *. cbn [filter]. destruct (truthy v); cbn [length held_n] in *; lia.
    + destruct (blk_eqb b hb); [|discriminate]. apply IH in H. unfold n_connect_true, n_release in *. cbn [filter length held_n] in *. lia.
Qed.

Theorem release_count_proof : forall o fuel inner s r l s',
  connect true o fuel inner s = (r, l, s') -> r <> Hang ->
  n_release (cbs l) = n_connect_true (cbs l) \/ (r = Ret RFalse /\ S (n_release (cbs l)) = n_connect_true (cbs l)).
Proof.
  intros o fuel inner s r l s' H Hnh.
  destruct (release_iff_connect_true_proof _ _ _ _ _ _ _ H Hnh) as [E|[[b E] Hr]];
    pose proof (held_after_count _ _ _ E) as C; cbn in C; [left | right; split; [exact Hr|]]; lia.
Qed.

Lemma stops_true_quiet : forall l, stops_b true l = true -> forallb quiet l = true.
Proof.
  induction l as [|e l IH]; cbn; [reflexivity|]. unfold quiet at 1. destruct (starts e); cbn; [discriminate|]. exact IH.
Qed.

Lemma stops_split : forall pre seen post, stops_b seen (pre ++ EvTerm true :: post) = true -> forallb quiet post = true.
Proof.
  intros pre seen post H. rewrite stops_app in H. apply andb_true_iff in H. destruct H as [_ H].
  cbn in H. rewrite andb_false_r, orb_true_r in H. apply stops_true_quiet, H.
Qed.

Theorem connect_stops_proof : forall o fuel inner s r l s',
  connect true o fuel inner s = (r, l, s') -> r <> Hang ->
  forall before after, l = before ++ EvTerm true :: after -> forallb quiet after = true.
Proof.
  intros o fuel inner s r l s' H Hnh before rest E. apply (stops_split before false). rewrite <- E. clear E.
  destruct (connect_last _ _ _ _ _ _ _ H Hnh) as (pre & last & -> & T & L).
  rewrite stops_app, (tp_stops _ T), (tp_noterm _ T). destruct L as [| | |b rb last F B]; try reflexivity.
  exact (bo_stops _ _ _ B).
Qed.

(* a block segment: only events of that block, callbacks in the pattern discover, connect, release *)
Definition seg (b : blk) (l : list ev) (fin : bool) : Prop :=
  forallb (owned b) l = true /\ seg_cbs b (cbs l) fin = true.

(* rounds of the main loop: terminate() poll, then the rdwr, llcp and card segments in this order;
   a segment that ends connect() is the last thing in the trace *)
Inductive rounds (has : bool) : list ev -> Prop :=
| RStop : rounds has [EvTerm true]
| RRound : forall s1 s2 s3 rest, seg Rdwr s1 false -> seg Llcp s2 false -> seg Card s3 false -> rounds has rest ->
    rounds has (term_log has false ++ s1 ++ s2 ++ s3 ++ rest)
| RFin1 : forall s1, seg Rdwr s1 true -> rounds has (term_log has false ++ s1)
| RFin2 : forall s1 s2, seg Rdwr s1 false -> seg Llcp s2 true -> rounds has (term_log has false ++ s1 ++ s2)
| RFin3 : forall s1 s2 s3, seg Rdwr s1 false -> seg Llcp s2 false -> seg Card s3 true ->
    rounds has (term_log has false ++ s1 ++ s2 ++ s3).

Lemma block_seg b r l : block_ok b r l -> seg b l (is_fin r).
Proof. intros [o c _ _ _ _]. split; assumption. Qed.

Lemma mrounds_rounds has r l : mrounds has r l -> r <> Hang -> rounds has l.
Proof.
  induction 1 as [ | | s1 s2 s3 r rest B1 B2 B3 _ IH | r1 s1 F B1 | r2 s1 s2 F B1 B2 | r3 s1 s2 s3 F B1 B2 B3]; intro Hnh.
  - congruence.
  - constructor.
  - apply RRound; [exact (block_seg _ _ _ B1) | exact (block_seg _ _ _ B2) | exact (block_seg _ _ _ B3) | exact (IH Hnh)].
  - pose proof (block_seg _ _ _ (B1 (final_not_hang _ Hnh))) as B. rewrite F in B. apply RFin1, B.
  - pose proof (block_seg _ _ _ (B2 (final_not_hang _ Hnh))) as B. rewrite F in B.
    apply RFin2; [exact (block_seg _ _ _ B1) | exact B].
  - pose proof (block_seg _ _ _ (B3 (final_not_hang _ Hnh))) as B. rewrite F in B.
    apply RFin3; [exact (block_seg _ _ _ B1) | exact (block_seg _ _ _ B2) | exact B].
Qed.

Theorem connect_trace_shape_proof : forall o fuel inner s r l s',
  connect true o fuel inner s = (r, l, s') -> r <> Hang ->
  exists pre body, l = pre ++ body /\ startup_shape pre /\
    (body = [EvRaise XTypeError] \/ body = [] \/ rounds (o_term o) body).
Proof.
  intros o fuel inner s r l s' H Hnh. destruct (connect_struct _ _ _ _ _ _ _ H) as (pre & body & -> & Hs & Hb).
  exists pre, body. repeat split; auto.
  destruct Hb as [[_ ->]|[[_ ->]|Hm]]; auto. right; right. exact (mrounds_rounds _ _ _ Hm Hnh).
Qed.
