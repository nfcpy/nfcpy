(* dep_nofault_exact and dep_safety: Initiator.exchange against the Target machine,
   for every fault script. *)
From Coq Require Import ZArith List Bool Lia ZifyBool.
From NV Require Import Base.Result Base.Bytes Model.Dep Proofs.DepCodec Proofs.DepTarget Proofs.DepSrr Proofs.DepExact.
Import ListNotations.
Open Scope Z_scope.
Ltac Zify.zify_post_hook ::= Z.to_euclidean_division_equations.

Section Safety.
Variables (ic : icfg) (tc : tcfg) (fuel : nat) (timeout : Z).
(* norx: the target application never calls send_timeout_extension *)
Variable norx : Prop.
Hypothesis H106 : ic_106 ic = tc_106 tc.
Hypothesis Hdid : tc_did tc = ic_did ic.
Hypothesis Hmt : 1 <= tc_miu tc /\ tc_miu tc + 3 + b2z (is_some (tc_did tc)) + b2z (is_some (tc_nad tc)) <= 254.
Hypothesis Hmi : 1 <= ic_miu ic /\ ic_miu ic + 3 + b2z (is_some (ic_did ic)) + b2z (is_some (ic_nad ic)) <= 254.
Hypothesis Hfuel : Z.max 0 timeout < Z.of_nat fuel.

(* scripts on which every protocol step succeeds: no fault at all, or isolated single faults - where a corrupted RTOX
   response is not recoverable by design (an RTOX response to NAK is a protocol error), so either no response is
   corrupted (and the time-out covers the largest RTOX value) or the target application requests no extension *)
Definition Good (sc : list (fate * fate)) : Prop :=
  (sc = [] /\ 1 <= timeout) \/ (Sparse sc /\ NC sc /\ 60 <= timeout) \/ (Sparse sc /\ 2 <= timeout /\ norx).

Lemma Good_facts sc : Good sc -> Sparse sc /\ ((sc = [] /\ 1 <= timeout) \/ 1 + 1 <= timeout) /\ 1 <= timeout.
Proof.
  intros [[-> H]|[(S & _ & H)|(S & H & _)]].
  - split; [exact I|]. split; [left; auto | exact H].
  - split; [exact S|]. split; [right|]; lia.
  - split; [exact S|]. split; [right|]; lia.
Qed.
Lemma Good_skipn sc sc' : Good sc -> Sparse sc' -> (exists k, sc' = skipn k sc) -> Good sc'.
Proof.
  intros [[-> H]|[(_ & N & H)|(_ & H)]] S [k ->].
  - left. rewrite skipn_nil. auto.
  - right; left. auto using NC_skipn.
  - right; right. auto.
Qed.
Lemma Good_rtox sc : Good sc -> norx \/ Calm timeout sc.
Proof. intros [[-> H]|[(_ & N & H)|(_ & _ & H)]]; [right; split; [constructor | left; auto] | right; split; auto | left; exact H]. Qed.

Lemma awake_out t : t_out (awake t) = t_out t.
Proof. unfold awake. destruct (t_pos t); reflexivity. Qed.

(* one call of send_dep_req_recv_dep_res for a request d the target is ready to accept, with r: it returns r, from a
   target that has accepted d, or it fails, the target has accepted d or not, and the script was not a good one *)
Lemma srr_call p w out w' t0 t1 d r :
  req_ok ic d -> (fmt d = F_INF \/ fmt d = F_MORE \/ fmt d = F_ACK) ->
  Tinv tc t0 -> t_pos t0 <> TStop -> t_pni t0 <> Some (pni d) -> (t_pos t0 = TListen \/ t_pos t0 = TFirst -> pni d = 0) ->
  t_accept tc t0 d = (t1, Some (PDepRes r)) -> w_t w = t0 -> 0 <= p <= 3 ->
  fmt r <> F_NAK -> (Good (w_script w) -> NC (w_script w) \/ nak_ok r d) ->
  srr fuel ic tc p d 1 timeout w = (out, w') ->
  (out = Ok r /\ w_t w' = t1 /\ (Good (w_script w) -> Good (w_script w'))) \/
  ((exists e, out = Err e /\ comm e) /\ (t_out (w_t w') = t_out t0 \/ t_out (w_t w') = t_out t1) /\ ~ Good (w_script w)).
Proof.
  intros Hreq Hf HI Hpos Hnew Hfirst Hacc Hw Hp Hn Hk H.
  destruct (srr_step ic tc H106 Hdid Hmt Hmi t0 t1 d r Hreq Hf HI Hpos Hnew Hfirst Hacc fuel p 1 timeout w out w'
              (or_introl Hw) Hp (Z.le_refl 1) H) as (A & B & C).
  assert (C' : Good (w_script w) -> out = Ok r /\ Good (w_script w')).
  { intro HG. destruct (Good_facts _ HG) as (S & T & T1).
    destruct (C S T ltac:(lia) Hn (Hk HG)) as (E & S' & K). exact (conj E (Good_skipn _ _ HG S' K)). }
  destruct B as [[-> B]|[B|[_ B]]]; [left | right | lia].
  - split; [reflexivity|]. split; [exact B | intro HG; apply C', HG].
  - split; [exact B|]. split.
    + destruct A as [-> |[-> | ->]]; [left; reflexivity | left; apply awake_out | right; reflexivity].
    + intro HG. destruct (C' HG) as [E _]. destruct B as (e & -> & _). discriminate.
Qed.

Lemma inf_nak_ok q sd d : nak_ok (inf tc q sd) d.
Proof. unfold nak_ok. destruct (inf_fmt tc q sd) as [E|E]; auto. Qed.
Lemma nak_ok_fmt r d : nak_ok r d -> fmt r <> F_NAK /\ (fmt r =? F_RTOX) = false.
Proof. intros [E|[E|[E _]]]; rewrite E; split; (discriminate || reflexivity). Qed.

(* one round of either loop of exchange() whose answer r is not an RTOX response and passes the tests c and pni:
   the loop goes on with k from a target that has accepted d, or fails without a change to what the target
   application has seen *)
Lemma round_spec {A} p w t0 t1 d r (c : deppdu -> bool) (k : deppdu -> world -> res A * world) out w' :
  req_ok ic d -> (fmt d = F_MORE \/ fmt d = F_ACK) ->
  Tinv tc t0 -> t_pos t0 <> TStop -> t_pni t0 <> Some (pni d) -> (t_pos t0 = TListen \/ t_pos t0 = TFirst -> pni d = 0) ->
  t_accept tc t0 d = (t1, Some (PDepRes r)) -> w_t w = t0 -> 0 <= p <= 3 ->
  match srr fuel ic tc p d 1 timeout w with
  | (Ok r0, w1) =>
      match after_rtox fuel ic tc p r0 timeout w1 with
      | (Ok r, w2) => if c r then (Err ProtocolError, w2) else if negb (pni r =? p) then (Err ProtocolError, w2) else k r w2
      | (Err e, w2) => (Err e, w2) | (Crash c, w2) => (Crash c, w2) | (Hang, w2) => (Hang, w2)
      end
  | (Err e, w1) => (Err e, w1) | (Crash c, w1) => (Crash c, w1) | (Hang, w1) => (Hang, w1)
  end = (out, w') ->
  nak_ok r d -> c r = false -> pni r = p -> t_out t1 = t_out t0 ->
  (exists w1, k r w1 = (out, w') /\ w_t w1 = t1 /\ (Good (w_script w) -> Good (w_script w1))) \/
  ((exists e, out = Err e /\ comm e) /\ t_out (w_t w') = t_out t0 /\ ~ Good (w_script w)).
Proof.
  intros Hreq Hf HI Hpos Hnew Hfirst Hacc Hw Hp H Hk Hc Hpn Ho. destruct (nak_ok_fmt r d Hk) as [Hn Hx].
  destruct (srr fuel ic tc p d 1 timeout w) as [o1 w1] eqn:Es.
  destruct (srr_call p w o1 w1 t0 t1 d r Hreq (or_intror Hf) HI Hpos Hnew Hfirst Hacc Hw Hp Hn (fun _ => or_intror Hk) Es)
    as [(-> & B & C)|((e & -> & He) & Ho' & HnG)].
  - left. unfold after_rtox in H. rewrite Hx, Hc, Hpn, Z.eqb_refl in H. exists w1. auto.
  - right. injection H as <- <-. split; [eauto|]. split; [|exact HnG].
    destruct Ho' as [E|E]; [exact E | rewrite E; exact Ho].
Qed.

(* what the target application has seen is unchanged or extended by exactly the payload x *)
Definition Safe (out0 : list tres) (x : list Z) (t : tgt) : Prop :=
  t_out t = out0 \/ t_out t = out0 ++ [TOk x].

Lemma take_all {A} n (l : list A) : len l <= n -> take n l = l.
Proof using ic tc fuel timeout. apply Bytes.take_all. Qed.

Lemma send_loop_spec rt resp rest n : forall p sd last acc t w out w',
  Ready tc t p acc -> w_t w = t -> t_app t = (rt, resp) :: rest -> resp <> [] -> sd <> [] -> (length sd <= n)%nat ->
  Forall rt_ok rt -> (length rt <= 3)%nat -> (norx -> rt = []) ->
  send_loop n fuel ic tc p sd last timeout w = (out, w') ->
  ((exists e, out = Err e /\ comm e) /\ Safe (t_out t) (acc ++ sd) (w_t w')
   \/ exists q, 0 <= q <= 3 /\ out = Ok ((q + 1) mod 4, inf tc q resp) /\ Sending tc (w_t w') q resp /\
                t_app (w_t w') = rest /\ t_out (w_t w') = t_out t ++ [TOk (acc ++ sd)]) /\
  (Good (w_script w) -> (exists y, out = Ok y) /\ Good (w_script w')).
Proof.
  (* the arithmetic is settled before the loop body enters the context *)
  induction n as [|n IH]; intros p sd last acc t w out w' HR Hw Happ Hne Hsd Hlen Hrt Hrl Hnx.
  { destruct sd; [congruence | cbn in Hlen; lia]. }
  destruct (ready_facts tc t p acc HR) as (HI & Hpos & Hnew & Hfirst). pose proof HR as (_ & Hp & _).
  pose proof (take_drop (ic_miu ic) sd) as Hcs.
  assert (Hchunk : len (take (ic_miu ic) sd) <= ic_miu ic) by (apply len_take_le; lia).
  pose proof (drop_shorter (ic_miu ic) sd n (proj1 Hmi) Hsd Hlen) as Hlen'.
  destruct sd as [|b sd0]; [congruence|]. intro H. cbn [send_loop] in H. set (sd := b :: sd0) in *.
  set (chunk := take (ic_miu ic) sd) in *.
  destruct (drop (ic_miu ic) sd) as [|b' sd1] eqn:Esd'; cbn [nonempty] in H.
  - (* last chunk: the payload is delivered, the time-out extension phase begins *)
    rewrite app_nil_r in Hcs.
    set (d := i_dep ic F_INF p chunk) in *.
    pose proof (i_dep_ok ic tc F_INF p chunk ltac:(easy) Hp Hchunk) as Hreq.
    set (out1 := t_out t ++ [TOk (acc ++ sd)]).
    destruct (Rph_enter tc Hmt p resp rest out1 Hp Hne t acc d rt HR eq_refl eq_refl Happ Hrt) as (t1 & r1 & Hacc & HP1 & Er1).
    { unfold out1, d. cbn. rewrite Hcs. reflexivity. }
    destruct (Rph_facts tc Hmt p resp rest out1 Hp _ _ HP1) as (_ & _ & Eo1 & r0 & Er0 & _ & Hnak1).
    rewrite Er1 in Er0. injection Er0 as <-.
    (* on a good script an RTOX answer is never corrupted *)
    assert (Hk : forall sc, Good sc -> r1 = inf tc p resp \/ Calm timeout sc).
    { intros sc HG. destruct (Good_rtox _ HG) as [Hx|HN]; [left | right; exact HN].
      rewrite (Hnx Hx) in HP1. destruct (Rph_answer tc p resp rest out1 _ _ _ HP1 Er1) as [(x & _ & _ & F)|[E _]]; [inversion F | exact E]. }
    assert (Hk' : forall sc, Good sc -> NC sc \/ nak_ok r1 d).
    { intros sc HG. destruct (Hk sc HG) as [-> |[N _]]; [right; apply inf_nak_ok | left; exact N]. }
    destruct (srr fuel ic tc p d 1 timeout w) as [o1 w1] eqn:Es.
    destruct (srr_call p w o1 w1 t t1 d r1 Hreq (or_introl eq_refl) HI Hpos Hnew Hfirst Hacc Hw Hp Hnak1 (Hk' _) Es)
      as [(-> & B & C)|((e & -> & He) & Ho & HnG)].
    2:{ injection H as <- <-. split; [left; split; [eauto|] | intro HG; destruct (HnG HG)].
        destruct Ho as [Ho|Ho]; [left; exact Ho | right; rewrite Ho; exact Eo1]. }
    rewrite <- B in HP1, Er1.
    destruct (after_rtox fuel ic tc p r1 timeout w1) as [o2 w2] eqn:Erx.
    destruct (after_rtox_spec ic tc H106 Hdid Hmt Hmi p resp rest out1 Hp Hne (length rt) fuel p r1 timeout w1 o2 w2
                HP1 Hrl Er1 Hp Hfuel Erx) as (X & Y).
    assert (HG2 : Good (w_script w) -> o2 = Ok (inf tc p resp) /\ Good (w_script w2)).
    { intro HG. pose proof (C HG) as G1. destruct (Good_facts _ G1) as (S1 & _).
      destruct (Y S1 (Hk _ G1)) as (E & S2 & K). exact (conj E (Good_skipn _ _ G1 S2 K)). }
    destruct X as [[(e & -> & He) HR3]|[-> HP0]].
    { injection H as <- <-. split.
      - left. split; [eauto|]. right. apply (Rph_facts tc Hmt p resp rest out1 Hp _ _ HR3).
      - intros HG. destruct (HG2 HG) as [E _]. discriminate. }
    rewrite (proj1 (proj2 (inf_tests tc p resp))) in H. cbn [andb] in H.
    change (pni (inf tc p resp)) with p in H. rewrite Z.eqb_refl in H. cbn [negb] in H.
    destruct (Rph_leave tc p resp rest out1 Hne _ HP0) as (HS & Ha & Ho).
    destruct n; cbn [send_loop] in H; injection H as <- <-.
    all: split; [right; exists p; auto 10 | intros HG; destruct (HG2 HG) as [_ G2]; eauto].
  - (* more chunks follow: the target accumulates and acknowledges *)
    set (d := i_dep ic F_MORE p chunk) in *.
    pose proof (i_dep_ok ic tc F_MORE p chunk ltac:(easy) Hp Hchunk) as Hreq.
    destruct (ready_more tc Hmt t p acc d HR eq_refl eq_refl) as (Hacc & HR1).
    match type of Hacc with _ = (?tt, _) => set (t1 := tt) in * end.
    destruct (round_spec p w t t1 d (ack tc p) _ _ out w' Hreq (or_introl eq_refl) HI Hpos Hnew Hfirst Hacc Hw Hp H
                (or_intror (or_intror (conj eq_refl eq_refl))) eq_refl eq_refl eq_refl) as [(w1 & H1 & B & C)|(He & Ho & HnG)].
    + destruct (IH ((p + 1) mod 4) (b' :: sd1) (Some (ack tc p)) (acc ++ data d) t1 w1 out w' HR1 B Happ Hne ltac:(discriminate) Hlen' Hrt Hrl Hnx H1) as (X & Y).
      cbn [data d i_dep] in X. rewrite <- app_assoc, Hcs in X. split; [exact X|].
      intros HG. apply Y, C, HG.
    + split; [left; split; [exact He | left; exact Ho] | intro HG; destruct (HnG HG)].
Qed.

Lemma recv_loop_spec resp n : forall q sd acc t w out w',
  Sending tc t q sd -> w_t w = t -> 0 <= q <= 3 -> acc ++ drop (tc_miu tc) sd = resp -> (length sd <= n)%nat ->
  recv_loop n fuel ic tc ((q + 1) mod 4) (inf tc q sd) acc timeout w = (out, w') ->
  ((exists e, out = Err e /\ comm e) /\ t_out (w_t w') = t_out t
   \/ exists p', out = Ok (p', resp) /\ Ready tc (w_t w') p' [] /\
                 t_app (w_t w') = t_app t /\ t_out (w_t w') = t_out t /\ t_rtx (w_t w') = t_rtx t) /\
  (Good (w_script w) -> (exists y, out = Ok y) /\ Good (w_script w')).
Proof.
  induction n as [|n IH]; intros q sd acc t w out w' HS Hw Hq Hacc Hlen.
  { destruct HS as (_ & _ & _ & _ & Hne). destruct sd; [congruence | cbn in Hlen; lia]. }
  pose proof HS as (_ & _ & _ & _ & Hne).
  destruct (sending_facts tc t q sd HS Hq) as (HI & Hpos & Hnew & Hfirst). destruct (succ4 q Hq) as [Hp _].
  pose proof (drop_shorter (tc_miu tc) sd n (proj1 Hmt) Hne Hlen) as Hlen'.
  intro H. cbn [recv_loop] in H. unfold inf at 1 in H. cbn [fmt] in H.
  destruct (tc_miu tc <? len sd) eqn:Em.
  - (* the target chains: acknowledge *)
    change (F_MORE =? F_MORE) with true in H. cbn [negb] in H.
    set (p := (q + 1) mod 4) in *.
    set (d := i_dep ic F_ACK p []) in *.
    pose proof (i_dep_nil_ok ic tc Hmi F_ACK p ltac:(easy) Hp) as Hreq.
    destruct (sending_ack tc Hmt t q sd d HS (proj1 (Z.ltb_lt _ _) Em) eq_refl eq_refl Hq) as (Hac & HS1).
    fold p in Hac, HS1.
    match type of Hac with _ = (?tt, _) => set (t1 := tt) in * end.
    set (r := inf tc p (drop (tc_miu tc) sd)) in *.
    destruct (round_spec p w t t1 d r _ _ out w' Hreq (or_intror eq_refl) HI Hpos Hnew Hfirst Hac Hw Hp H (inf_nak_ok p _ d)
                (f_equal negb (proj2 (proj2 (inf_tests tc p _)))) eq_refl eq_refl) as [(w1 & H1 & B & C)|(He & Ho & HnG)].
    + assert (Hacc' : (acc ++ data r) ++ drop (tc_miu tc) (drop (tc_miu tc) sd) = resp).
      { unfold r, inf. cbn [data]. rewrite <- app_assoc, take_drop. exact Hacc. }
      destruct (IH p (drop (tc_miu tc) sd) _ t1 w1 out w' HS1 B Hp Hacc' Hlen' H1) as (X & Y).
      split; [exact X|]. intros HG. apply Y, C, HG.
    + split; [left; split; [exact He | exact Ho] | intro HG; destruct (HnG HG)].
  - (* that was the last chunk *)
    change (F_INF =? F_MORE) with false in H. cbn [negb] in H. injection H as <- <-.
    apply Z.ltb_ge in Em.
    rewrite (proj2 (drop_nil_iff (tc_miu tc) sd ltac:(lia)) Em), app_nil_r in Hacc. subst acc.
    split.
    + right. exists ((q + 1) mod 4). split; [reflexivity|]. rewrite Hw.
      split; [exact (sending_ready tc t q sd HS Em Hq) | auto].
    + intros Hs. split; [eauto | exact Hs].
Qed.

Lemma exchange_spec n rt resp rest p x t w out w' :
  Ready tc t p [] -> w_t w = t -> t_app t = (rt, resp) :: rest -> resp <> [] -> x <> [] ->
  (length x <= n)%nat -> (length resp <= n)%nat ->
  Forall rt_ok rt -> (length rt <= 3)%nat -> (norx -> rt = []) ->
  ini_exchange n fuel ic tc p x timeout w = (out, w') ->
  ((exists e, out = Err e /\ comm e) /\ Safe (t_out t) x (w_t w')
   \/ exists p', out = Ok (p', resp) /\ Ready tc (w_t w') p' [] /\
                 t_app (w_t w') = rest /\ t_out (w_t w') = t_out t ++ [TOk x]) /\
  (Good (w_script w) -> (exists y, out = Ok y) /\ Good (w_script w')).
Proof.
  intros HR Hw Happ Hne Hx Hlx Hlr Hrt Hrl Hnx H. unfold ini_exchange in H.
  destruct (send_loop n fuel ic tc p x None timeout w) as [o1 w1] eqn:Es.
  destruct (send_loop_spec rt resp rest n p x None [] t w o1 w1 HR Hw Happ Hne Hx Hlx Hrt Hrl Hnx Es) as (A & B).
  cbn [app] in A.
  destruct A as [((e & -> & He) & Hsafe)|(q & Hq & -> & HS & Ha & Ho)].
  - injection H as <- <-. split; [left; split; [eauto | exact Hsafe]|].
    intros Hs. destruct (B Hs) as [[y Hy] _]. discriminate.
  - rewrite (proj2 (proj2 (inf_tests tc q resp))) in H. cbn [negb] in H.
    assert (Hacc : data (inf tc q resp) ++ drop (tc_miu tc) resp = resp) by (unfold inf; cbn [data]; apply take_drop).
    destruct (recv_loop_spec resp n q resp _ (w_t w1) w1 out w' HS eq_refl Hq Hacc Hlr H) as (X & Y).
    split.
    + destruct X as [((e & -> & He) & Hout)|(p' & -> & HR' & Ha' & Ho' & Hr')].
      * left. split; [eauto|]. right. rewrite Hout. exact Ho.
      * right. exists p'. split; [reflexivity|]. split; [exact HR'|]. rewrite Ha', Ho'. auto.
    + intros Hs. destruct (B Hs) as [_ B2]. apply Y; assumption.
Qed.

(* the target application: per received payload the RTOX values it requests and its response *)
Definition app_of (R : list (list Z)) : list (list Z * list Z) := map (fun r => ([], r)) R.
Definition resps (app : list (list Z * list Z)) : list (list Z) := map snd app.
(* RTOX values in 1..59, at most three extensions per response (the initiator's range(3)) *)
Definition app_ok (app : list (list Z * list Z)) : Prop :=
  Forall (fun e => Forall rt_ok (fst e) /\ (length (fst e) <= 3)%nat /\ (norx -> fst e = [])) app.

Definition nonempty_all (L : list (list Z)) : Prop := Forall (fun x => x <> []) L.
Definition fits (n : nat) (L : list (list Z)) : Prop := Forall (fun x => (length x <= n)%nat) L.

Lemma ini_app_spec n : forall P ap p t w l w',
  Ready tc t p [] -> w_t w = t -> t_app t = ap -> nonempty_all P -> nonempty_all (resps ap) ->
  fits n P -> fits n (resps ap) -> (length P <= length ap)%nat -> app_ok ap ->
  ini_app n fuel ic tc p P timeout w = (l, w') ->
  ((exists j e, (j < length P)%nat /\ l = map IOk (firstn j (resps ap)) ++ [IErr e] /\ comm e /\
                (t_out (w_t w') = t_out t ++ map TOk (firstn j P) \/ t_out (w_t w') = t_out t ++ map TOk (firstn (S j) P)))
   \/ (l = map IOk (firstn (length P) (resps ap)) /\ t_out (w_t w') = t_out t ++ map TOk P /\
       exists p', Ready tc (w_t w') p' [])) /\
  (Good (w_script w) -> l = map IOk (firstn (length P) (resps ap)) /\ t_out (w_t w') = t_out t ++ map TOk P /\ Good (w_script w')).
Proof.
  induction P as [|x P IH]; intros ap p t w l w' HR Hw Happ HnP HnR HfP HfR Hlen Hok H; cbn [ini_app] in H.
  - injection H as <- <-. split.
    + right. cbn. rewrite app_nil_r, Hw. split; [reflexivity|]. split; [reflexivity|]. eauto.
    + intros Hs. cbn. rewrite app_nil_r, Hw. auto.
  - destruct ap as [|[rt resp] ap]; [inversion Hlen|]. unfold resps in *. cbn [map snd length] in *.
    apply le_S_n in Hlen.
    pose proof (Forall_inv Hok) as (Hrt & Hrl & Hnx). cbn [fst] in Hrt, Hrl, Hnx.
    destruct (ini_exchange n fuel ic tc p x timeout w) as [o1 w1] eqn:Ee.
    destruct (exchange_spec n rt resp ap p x t w o1 w1 HR Hw Happ (Forall_inv HnR) (Forall_inv HnP)
                (Forall_inv HfP) (Forall_inv HfR) Hrt Hrl Hnx Ee) as (A & B).
    destruct A as [((e & -> & He) & Hsafe)|(p' & -> & HR' & Ha' & Ho')].
    + injection H as <- <-. split.
      * left. exists 0%nat, e. cbn [firstn map app]. split; [apply Nat.lt_0_succ|]. split; [reflexivity|]. split; [exact He|].
        destruct Hsafe as [Hs|Hs]; [left; rewrite Hs, app_nil_r; reflexivity | right; exact Hs].
      * intros Hs. destruct (B Hs) as [[y Hy] _]. discriminate.
    + destruct (ini_app n fuel ic tc p' P timeout w1) as [l2 w2] eqn:Ea. injection H as <- <-.
      destruct (IH ap p' (w_t w1) w1 l2 w2 HR' eq_refl Ha' (Forall_inv_tail HnP) (Forall_inv_tail HnR) (Forall_inv_tail HfP)
                  (Forall_inv_tail HfR) Hlen (Forall_inv_tail Hok) Ea) as (X & Y).
      split.
      * destruct X as [(j & e & Hj & -> & He & Hout)|(-> & Hout & Hrd)].
        -- left. exists (S j), e. cbn [firstn map app]. split; [apply le_n_S, Hj|]. split; [reflexivity|]. split; [exact He|].
           rewrite Ho' in Hout. rewrite <- !app_assoc in Hout. exact Hout.
        -- right. cbn [firstn map app]. split; [reflexivity|]. split; [|exact Hrd].
           rewrite Hout, Ho', <- app_assoc. reflexivity.
      * intros Hs. destruct (B Hs) as [_ B2]. destruct (Y B2) as (-> & Y2 & Y3). rewrite Y2, Ho', <- app_assoc. cbn. auto.
Qed.
End Safety.

(* send_req_recv_res changes the target only by delivering the frame of its request *)
Lemma srr1_target ic tc req timeout w :
  w_t (snd (srr1 ic tc req timeout w)) = w_t w \/
  exists cmd, encode_frame (ic_106 ic) (enc_pdu req) = Ok cmd /\
              w_t (snd (srr1 ic tc req timeout w)) = fst (tgt_absorb tc (w_t w) cmd).
Proof.
  unfold srr1. destruct (encode_frame (ic_106 ic) (enc_pdu req)) as [cmd|e|c|]; try (left; reflexivity).
  unfold air. destruct (fst (hd (FD, FD) (w_script w))); try (left; reflexivity).
  right. exists cmd. split; [reflexivity|].
  destruct (tgt_absorb tc (w_t w) cmd) as [t1 [rsp|]]; [|reflexivity].
  destruct (snd (hd (FD, FD) (w_script w))); try reflexivity.
  destruct (decode_frame_ini (ic_106 ic) rsp) as [r|e|c|]; try reflexivity.
  destruct (pdu_name r =? pdu_name req); reflexivity.
Qed.

Section Release.
Variables (ic : icfg) (tc : tcfg).
Hypothesis H106 : ic_106 ic = tc_106 tc.
Hypothesis Hdid : tc_did tc = ic_did ic.

Definition tail_ok (tail : list tres) : Prop := tail = [] \/ tail = [TNone] \/ tail = [TErr TimeoutError].

Lemma release_out t rsp : t_out (fst (t_release t rsp)) = t_out t \/
  (t_out (fst (t_release t rsp)) = t_out t ++ [TNone] /\ t_pos (fst (t_release t rsp)) = TStop).
Proof. unfold t_release. destruct (t_pos t); cbn; auto. Qed.

(* the target answers a release request that reaches it by stopping *)
Lemma absorb_release t req f : encode_frame (ic_106 ic) (enc_pdu req) = Ok f ->
  t_pos t <> TStop -> req = PRlsReq (ic_did ic) \/ req = PDslReq (ic_did ic) ->
  exists rsp, fst (tgt_absorb tc t f) = fst (t_release t rsp).
Proof.
  intros He Hpos Hr.
  assert (Hs : exists rsp f2, decode_frame_tgt (ic_106 ic) f = Ok req /\ tgt_step tc t req = t_release t rsp /\
                              encode_frame (ic_106 ic) (enc_pdu rsp) = Ok f2).
  { destruct Hr as [-> | ->]; do 2 eexists; (split; [refine (decode_encode _ _ _ _ He); exact I|]; split).
    1,3: unfold tgt_step; cbn [pdu_did]; rewrite <- Hdid, opt_eqb_refl; destruct (t_pos t); try congruence; reflexivity.
    all: apply encode_frame_ok; cbn [enc_pdu]; rewrite len_app; destruct (tc_did tc); cbn; lia. }
  destruct Hs as (rsp & f2 & Hd & Hs & He2). exists rsp. unfold tgt_absorb. rewrite <- H106, Hd, Hs.
  destruct (t_pos t) eqn:Ep; try congruence;
    unfold t_release; rewrite Ep; cbn [fst snd t_stop t_stop_rtx]; rewrite He2; reflexivity.
Qed.

Lemma deactivate_out release w :
  let w' := ini_deactivate ic tc release w in
  t_out (w_t w') = t_out (w_t w) \/ (t_out (w_t w') = t_out (w_t w) ++ [TNone] /\ t_pos (w_t w') = TStop).
Proof.
  cbv zeta. unfold ini_deactivate. destruct release as [b|]; [|left; reflexivity].
  destruct (srr1_target ic tc (if b then PRlsReq (ic_did ic) else PDslReq (ic_did ic)) 1 w) as [-> |(f & He & ->)];
    [left; reflexivity|].
  destruct (t_pos (w_t w)) eqn:Ep.
  6:{ unfold tgt_absorb. rewrite Ep. left; reflexivity. }
  all: destruct (absorb_release (w_t w) _ f He) as [rsp ->]; [rewrite Ep; discriminate | destruct b; auto | apply release_out].
Qed.

Lemma close_out t : t_pos t = TStop /\ tgt_close t = t \/ t_out (tgt_close t) = t_out t \/ t_out (tgt_close t) = t_out t ++ [TErr TimeoutError].
Proof. unfold tgt_close. destruct (t_pos t); cbn; auto. Qed.

Lemma end_out release w :
  exists tail, t_out (tgt_close (w_t (ini_deactivate ic tc release w))) = t_out (w_t w) ++ tail /\ tail_ok tail.
Proof.
  destruct (deactivate_out release w) as [E|[E Hs]].
  - destruct (close_out (w_t (ini_deactivate ic tc release w))) as [[_ ->]|[->| ->]].
    + exists []. rewrite app_nil_r. split; [exact E | left; reflexivity].
    + exists []. rewrite app_nil_r. split; [exact E | left; reflexivity].
    + exists [TErr TimeoutError]. rewrite E. split; [reflexivity | right; right; reflexivity].
  - unfold tgt_close. rewrite Hs. exists [TNone]. split; [exact E | right; left; reflexivity].
Qed.
End Release.


Definition valid_cfg (ic : icfg) (tc : tcfg) : Prop :=
  ic_106 ic = tc_106 tc /\ tc_did tc = ic_did ic /\
  (1 <= tc_miu tc /\ tc_miu tc + 3 + b2z (is_some (tc_did tc)) + b2z (is_some (tc_nad tc)) <= 254) /\
  (1 <= ic_miu ic /\ ic_miu ic + 3 + b2z (is_some (ic_did ic)) + b2z (is_some (ic_nad ic)) <= 254).

(* RTOX values in 1..59 and at most three extensions per response *)
Definition rtox_ok (ap : list (list Z * list Z)) : Prop :=
  Forall (fun e => Forall (fun x => 0 < x < 60) (fst e) /\ (length (fst e) <= 3)%nat) ap.
Definition no_rtox (ap : list (list Z * list Z)) : Prop := Forall (fun e => fst e = []) ap.

Lemma app_ok_of (norx : Prop) ap : rtox_ok ap -> (norx -> no_rtox ap) -> app_ok norx ap.
Proof.
  intros H1 H2. unfold app_ok, rtox_ok, no_rtox in *. rewrite Forall_forall in *. intros e He.
  destruct (H1 e He) as [A B]. split; [exact A|]. split; [exact B|]. intro Hx. apply (H2 Hx), He.
Qed.
Lemma resps_app_of R : resps (app_of R) = R.
Proof. unfold resps, app_of. rewrite map_map. cbn. apply map_id. Qed.
Lemma rtox_ok_app_of R : rtox_ok (app_of R) /\ no_rtox (app_of R).
Proof. unfold rtox_ok, no_rtox, app_of. split; apply Forall_forall; intros e He; apply in_map_iff in He; destruct He as (r & <- & _); cbn; auto. Qed.

(* ---- with time-out extensions: the target application may call send_timeout_extension up to three times before
   each response.  Safety for EVERY fault script: the payloads handed to either application are prefixes of what the
   other one passed to exchange() - in particular an RTOX value octet is never delivered as payload ---- *)
Theorem dep_safety_rtox_thm ic tc n fuel script P ap timeout release :
  valid_cfg ic tc -> Z.max 0 timeout < Z.of_nat fuel -> rtox_ok ap ->
  nonempty_all P -> nonempty_all (resps ap) -> fits n P -> fits n (resps ap) -> (length P <= length ap)%nat ->
  let o := conversation n fuel ic tc script P ap timeout release in
  exists j k itail ttail,
    o_ini o = map IOk (firstn j (resps ap)) ++ itail /\
    (itail = [] /\ j = length P \/ exists e, itail = [IErr e] /\ comm e /\ (j < length P)%nat) /\
    o_tgt o = map TOk (firstn k P) ++ ttail /\ tail_ok ttail /\
    (j <= k <= j + 1)%nat /\ (k <= length P)%nat.
Proof.
  intros (H106 & Hdid & Hmt & Hmi) Hfuel Hrx HnP HnR HfP HfR Hlen. cbv zeta. unfold conversation.
  destruct (ini_app n fuel ic tc 0 P timeout (mkw (tgt_init ap) script 0 [])) as [ir w1] eqn:Ea.
  destruct (ini_app_spec ic tc fuel timeout False H106 Hdid Hmt Hmi Hfuel n P ap 0 (tgt_init ap) (mkw (tgt_init ap) script 0 []) ir w1
              (ready_init tc ap) eq_refl eq_refl HnP HnR HfP HfR Hlen (app_ok_of False ap Hrx (fun f : False => match f with end)) Ea) as (A & _).
  cbn [o_ini o_tgt].
  destruct (end_out ic tc H106 Hdid release w1) as (tail & Et & Htail). rewrite Et.
  destruct A as [(j & e & Hj & -> & He & [Ho|Ho])|(-> & Ho & _)]; rewrite Ho; cbn [tgt_init t_out app].
  - exists j, j, [IErr e], tail. repeat split; auto; try lia. right. eauto.
  - exists j, (S j), [IErr e], tail. repeat split; auto; try lia. right. eauto.
  - exists (length P), (length P), [], tail. rewrite app_nil_r, firstn_all. repeat split; auto; lia.
Qed.

(* exactness on scripts without unrecoverable faults: fault free, or isolated single faults (lost / corrupted request, lost
   response) with no corrupted response and a time-out of at least 60 RWT (above the largest RTOX value), or - without
   time-out extension - isolated single faults of any kind *)
Theorem dep_exact_rtox_thm ic tc n fuel script P ap timeout release :
  valid_cfg ic tc -> Z.max 0 timeout < Z.of_nat fuel -> rtox_ok ap ->
  ((script = [] /\ 1 <= timeout) \/ (Sparse script /\ NC script /\ 60 <= timeout) \/ (Sparse script /\ 2 <= timeout /\ no_rtox ap)) ->
  nonempty_all P -> nonempty_all (resps ap) -> fits n P -> fits n (resps ap) -> (length P <= length ap)%nat ->
  let o := conversation n fuel ic tc script P ap timeout release in
  o_ini o = map IOk (firstn (length P) (resps ap)) /\
  exists ttail, o_tgt o = map TOk P ++ ttail /\ tail_ok ttail.
Proof.
  intros (H106 & Hdid & Hmt & Hmi) Hfuel Hrx HG HnP HnR HfP HfR Hlen. cbv zeta. unfold conversation.
  destruct (ini_app n fuel ic tc 0 P timeout (mkw (tgt_init ap) script 0 [])) as [ir w1] eqn:Ea.
  destruct (ini_app_spec ic tc fuel timeout (no_rtox ap) H106 Hdid Hmt Hmi Hfuel n P ap 0 (tgt_init ap) (mkw (tgt_init ap) script 0 []) ir w1
              (ready_init tc ap) eq_refl eq_refl HnP HnR HfP HfR Hlen (app_ok_of _ ap Hrx (fun h => h)) Ea) as (_ & B).
  destruct (B HG) as (-> & Ho & _). cbn [o_ini o_tgt]. split; [reflexivity|].
  destruct (end_out ic tc H106 Hdid release w1) as (tail & Et & Htail). rewrite Et, Ho. cbn. eauto.
Qed.

(* ---- the statements without time-out extension are the instances ap = app_of R ---- *)
Theorem dep_safety_thm ic tc n fuel script P R timeout release :
  valid_cfg ic tc -> Z.max 0 timeout < Z.of_nat fuel ->
  nonempty_all P -> nonempty_all R -> fits n P -> fits n R -> (length P <= length R)%nat ->
  let o := conversation n fuel ic tc script P (app_of R) timeout release in
  exists j k itail ttail,
    o_ini o = map IOk (firstn j R) ++ itail /\
    (itail = [] /\ j = length P \/ exists e, itail = [IErr e] /\ comm e /\ (j < length P)%nat) /\
    o_tgt o = map TOk (firstn k P) ++ ttail /\ tail_ok ttail /\
    (j <= k <= j + 1)%nat /\ (k <= length P)%nat.
Proof.
  intros Hv Hfuel HnP HnR HfP HfR Hlen.
  pose proof (dep_safety_rtox_thm ic tc n fuel script P (app_of R) timeout release Hv Hfuel (proj1 (rtox_ok_app_of R))) as H.
  rewrite resps_app_of in H. apply H; try assumption. unfold app_of. rewrite map_length. exact Hlen.
Qed.

Theorem dep_nofault_exact_thm ic tc n fuel P R timeout release :
  valid_cfg ic tc -> Z.max 0 timeout < Z.of_nat fuel -> 1 <= timeout ->
  nonempty_all P -> nonempty_all R -> fits n P -> fits n R -> (length P <= length R)%nat ->
  let o := conversation n fuel ic tc [] P (app_of R) timeout release in
  o_ini o = map IOk (firstn (length P) R) /\
  exists ttail, o_tgt o = map TOk P ++ ttail /\ tail_ok ttail.
Proof.
  intros Hv Hfuel Hto HnP HnR HfP HfR Hlen.
  pose proof (dep_exact_rtox_thm ic tc n fuel [] P (app_of R) timeout release Hv Hfuel (proj1 (rtox_ok_app_of R))
                (or_introl (conj eq_refl Hto))) as H.
  rewrite resps_app_of in H. apply H; try assumption. unfold app_of. rewrite map_length. exact Hlen.
Qed.

Theorem dep_single_fault_recovered_thm ic tc n fuel script P R timeout release :
  valid_cfg ic tc -> Z.max 0 timeout < Z.of_nat fuel -> 2 <= timeout -> Sparse script ->
  nonempty_all P -> nonempty_all R -> fits n P -> fits n R -> (length P <= length R)%nat ->
  let o := conversation n fuel ic tc script P (app_of R) timeout release in
  o_ini o = map IOk (firstn (length P) R) /\
  exists ttail, o_tgt o = map TOk P ++ ttail /\ tail_ok ttail.
Proof.
  intros Hv Hfuel Hto Hsp HnP HnR HfP HfR Hlen.
  pose proof (dep_exact_rtox_thm ic tc n fuel script P (app_of R) timeout release Hv Hfuel (proj1 (rtox_ok_app_of R))
                (or_intror (or_intror (conj Hsp (conj Hto (proj2 (rtox_ok_app_of R))))))) as H.
  rewrite resps_app_of in H. apply H; try assumption. unfold app_of. rewrite map_length. exact Hlen.
Qed.

(* the configurations produced by activation (Model/Dep.v mk_icfg / mk_tcfg; C19 proves that these are
   the values the two activate() methods compute) are valid when the DID is absent or positive *)
Definition did_valid (did : option Z) : Prop := match did with None => True | Some d => 0 < d end.
Lemma valid_mk b lri lrt did nad : did_valid did -> valid_cfg (mk_icfg b lrt did nad) (mk_tcfg b lri did).
Proof.
  intro Hd. pose proof (lr_of_range lri). pose proof (lr_of_range lrt).
  unfold valid_cfg, mk_icfg, mk_tcfg. cbn [ic_106 tc_106 tc_did ic_did tc_miu ic_miu tc_nad ic_nad].
  assert (Ht : tdid_of did = did).
  { destruct did as [d|]; [|reflexivity]. cbn in *. replace (0 <? d) with true by lia. reflexivity. }
  rewrite Ht. split; [reflexivity|]. split; [reflexivity|].
  destruct did, nad; cbn [is_some b2z]; lia.
Qed.

(* activating used objects again: the conversation is the one fresh objects would have, whatever the history *)
Theorem reactivation_fresh p_old t_old n fuel ic tc script payloads app timeout release :
  conversation_after p_old t_old n fuel ic tc script payloads app timeout release =
  conversation n fuel ic tc script payloads app timeout release.
Proof. reflexivity. Qed.
Theorem activate_state p_old t_old app : ini_activate p_old = 0 /\ tgt_activate t_old app = tgt_init app.
Proof. split; reflexivity. Qed.
