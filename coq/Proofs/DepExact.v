(* The ideal trajectory of the Target during one exchange: explicit results of accepting
   the initiator's information / acknowledge PDUs (chaining in both directions, packet
   numbers modulo 4), and the states it passes while the application extends the time-out. *)
From Coq Require Import ZArith List Bool Lia ZifyBool.
From NV Require Import Base.Result Base.Bytes Model.Dep Proofs.DepCodec Proofs.DepTarget.
Import ListNotations.
Open Scope Z_scope.
Ltac Zify.zify_post_hook ::= Z.to_euclidean_division_equations.

Lemma drop_shorter {A} m (l : list A) n : 1 <= m -> l <> [] -> (length l <= S n)%nat -> (length (drop m l) <= n)%nat.
Proof. intros Hm Hl Hn. unfold drop. rewrite skipn_length. destruct l; [congruence|]. cbn [length] in *. lia. Qed.
Lemma drop_nil_iff {A} n (l : list A) : 0 <= n -> (drop n l = [] <-> len l <= n).
Proof.
  intro Hn. unfold drop, len. split.
  - intro H. pose proof (skipn_length (Z.to_nat n) l) as E. rewrite H in E. cbn in E. lia.
  - intro H. apply skipn_all2. lia.
Qed.
Lemma len_drop {A} n (l : list A) : 0 <= n -> len (drop n l) = Z.max 0 (len l - n).
Proof. apply len_drop_max. Qed.
Lemma len_pos_nonempty {A} (l : list A) : l <> [] <-> 0 < len l.
Proof. destruct l; unfold len; cbn; split; intro; try congruence; try lia. Qed.
Lemma nonempty_true {A} (l : list A) : nonempty l = true <-> l <> [].
Proof. destruct l; cbn; split; congruence. Qed.

Lemma succ4 q : 0 <= q <= 3 -> 0 <= (q + 1) mod 4 <= 3 /\ q <> (q + 1) mod 4.
Proof. lia. Qed.

Section Ideal.
Variable tc : tcfg.
Hypothesis Hmiu : 1 <= tc_miu tc /\ tc_miu tc + 3 + b2z (is_some (tc_did tc)) + b2z (is_some (tc_nad tc)) <= 254.

(* the target waits for the next information PDU of a (possibly chained) payload; acc is what it has
   accumulated, q the packet number it will accept *)
Definition Ready (t : tgt) (q : Z) (acc : list Z) : Prop :=
  Tinv tc t /\ 0 <= q <= 3 /\
  ((t_pos t = TListen /\ q = 0 /\ acc = [] /\ t_pni t = None) \/
   (exists sd pt, t_pos t = TSend sd /\ len sd <= tc_miu tc /\ t_pni t = Some pt /\ q = (pt + 1) mod 4 /\ acc = []) \/
   (exists pt, t_pos t = TRecv acc /\ t_pni t = Some pt /\ q = (pt + 1) mod 4)).

(* the target has the first chunk of sd on the air with packet number q *)
Definition Sending (t : tgt) (q : Z) (sd : list Z) : Prop :=
  Tinv tc t /\ t_pos t = TSend sd /\ t_pni t = Some q /\ t_res t = Some (inf tc q sd) /\ sd <> [].

Definition act_after (t : tgt) : bool := match t_pos t with TListen => true | _ => t_act t end.

Lemma ready_facts t q acc : Ready t q acc ->
  Tinv tc t /\ t_pos t <> TStop /\ t_pni t <> Some q /\ (t_pos t = TListen \/ t_pos t = TFirst -> q = 0).
Proof.
  intros (HI & Hq & Hc). split; [exact HI|].
  destruct Hc as [(Hp & -> & _ & Hn)|[(sd & pt & Hp & _ & Hn & -> & _)|(pt & Hp & Hn & ->)]];
    rewrite Hp, Hn; (split; [discriminate|]).
  1: split; [discriminate | reflexivity].
  all: split; [intro E; injection E as E; exact (proj2 (succ4 pt (proj1 HI pt Hn)) E) | intros [E|E]; discriminate].
Qed.

(* a ready target accepts the information PDU with the expected packet number, wherever it waits: it takes over the
   number and goes on with the chaining test (the position and the old response of the state it does that in are
   overwritten by whatever follows) *)
Lemma ready_accept t q acc d : Ready t q acc -> pni d = q ->
  exists pos res0, t_accept tc t d = t_recv_chain tc (mktgt (Some q) pos res0 (t_app t) (t_out t) (t_rtx t) (act_after t)) d acc.
Proof.
  intros (HI & Hq & Hc) Hp. unfold t_accept, act_after.
  destruct Hc as [(Hpos & -> & -> & Hn)|[(sd & pt & Hpos & Hl & Hn & -> & ->)|(pt & Hpos & Hn & ->)]]; rewrite Hpos.
  - do 2 eexists. reflexivity.
  - replace (tc_miu tc <? len sd) with false by lia. cbn [andb]. rewrite Hn, Hp, Z.eqb_refl. cbn [negb].
    replace (drop (tc_miu tc) sd) with (@nil Z) by (symmetry; apply drop_nil_iff; lia).
    do 2 eexists. reflexivity.
  - rewrite Hn, Hp, Z.eqb_refl. cbn [negb]. do 2 eexists. reflexivity.
Qed.

(* a "more information" PDU: accumulate and acknowledge *)
Lemma ready_more t q acc d : Ready t q acc -> fmt d = F_MORE -> pni d = q ->
  let t' := mktgt (Some q) (TRecv (acc ++ data d)) (Some (ack tc q)) (t_app t) (t_out t) (t_rtx t) (act_after t) in
  t_accept tc t d = (t', Some (PDepRes (ack tc q))) /\ Ready t' ((q + 1) mod 4) (acc ++ data d).
Proof.
  intros HR Hf Hp. destruct (ready_accept t q acc d HR Hp) as (pos & res0 & ->). destruct HR as (_ & Hq & _).
  unfold t_recv_chain. rewrite Hf. split; [reflexivity|]. split; [|split; [lia|]].
  - apply Tinv_mk; [lia | exact (ack_ok tc Hmiu q Hq)].
  - right; right. exists q. cbn. auto.
Qed.

(* an acknowledge while the target is chaining its response: next chunk *)
Lemma sending_ack t q sd d : Sending t q sd -> tc_miu tc < len sd -> fmt d = F_ACK -> pni d = (q + 1) mod 4 -> 0 <= q <= 3 ->
  let q' := (q + 1) mod 4 in
  let t' := mktgt (Some q') (TSend (drop (tc_miu tc) sd)) (Some (inf tc q' (drop (tc_miu tc) sd))) (t_app t) (t_out t) (t_rtx t) (t_act t) in
  t_accept tc t d = (t', Some (PDepRes (inf tc q' (drop (tc_miu tc) sd)))) /\ Sending t' q' (drop (tc_miu tc) sd).
Proof.
  intros (HI & Hpos & Hn & Hr & Hne) Hl Hf Hp Hq. cbv zeta.
  assert (Hd : drop (tc_miu tc) sd <> []).
  { intro E. apply drop_nil_iff in E; lia. }
  unfold t_accept. rewrite Hpos. replace (tc_miu tc <? len sd) with true by lia. rewrite Hf.
  change (F_ACK =? F_ACK) with true. cbn [negb andb]. rewrite Hn, Hp, Z.eqb_refl. cbn [negb].
  destruct (drop (tc_miu tc) sd) as [|b sd'] eqn:Ed; [congruence|].
  unfold t_emit, t_set_pni. cbn [t_pni t_pos t_res t_app t_out t_rtx t_act]. split; [reflexivity|].
  split; [|cbn; repeat split; auto].
  apply Tinv_mk; [lia | apply inf_ok; [exact Hmiu | lia]].
Qed.

Lemma sending_facts t q sd : Sending t q sd -> 0 <= q <= 3 ->
  Tinv tc t /\ t_pos t <> TStop /\ t_pni t <> Some ((q + 1) mod 4) /\ (t_pos t = TListen \/ t_pos t = TFirst -> (q + 1) mod 4 = 0).
Proof.
  intros (HI & Hpos & Hn & _) Hq. rewrite Hpos, Hn. split; [exact HI|]. split; [discriminate|].
  split; [intro E; injection E as E; exact (proj2 (succ4 q Hq) E) | intros [E|E]; discriminate].
Qed.

(* after its last chunk the target is ready for the next payload *)
Lemma sending_ready t q sd : Sending t q sd -> len sd <= tc_miu tc -> 0 <= q <= 3 -> Ready t ((q + 1) mod 4) [].
Proof.
  intros (HI & Hpos & Hn & Hr & Hne) Hl Hq. split; [exact HI|]. split; [lia|].
  right; left. exists sd, q. auto.
Qed.

Lemma ready_init app : Ready (tgt_init app) 0 [].
Proof.
  split; [split; cbn; intros; discriminate|]. split; [lia|]. left. cbn. auto.
Qed.

(* Between accepting the last information PDU of a payload and sending the response the target application may
   call send_timeout_extension several times.  The target is then in one of the states Rph: waiting for the RTOX
   request that answers its RTOX x (with rt still to come), or already sending the response. *)
Section Phase.
Variables (q : Z) (resp : list Z) (rest : list (list Z * list Z)) (out0 : list tres).
Hypothesis Hq : 0 <= q <= 3.
Hypothesis Hresp : resp <> [].

Definition rt_ok (x : Z) : Prop := 0 < x < 60.

Inductive Rph (m : nat) (t : tgt) : Prop :=
| Rph_rtox x rt : Tinv tc t -> t_pni t = Some q -> t_out t = out0 -> t_pos t = TRtox -> t_res t = Some (rtoxres tc x) ->
    t_app t = (rt, resp) :: rest -> Forall rt_ok (x :: rt) -> (S (length rt) <= m)%nat -> Rph m t
| Rph_send : Tinv tc t -> t_pni t = Some q -> t_out t = out0 -> t_pos t = TSend resp -> t_res t = Some (inf tc q resp) ->
    t_app t = rest -> Rph m t.

Lemma Rph_mono m m' t : (m <= m')%nat -> Rph m t -> Rph m' t.
Proof. intros H [x rt A B C D E F G I|A B C D E F]; [eapply Rph_rtox; eauto; lia | apply Rph_send; auto]. Qed.

(* what the target holds in its retransmission buffer during the phase *)
Lemma Rph_answer m t r : Rph m t -> t_res t = Some r ->
  (exists x, r = rtoxres tc x /\ rt_ok x /\ (0 < m)%nat) \/ (r = inf tc q resp /\ Rph 0 t).
Proof.
  intros [x rt A B C D E F G I|A B C D E F] Er; rewrite Er in E; injection E as ->.
  - left. exists x. inversion G. split; [reflexivity|]. split; [assumption | lia].
  - right. split; [reflexivity | apply Rph_send; assumption].
Qed.
Lemma Rph_facts m t : Rph m t ->
  t_pos t <> TStop /\ t_pos t <> TListen /\ t_out t = out0 /\ exists r, t_res t = Some r /\ resp_ok tc r /\ fmt r <> F_NAK.
Proof.
  intros [x rt A B C D E F G I|A B C D E F]; rewrite D; (split; [discriminate|]; split; [discriminate|]; split; [exact C|]).
  - exists (rtoxres tc x). split; [exact E|]. split; [apply (rtoxres_ok tc Hmiu) | discriminate].
  - exists (inf tc q resp). split; [exact E|]. split; [apply (inf_ok tc Hmiu q resp Hq)|]. destruct (inf_fmt tc q resp) as [-> | ->]; discriminate.
Qed.
Lemma Rph_I m t : Rph m t -> t_pos t <> TStop /\ Rph m (awake t).
Proof. intro H. destruct (Rph_facts m t H) as (A & B & _). rewrite (awake_not_listen t B). auto. Qed.
Lemma Rph_J m t : Rph m t -> t_pos t <> TListen /\ exists r, t_res t = Some r /\ resp_ok tc r.
Proof. intro H. destruct (Rph_facts m t H) as (_ & B & _ & r & Er & Hok & _). eauto. Qed.

(* the last information PDU of a payload enters the phase: the payload goes to the application, which requests the
   time-out extensions rt one after the other and then answers with resp *)
Lemma Rph_enter t acc d rt : Ready t q acc -> fmt d = F_INF -> pni d = q ->
  t_app t = (rt, resp) :: rest -> Forall rt_ok rt -> out0 = t_out t ++ [TOk (acc ++ data d)] ->
  exists t1 r1, t_accept tc t d = (t1, Some (PDepRes r1)) /\ Rph (length rt) t1 /\ t_res t1 = Some r1.
Proof.
  intros HR Hf Hp Happ Hrt Hout. destruct (ready_accept t q acc d HR Hp) as (pos & res0 & ->).
  unfold t_recv_chain. rewrite Hf. change (F_INF =? F_MORE) with false. cbv iota.
  unfold t_app_step, t_app_continue. cbn [t_app t_pni t_pos t_res t_out t_rtx t_act]. rewrite Happ.
  destruct rt as [|x rt'].
  - unfold t_start_send. destruct resp as [|b resp'] eqn:Er; [congruence|]. rewrite <- Er.
    do 2 eexists. split; [reflexivity|]. split; [|reflexivity].
    apply Rph_send; cbn; auto using eq_sym. apply Tinv_mk; [exact Hq | apply inf_ok; assumption].
  - do 2 eexists. split; [reflexivity|]. split; [|reflexivity].
    apply (Rph_rtox _ _ x rt'); cbn; auto using eq_sym. apply Tinv_mk; [exact Hq | apply (rtoxres_ok tc Hmiu)].
Qed.
(* ... and it is left with the first chunk of the response on the air *)
Lemma Rph_leave t : Rph 0 t -> Sending t q resp /\ t_app t = rest /\ t_out t = out0.
Proof. intros [x rt A B C D E F G I|A B C D E F]; [lia|]. unfold Sending. auto 10. Qed.
End Phase.
End Ideal.
