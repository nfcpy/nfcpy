From Coq Require Import ZArith List Bool Lia ZifyBool.
From NV Require Import Base.Result Base.Bytes Base.PyPrims Model.Frames Proofs.Frames.
Import ListNotations.
Open Scope Z_scope.
Ltac Zify.zify_post_hook ::= Z.to_euclidean_division_equations.

Lemma tail_parse_complete cmd d :
  tail_parse cmd (([213; cmd + 1] ++ d) ++ [Z.land (256 - sum ([213; cmd + 1] ++ d)) 255; 0]) = Ok d.
Proof.
  unfold tail_parse, but_last. rewrite removelast_app2, sum_app, !land255.
  change (sum [?x]) with x.
  replace (negb (_ mod 256 =? 0)) with false by lia.
  cbn [app]. rewrite idx0_cons, idx1_cons. cbn [bind Z.eqb Pos.eqb negb].
  rewrite Z.eqb_refl. cbn [negb]. unfold strip2. cbn [tl].
  change (d ++ [?a; ?b]) with (d ++ [a; b]). rewrite removelast_app2, removelast_app1. reflexivity.
Qed.

Theorem pn53x_parse_complete cmd d :
  len d <= 65533 -> pn53x_parse cmd (pn53x_response cmd d) = Ok d.
Proof.
  intro Hn. pose proof (len_nonneg d) as H0. rewrite pn53x_parse_unfold. unfold pn53x_response.
  set (body := [213; cmd + 1] ++ d).
  assert (Hb : len body = len d + 2) by (unfold body; rewrite len_app; change (len [213; cmd+1]) with 2; lia).
  set (tl2 := [Z.land (256 - sum body) 255; 0]).
  assert (Ht : len (body ++ tl2) = len body + 2) by apply len_app.
  destruct (len body <? 255) eqn:E.
  - change (SOF ++ [?a; ?b]) with [0; 0; 255; a; b]. rewrite len_app.
    replace (_ <? 7) with false by (change (len [_; _; _; _; _]) with 5; lia).
    rewrite frame_body_normal, land255 by lia.
    replace (negb (_ mod 256 =? 0)) with false by lia.
    replace (negb (len body =? _)) with false by lia.
    apply tail_parse_complete.
  - change (SOF ++ [255; 255; ?a; ?b; ?c]) with [0; 0; 255; 255; 255; a; b; c]. rewrite len_app.
    replace (_ <? 7) with false by (change (len [_; _; _; _; _; _; _; _]) with 8; lia).
    rewrite frame_body_ext, land255.
    replace (negb (_ mod 256 =? 0)) with false by lia.
    replace (negb (_ * 256 + _ =? _)) with false by lia.
    apply tail_parse_complete.
Qed.

Lemma le32_sum n : 0 <= n < 4294967296 ->
  n mod 256 + 256 * ((n / 256) mod 256) + 65536 * ((n / 65536) mod 256) + 16777216 * ((n / 16777216) mod 256) = n.
Proof. intro H. lia. Qed.

Theorem acr122_build_ok cmd data f :
  acr122_build cmd data = Ok f -> acr122_cmd_ok f = Some ([212; cmd] ++ data) /\ len data <= 253.
Proof.
  unfold acr122_build. pose proof (len_nonneg data) as H0.
  rewrite len_app. change (len [212; cmd]) with 2.
  remember (2 + len data) as k eqn:Hk.
  destruct (k >? 255) eqn:E; [discriminate|]. intro H. injection H as <-.
  split; [|lia]. unfold ccid_build, le32. cbn [app].
  unfold acr122_cmd_ok, byt. cbn [nth skipn].
  rewrite !len_cons. set (n := len data) in *.
  set (m := 1 + (1 + (1 + (1 + (1 + (1 + (1 + n))))))).
  assert (Hm : 0 <= m < 4294967296) by (unfold m; lia).
  rewrite (le32_sum m Hm). unfold m.
  rewrite !Z.eqb_refl. cbn [andb]. rewrite !andb_true_r.
  match goal with |- (if ?a && ?b && ?c then _ else _) = _ =>
    replace a with true by lia; replace b with true by lia; replace c with true by lia end.
  reflexivity.
Qed.

Theorem acr122_parse_sound cmd rsp d :
  acr122_parse cmd rsp = Ok d ->
  acr122_rsp_ok rsp = Some (([213; cmd + 1] ++ d) ++ [144; 0]).
Proof.
  unfold acr122_parse, ccid_parse, acr122_rsp_ok.
  destruct (len rsp <? 10) eqn:E10; [discriminate|].
  destruct (negb (byt rsp 0 =? 128)) eqn:E0; [discriminate|].
  destruct (negb (len rsp =? _)) eqn:El; [discriminate|]. cbn [bind].
  set (fr := skipn 10 rsp).
  destruct (len fr <? 4) eqn:E4; [discriminate|].
  destruct (negb ((byt fr 0 =? 213) && (byt fr 1 =? cmd + 1))) eqn:E1; [discriminate|].
  destruct (negb ((fst (last2 fr) =? 144) && (snd (last2 fr) =? 0))) eqn:E2; [discriminate|].
  intro H. injection H as <-.
  replace (10 <=? len rsp) with true by lia. replace (byt rsp 0 =? 128) with true by lia.
  match goal with |- (if (true && true && ?c) then _ else _) = _ => replace c with true by lia end.
  cbn [andb]. f_equal. fold fr.
  destruct (split_last2 fr) as (B & x & y & HB); [lia|]. rewrite HB in *.
  unfold last2 in E2. rewrite removelast_app2 in E2. rewrite !last_last in E2.
  change (B ++ [x; y]) with (B ++ [x] ++ [y]) in E2. rewrite app_assoc, last_last in E2. cbn [fst snd] in E2.
  assert (x = 144 /\ y = 0) as [-> ->] by lia.
  destruct B as [|b0 [|b1 B]]; try (rewrite !len_app in E4; cbn in E4; lia).
  cbn [app byt nth] in E1. assert (b0 = 213 /\ b1 = cmd + 1) as [-> ->] by lia.
  unfold strip2. cbn [app tl]. rewrite removelast_app2, removelast_app1. reflexivity.
Qed.

Theorem rcs380_build_ok data : bytes_ok data -> len data <= 65535 ->
  rcs380_frame_ok (rcs380_build data) = Some data.
Proof.
  intros Hd Hn. pose proof (len_nonneg data) as H0. pose proof (sum_nonneg data Hd) as Hs.
  unfold rcs380_build, rcs380_frame_ok, byt. cbn [app nth skipn Z.eqb Pos.eqb andb].
  rewrite !sum_cons, sum_nil. rewrite !len_cons, len_app. change (len [?a; ?b]) with 2.
  set (n := len data) in *.
  replace (((n mod 256 + n / 256 + (256 - (n mod 256 + (n / 256 + 0))) mod 256) mod 256 =? 0)) with true by lia.
  replace (1 + (1 + (1 + (1 + (1 + (1 + (1 + (1 + (n + 2)))))))) =? 8 + (n / 256 * 256 + n mod 256) + 2) with true by lia.
  cbn [andb]. replace (n / 256 * 256 + n mod 256) with n by lia.
  unfold n, len. rewrite Nat2Z.id.
  rewrite firstn_len_app, nth_len_app by reflexivity.
  replace (S (length data)) with (length (data ++ [(256 - sum data) mod 256])) by (rewrite app_length; cbn; lia).
  change (data ++ [?a; 0]) with (data ++ [a] ++ [0]). rewrite app_assoc, nth_len_app by reflexivity.
  replace ((sum data + (256 - sum data) mod 256) mod 256 =? 0) with true by lia. reflexivity.
Qed.
