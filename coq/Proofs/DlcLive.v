(* C05 - progress: from every reachable state a finite continuation of link and receive steps (no
   further send) delivers everything that was accepted, in both directions.  Together with
   in_order_exactly_once: every accepted message is eventually returned, exactly once, in order,
   provided the link keeps exchanging and the applications keep receiving. *)
From Coq Require Import ZArith List Bool Lia ZifyBool Arith.
From NV Require Import Base.Result Base.Bytes Model.Dlc Proofs.DlcBase Proofs.Dlc Proofs.DlcCor.
Import ListNotations.
Open Scope Z_scope.

Lemma fold_repeat_S o n s : fold_left step (repeat o (S n)) s = fold_left step (repeat o n) (step s o).
Proof. reflexivity. Qed.

(* a step is one endpoint function applied to the endpoint of the op's side (Deliver: to the head of
   its incoming wire); the other endpoint is not touched *)
Definition op_side (o : op) : side :=
  match o with Send sd _ | Recv sd | SetBusy sd _ | PollAcks sd | Deq sd _ _ | Ack sd | Deliver sd => sd end.
Definition ep_op (x : ep) (inw : list pdu) (o : op) : ep :=
  match o with
  | Send _ m => match snd (ep_send x m) with Ok _ => fst (ep_send x m) | _ => x end
  | Recv _ => fst (ep_recv_nb x)
  | SetBusy _ b => ep_setbusy x b
  | PollAcks _ => fst (ep_poll_acks x)
  | Deq _ miu icv => fst (ep_dequeue x miu icv)
  | Ack _ => fst (ep_sendack x)
  | Deliver _ => match inw with [] => x | p :: _ => fst (ep_enqueue x p) end
  end.

Definition op_emits (x : ep) (o : op) : option pdu :=
  match o with Deq _ miu icv => snd (ep_dequeue x miu icv) | Ack _ => snd (ep_sendack x) | _ => None end.

Lemma step_frame s o :
  get_ep (step s o) (op_side o) = ep_op (get_ep s (op_side o)) (get_w s (other (op_side o))) o /\
  get_ep (step s o) (other (op_side o)) = get_ep s (other (op_side o)) /\
  get_w (step s o) (op_side o) =
    match op_emits (get_ep s (op_side o)) o with Some p => get_w s (op_side o) ++ [p] | None => get_w s (op_side o) end /\
  get_w (step s o) (other (op_side o)) =
    match o with Deliver _ => tl (get_w s (other (op_side o))) | _ => get_w s (other (op_side o)) end.
Proof.
  unfold step, step_full, emit. destruct o as [sd m|sd|sd b|sd|sd miu icv|sd|sd]; cbn [op_side ep_op op_emits].
  - destruct (ep_send (get_ep s sd) m) as [x' [?|?| |]]; destruct sd; auto.
  - destruct (ep_recv_nb (get_ep s sd)) as [x' [[d|]|e| |]]; try destruct e; destruct sd; auto.
  - destruct sd; auto.
  - destruct (ep_poll_acks (get_ep s sd)) as [x' r]; destruct sd; auto.
  - destruct (ep_dequeue (get_ep s sd) miu icv) as [x' [p|]]; destruct sd; auto.
  - destruct (ep_sendack (get_ep s sd)) as [x' [p|]]; destruct sd; auto.
  - destruct (get_w s (other sd)) as [|p w] eqn:E; [cbn [fst tl]; rewrite E; auto|].
    destruct (ep_enqueue (get_ep s sd) p) as [x' r]; destruct sd; auto.
Qed.

(* a receive only takes from the receive queue *)
Lemma recv_nb_keeps x : sq (fst (ep_recv_nb x)) = sq x /\ smiu (fst (ep_recv_nb x)) = smiu x.
Proof.
  unfold ep_recv_nb, ep_poll_recv, ep_recv. destruct (negb (est x)); [auto|].
  destruct (rq x); [auto|]. destruct (rwl x <? confs x + 1); auto.
Qed.

Definition pend (x : ep) : nat := (length (sq x) + if eqb (busy_sent x) (busy x) then 0 else 1)%nat.

Lemma deq_step s sd M : Inv s ->
  Forall (fun p => pdu_info_size p 0 <= M) (sq (get_ep s sd)) ->
  let x' := get_ep (step s (Deq sd M 0)) sd in
  Forall (fun p => pdu_info_size p 0 <= M) (sq x') /\ pend x' = pred (pend (get_ep s sd)) /\ rq x' = rq (get_ep s sd).
Proof.
  intros HI Hsz. destruct (HI sd) as (_ & Ex & Ix & _).
  cbv zeta. destruct (step_frame s (Deq sd M 0)) as [F _]. cbn [op_side ep_op] in F. rewrite F. clear F.
  destruct (ep_dequeue (get_ep s sd) M 0) as [x1 po] eqn:E. cbn [fst].
  unfold ep_dequeue in E. rewrite Ex in E. cbn [andb] in E. unfold pend.
  destruct (eqb (busy_sent (get_ep s sd)) (busy (get_ep s sd))) eqn:Eb; cbn [negb] in E.
  2:{ injection E as <- _. sim. rewrite eqb_reflx. repeat split; [assumption|lia]. }
  destruct (sq (get_ep s sd)) as [|p q] eqn:Esq.
  { unfold necessary_ack, ack_now in E. cbv zeta in E. rewrite Ex in E.
    destruct (true && negb (confs (get_ep s sd) =? 0) && (recv_window_slots (get_ep s sd) =? 0)); injection E as <- _; sim;
      rewrite ?Esq, ?Eb; repeat split; auto. }
  inversion Hsz as [|? ? Hp Hq]; subst. inversion Ix as [|? ? HpI Iq]; subst.
  replace (M <? pdu_info_size p 0) with false in E by lia.
  destruct p as [ns nr d| | |]; try discriminate HpI.
  destruct (negb (confs (get_ep s sd) =? 0) && negb (vr (get_ep s sd) =? vra (get_ep s sd))); injection E as <- _; sim;
    rewrite ?Eb; repeat split; auto; cbn [length]; lia.
Qed.

Lemma deq_drain sd M n : forall s, Inv s ->
  Forall (fun p => pdu_info_size p 0 <= M) (sq (get_ep s sd)) -> (pend (get_ep s sd) <= n)%nat ->
  let s' := fold_left step (repeat (Deq sd M 0) n) s in
  sq (get_ep s' sd) = [] /\ rq (get_ep s' sd) = rq (get_ep s sd) /\
  get_ep s' (other sd) = get_ep s (other sd) /\ get_w s' (other sd) = get_w s (other sd).
Proof.
  induction n as [|n IH]; intros s HI Hsz Hn; cbn zeta.
  - cbn [repeat fold_left]. unfold pend in Hn. destruct (sq (get_ep s sd)); [auto|cbn [length] in Hn; lia].
  - rewrite fold_repeat_S. destruct (deq_step s sd M HI Hsz) as (H1 & H2 & H3).
    destruct (IH (step s (Deq sd M 0)) (inv_step _ _ HI) H1 ltac:(lia)) as (A1 & A2 & A3 & A4).
    destruct (step_frame s (Deq sd M 0)) as (_ & F1 & _ & F2).
    repeat split; [exact A1 | rewrite A2; exact H3 | rewrite A3; exact F1 | rewrite A4; exact F2].
Qed.

Lemma deliver_drain sd n : forall s, (length (get_w s (other sd)) <= n)%nat ->
  let s' := fold_left step (repeat (Deliver sd) n) s in
  get_w s' (other sd) = [] /\ get_ep s' (other sd) = get_ep s (other sd) /\ get_w s' sd = get_w s sd.
Proof.
  induction n as [|n IH]; intros s Hn; cbn zeta.
  - cbn [repeat fold_left]. destruct (get_w s (other sd)); [auto|cbn [length] in Hn; lia].
  - rewrite fold_repeat_S. destruct (step_frame s (Deliver sd)) as (_ & F3 & F2 & F1). cbn [op_side op_emits] in F1, F2, F3.
    destruct (IH (step s (Deliver sd))) as (A1 & A2 & A3).
    { rewrite F1. destruct (get_w s (other sd)); cbn [tl length] in *; lia. }
    repeat split; [exact A1 | rewrite A2; exact F3 | rewrite A3; exact F2].
Qed.

Lemma recv_step s sd : Inv s -> rq (get_ep (step s (Recv sd)) sd) = tl (rq (get_ep s sd)).
Proof.
  intro HI. apply (inv_view s sd), pair_recv in HI.
  destruct (step_frame s (Recv sd)) as [F _]. cbn [op_side ep_op] in F. rewrite F.
  destruct (rq (get_ep s sd)) as [|d q] eqn:E; [rewrite HI; exact E | destruct HI as [-> _]; reflexivity].
Qed.

Lemma recv_drain sd n : forall s, Inv s -> (length (rq (get_ep s sd)) <= n)%nat ->
  let s' := fold_left step (repeat (Recv sd) n) s in
  rq (get_ep s' sd) = [] /\ sq (get_ep s' sd) = sq (get_ep s sd) /\ get_ep s' (other sd) = get_ep s (other sd) /\
  get_w s' sd = get_w s sd /\ get_w s' (other sd) = get_w s (other sd).
Proof.
  induction n as [|n IH]; intros s HI Hn; cbn zeta.
  - cbn [repeat fold_left]. destruct (rq (get_ep s sd)); [auto 6|cbn [length] in Hn; lia].
  - rewrite fold_repeat_S. destruct (step_frame s (Recv sd)) as (F4 & F1 & F2 & F3). cbn [op_side op_emits ep_op] in F1, F2, F3, F4.
    destruct (IH (step s (Recv sd)) (inv_step _ _ HI)) as (A1 & A2 & A3 & A4 & A5).
    { rewrite (recv_step s sd HI). destruct (rq (get_ep s sd)); cbn [tl length] in *; lia. }
    repeat split; [exact A1 | rewrite A2, F4; apply recv_nb_keeps | rewrite A3; exact F1 | rewrite A4; exact F2 | rewrite A5; exact F3].
Qed.

(* Deliver keeps the receiving side's send queue (no frame reject under the invariant) *)
Lemma deliver_sq s sd : Inv s -> sq (get_ep (step s (Deliver sd)) sd) = sq (get_ep s sd).
Proof.
  intro HI. apply (inv_view s sd) in HI.
  destruct (step_frame s (Deliver sd)) as [F _]. cbn [op_side ep_op] in F. rewrite F.
  destruct (get_w s (other sd)) as [|p w]; [reflexivity|]. apply pair_enqueue in HI. apply HI.
Qed.

Lemma deliver_sq_n sd n : forall s, Inv s -> sq (get_ep (fold_left step (repeat (Deliver sd) n) s) sd) = sq (get_ep s sd).
Proof.
  induction n as [|n IH]; intros s HI; [reflexivity|]. rewrite fold_repeat_S, IH by (apply inv_step, HI). apply deliver_sq, HI.
Qed.

Definition Drained (s : sys) (sd : side) : Prop :=
  sq (get_ep s sd) = [] /\ get_w s sd = [] /\ rq (get_ep s (other sd)) = [].

Definition no_send (o : op) : Prop := match o with Send _ _ => False | _ => True end.

Lemma Forall_repeat {A} (P : A -> Prop) x n : P x -> Forall P (repeat x n).
Proof. intro H. induction n; cbn; constructor; auto. Qed.

(* dequeue until the send queue of sd is empty, then deliver until its outgoing wire is empty;
   every queued I PDU is within the MIU, so a dequeue with that MIU never re-queues *)
Lemma drain_wire s sd : Inv s -> exists M n1 n2,
  let s2 := fold_left step (repeat (Deq sd M 0) n1 ++ repeat (Deliver (other sd)) n2) s in
  sq (get_ep s2 sd) = [] /\ get_w s2 sd = [] /\ rq (get_ep s2 sd) = rq (get_ep s sd) /\
  sq (get_ep s2 (other sd)) = sq (get_ep s (other sd)) /\ get_w s2 (other sd) = get_w s (other sd).
Proof.
  intro HI. destruct (HI sd) as (Hxy & _ & Ix & _).
  set (M := rmiu (get_ep s (other sd))).
  assert (Hsz : Forall (fun p => pdu_info_size p 0 <= M) (sq (get_ep s sd))).
  { unfold Dir in Hxy. dir_intro Hxy. clear - Hsz Ix. fold M in Hsz.
    rewrite map_app, Forall_app in Hsz. destruct Hsz as [_ Hsz]. revert Ix Hsz.
    induction (sq (get_ep s sd)) as [|p q IH]; intros Ix Hsz; [constructor|].
    inversion Ix as [|? ? HpI Iq]; subst. destruct p as [ns nr d| | |]; try discriminate HpI.
    cbn [Is map snd] in Hsz. inversion Hsz; subst. constructor; [cbn; lia|auto]. }
  set (n1 := pend (get_ep s sd)).
  set (s1 := fold_left step (repeat (Deq sd M 0) n1) s).
  destruct (deq_drain sd M n1 s HI Hsz (le_n _)) as (D1 & D2 & D3 & D4). fold s1 in D1, D2, D3, D4.
  assert (HI1 : Inv s1) by (apply inv_run_from, HI).
  set (n2 := length (get_w s1 sd)).
  destruct (deliver_drain (other sd) n2 s1) as (E1 & E2 & E3); [rewrite other_other; apply le_n|].
  rewrite other_other in E1, E2.
  exists M, n1, n2. cbn zeta. rewrite fold_left_app. fold s1.
  rewrite E1, E2, E3, (deliver_sq_n _ _ _ HI1), D1, D2, D3, D4. auto.
Qed.

Lemma flush_dir s sd : Inv s -> exists ops, Forall no_send ops /\
  let s' := fold_left step ops s in Drained s' sd /\ (Drained s (other sd) -> Drained s' (other sd)).
Proof.
  intro HI. destruct (drain_wire s sd HI) as (M & n1 & n2 & D).
  set (o2 := repeat (Deq sd M 0) n1 ++ repeat (Deliver (other sd)) n2) in D.
  set (s2 := fold_left step o2 s) in D. destruct D as (D1 & D2 & D3 & D4 & D5).
  assert (HI2 : Inv s2) by (apply inv_run_from, HI).
  set (n3 := length (rq (get_ep s2 (other sd)))).
  destruct (recv_drain (other sd) n3 s2 HI2 (le_n _)) as (R1 & R2 & R3 & R4 & R5).
  rewrite other_other in R3, R5.
  exists (o2 ++ repeat (Recv (other sd)) n3). split.
  - unfold o2. rewrite !Forall_app. repeat split; apply Forall_repeat; exact I.
  - cbn zeta. rewrite fold_left_app. fold s2. unfold Drained. rewrite other_other, R1, R2, R3, R4, R5, D1, D2, D3, D4, D5. auto.
Qed.

Theorem progress c ops : cfg_ok c -> exists ops', Forall no_send ops' /\
  let h := outs (init c) (ops ++ ops') in
  returned B h = accepted A h /\ returned A h = accepted B h.
Proof.
  intro Hc. pose proof (inv_reachable c ops Hc) as HI0.
  destruct (flush_dir (run c ops) A HI0) as (o1 & N1 & DA & _). cbn zeta in DA.
  set (s1 := fold_left step o1 (run c ops)) in *.
  assert (HI1 : Inv s1) by (apply inv_run_from, HI0).
  destruct (flush_dir s1 B HI1) as (o2 & N2 & DB & KA). cbn zeta in DB, KA. cbn [other] in KA.
  specialize (KA DA).
  exists (o1 ++ o2). split; [apply Forall_app; auto|]. cbn zeta.
  pose proof (in_order_exactly_once c (ops ++ o1 ++ o2) A Hc) as PA.
  pose proof (in_order_exactly_once c (ops ++ o1 ++ o2) B Hc) as PB. cbn zeta in PA, PB.
  assert (Er : run c (ops ++ o1 ++ o2) = fold_left step o2 s1).
  { unfold run. rewrite !fold_left_app. reflexivity. }
  rewrite Er in PA, PB. cbn [other] in PA, PB.
  destruct KA as (A1 & A2 & A3). destruct DB as (B1 & B2 & B3). cbn [other] in A3, B3.
  rewrite A1, A2, A3 in PA. rewrite B1, B2, B3 in PB. cbn [Is map app] in PA, PB.
  rewrite app_nil_r in PA, PB. split; symmetry; assumption.
Qed.
