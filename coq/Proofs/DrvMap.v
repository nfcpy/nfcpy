(* C13 - the status -> exception maps are total over the documented errors and classify
   timeout / field loss / other RF errors as the property says. *)
From Coq Require Import ZArith List Bool Lia ZifyBool.
From NV Require Import Model.DrvMap.
Import ListNotations.
Open Scope Z_scope.

Lemma pn53x_error_map_documented d n : documented (pn53x_error_map d n) = true.
Proof. destruct d; unfold pn53x_error_map;
  [destruct (n =? 1) | destruct ((n =? 10) || (n =? 41) || (n =? 49))]; reflexivity. Qed.

(* whatever the payload is *)
Lemma pn53x_map_total_any d c payload : allowed (pn53x_status_outcome d c payload) = true.
Proof. unfold pn53x_status_outcome. destruct (chip_result c payload); [reflexivity|].
  cbn. apply pn53x_error_map_documented. Qed.

Lemma pn53x_errframe_total d : allowed (pn53x_errframe_outcome d) = true.
Proof. apply pn53x_error_map_documented. Qed.

Lemma pn53x_ioerror_total d n : documented (pn53x_ioerror_map d n) = true.
Proof. unfold pn53x_ioerror_map. destruct (n =? ETIMEDOUT); reflexivity. Qed.

Lemma pn53x_readreg_total d ws n payload : allowed (pn53x_readreg_outcome d ws n payload) = true.
Proof. unfold pn53x_readreg_outcome. destruct (readreg_result ws n payload); [reflexivity|].
  cbn. apply pn53x_error_map_documented. Qed.
(* a ReadRegister answer is accepted only with at least one value per register *)
Lemma pn53x_readreg_enough d n payload :
  pn53x_readreg_outcome d false n payload = OData <-> n <= Z.of_nat (length payload).
Proof. unfold pn53x_readreg_outcome, readreg_result.
  destruct (Z.ltb_spec (Z.of_nat (length payload)) n); split; intro H0; try reflexivity; try discriminate; lia. Qed.

(* register values: every value of every register read on the Type 3 / Type 1 register paths *)
Lemma tt3_poll_total commirq divirq level fifo : Z.of_nat (length fifo) = level ->
  poll_allowed (tt3_poll commirq divirq level fifo) = true.
Proof.
  intro L. unfold tt3_poll.
  destruct (negb (Z.land divirq 1 =? 0)); [reflexivity|].
  destruct (Z.land commirq 32 =? 0); [reflexivity|].
  destruct ((0 <? level) && (level <=? 64)) eqn:E; cbn [negb]; [|reflexivity].
  destruct fifo as [|b r]; [cbn in L; lia|].
  destruct (b =? Z.of_nat (length (b :: r))); reflexivity.
Qed.
(* data is handed to the caller only if the length byte matches the fifo level, 1..64 *)
Lemma tt3_poll_data commirq divirq level fifo : Z.of_nat (length fifo) = level ->
  tt3_poll commirq divirq level fifo = PollOut OData ->
  1 <= level <= 64 /\ nth 0 fifo 0 = level /\ Z.land divirq 1 = 0 /\ Z.land commirq 32 <> 0.
Proof.
  intros L. unfold tt3_poll.
  destruct (Z.eqb_spec (Z.land divirq 1) 0); cbn [negb]; [|discriminate].
  destruct (Z.eqb_spec (Z.land commirq 32) 0); [discriminate|].
  destruct ((0 <? level) && (level <=? 64)) eqn:E; cbn [negb]; [|discriminate].
  destruct fifo as [|b r]; [discriminate|].
  destruct (Z.eqb_spec b (Z.of_nat (length (b :: r)))); [|discriminate].
  intros _. cbn [nth]. repeat split; try lia; assumption.
Qed.

Lemma tt1_fifo_total level crc_ok : 0 <= level < 256 -> allowed (tt1_fifo_outcome level crc_ok) = true.
Proof.
  intros _. unfold tt1_fifo_outcome.
  destruct (level =? 0), (64 <? level), (tt1_decoded_count level <? 2), crc_ok; reflexivity.
Qed.
(* data only for a level of 3..64 bytes (at least two decoded bytes) with a good CRC *)
Lemma tt1_fifo_data level crc_ok : tt1_fifo_outcome level crc_ok = OData -> 3 <= level <= 64 /\ crc_ok = true.
Proof.
  unfold tt1_fifo_outcome, tt1_decoded_count.
  destruct (Z.eqb_spec level 0); [discriminate|].
  destruct (Z.ltb_spec 64 level); [discriminate|].
  destruct (Z.ltb_spec (8 * level / 9) 2); [discriminate|].
  destruct crc_ok; [|discriminate]. intros _. pose proof (Z.mul_div_le (8 * level) 9 eq_refl).
  split; [lia|reflexivity].
Qed.

(* classification demanded by the property text *)
Lemma pn53x_initiator_classify code rest : 0 <= code < 256 ->
  pn53x_status_outcome Initiator InCommunicateThru (code :: rest) =
    if code =? 0 then OData else if code =? 1 then ORaise XTimeout else ORaise XTransmission.
Proof. intros _. unfold pn53x_status_outcome, chip_result, pn53x_error_map.
  destruct (code =? 0); [reflexivity|]. destruct (code =? 1); reflexivity. Qed.

Lemma pn53x_target_classify code rest : 0 <= code < 256 ->
  pn53x_status_outcome Target TgGetInitiatorCommand (code :: rest) =
    if code =? 0 then OData
    else if (code =? 10) || (code =? 41) || (code =? 49) then ORaise XBrokenLink else ORaise XTransmission.
Proof. intros _. unfold pn53x_status_outcome, chip_result, pn53x_error_map.
  destruct (code =? 0); [reflexivity|]. destruct ((code =? 10) || (code =? 41) || (code =? 49)); reflexivity. Qed.

Lemma pn53x_host_timeout_is_timeout d : pn53x_ioerror_map d ETIMEDOUT = XTimeout.
Proof. reflexivity. Qed.

Lemma land_pow2 w k : 0 <= k -> Z.land w (2 ^ k) = if Z.testbit w k then 2 ^ k else 0.
Proof.
  intro Hk. apply Z.bits_inj'. intros n Hn. rewrite Z.land_spec, Z.pow2_bits_eqb by lia.
  destruct (Z.eqb_spec k n) as [->|Hne].
  - destruct (Z.testbit w n) eqn:E; [rewrite Z.pow2_bits_eqb, Z.eqb_refl by lia; reflexivity|].
    rewrite Z.bits_0. reflexivity.
  - rewrite andb_false_r. destruct (Z.testbit w k).
    + rewrite Z.pow2_bits_eqb by lia. symmetry. apply Z.eqb_neq. exact Hne.
    + rewrite Z.bits_0. reflexivity.
Qed.

Lemma has_bit_testbit w k : 0 <= k -> has_bit w (2 ^ k) = Z.testbit w k.
Proof. intro Hk. unfold has_bit. rewrite land_pow2 by exact Hk.
  destruct (Z.testbit w k); [|reflexivity].
  assert (0 < 2 ^ k) by (apply Z.pow_pos_nonneg; lia).
  destruct (Z.eqb_spec (2 ^ k) 0); [lia|reflexivity]. Qed.

Lemma has_bit_timeout w : has_bit w RECEIVE_TIMEOUT = Z.testbit w 7.
Proof. change RECEIVE_TIMEOUT with (2 ^ 7). apply has_bit_testbit. lia. Qed.
Lemma has_bit_rfoff w : has_bit w RF_OFF = Z.testbit w 10.
Proof. change RF_OFF with (2 ^ 10). apply has_bit_testbit. lia. Qed.

Lemma rcs380_comm_map_documented d w : documented (rcs380_comm_map d w) = true.
Proof. destruct d; unfold rcs380_comm_map;
  [destruct (has_bit w RECEIVE_TIMEOUT) | destruct (has_bit w RF_OFF); [|destruct (has_bit w RECEIVE_TIMEOUT)]];
  reflexivity. Qed.

(* every 32-bit communication status word *)
Lemma rcs380_map_total_lemma : forall d w, 0 <= w < 2 ^ 32 -> allowed (rcs380_status_outcome d w) = true.
Proof. intros d w _. unfold rcs380_status_outcome. destruct (w =? 0); [reflexivity|].
  cbn. apply rcs380_comm_map_documented. Qed.

(* classification by bits, independent of all other bits *)
Lemma rcs380_initiator_classify w : w <> 0 ->
  rcs380_status_outcome Initiator w = ORaise (if Z.testbit w 7 then XTimeout else XTransmission).
Proof. intro H. unfold rcs380_status_outcome, rcs380_comm_map. rewrite has_bit_timeout.
  destruct (Z.eqb_spec w 0); [contradiction|]. destruct (Z.testbit w 7); reflexivity. Qed.

Lemma rcs380_target_classify w : w <> 0 ->
  rcs380_status_outcome Target w =
    ORaise (if Z.testbit w 10 then XBrokenLink else if Z.testbit w 7 then XTimeout else XTransmission).
Proof. intro H. unfold rcs380_status_outcome, rcs380_comm_map. rewrite has_bit_timeout, has_bit_rfoff.
  destruct (Z.eqb_spec w 0); [contradiction|].
  destruct (Z.testbit w 10); [reflexivity|]. destruct (Z.testbit w 7); reflexivity. Qed.

(* the driver tests the four bytes, the model the word: they agree *)
Lemma le32_zero b0 b1 b2 b3 : 0 <= b0 < 256 -> 0 <= b1 < 256 -> 0 <= b2 < 256 -> 0 <= b3 < 256 ->
  (le32 b0 b1 b2 b3 =? 0) = (b0 =? 0) && (b1 =? 0) && (b2 =? 0) && (b3 =? 0).
Proof. unfold le32. lia. Qed.
Lemma le32_range b0 b1 b2 b3 : 0 <= b0 < 256 -> 0 <= b1 < 256 -> 0 <= b2 < 256 -> 0 <= b3 < 256 ->
  0 <= le32 b0 b1 b2 b3 < 2 ^ 32.
Proof. unfold le32. change (2 ^ 32) with 4294967296. lia. Qed.
Lemma rcs380_bytes_word d b0 b1 b2 b3 :
  0 <= b0 < 256 -> 0 <= b1 < 256 -> 0 <= b2 < 256 -> 0 <= b3 < 256 ->
  rcs380_bytes_outcome d b0 b1 b2 b3 = rcs380_status_outcome d (le32 b0 b1 b2 b3).
Proof. intros. unfold rcs380_bytes_outcome, rcs380_status_outcome. rewrite le32_zero by assumption. reflexivity. Qed.

Lemma rcs380_bytes_total d b0 b1 b2 b3 : allowed (rcs380_bytes_outcome d b0 b1 b2 b3) = true.
Proof. unfold rcs380_bytes_outcome. destruct ((b0 =? 0) && (b1 =? 0) && (b2 =? 0) && (b3 =? 0)); [reflexivity|].
  cbn. apply rcs380_comm_map_documented. Qed.

(* whatever payload follows the InCommRF / TgCommRF response code, of any length *)
Lemma rcs380_payload_total d payload : allowed (rcs380_payload_outcome d payload) = true.
Proof.
  unfold rcs380_payload_outcome. destruct payload as [|a0 r0]; [reflexivity|].
  destruct (Z.of_nat (length (a0 :: r0)) <? _) eqn:E; [cbn; apply rcs380_comm_map_documented|].
  destruct d.
  - destruct r0 as [|a1 [|a2 [|a3 r]]]; try (vm_compute in E; discriminate).
    cbn [skipn]. apply rcs380_bytes_total.
  - destruct r0 as [|a1 [|a2 [|a3 [|a4 [|a5 [|a6 r]]]]]]; try (vm_compute in E; discriminate).
    cbn [skipn]. apply rcs380_bytes_total.
Qed.

Lemma rcs380_setup_total st : allowed (rcs380_setup_outcome st) = true.
Proof. unfold rcs380_setup_outcome. destruct (st =? 0); reflexivity. Qed.

Lemma udp_total d : allowed (udp_outcome d) = true.
Proof. unfold udp_outcome. destruct (udp_classify d); reflexivity. Qed.
