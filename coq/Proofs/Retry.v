(* C16 - proofs about the retry loops of Model/Retry.v: for ALL scripts, budgets and positions.
   Everything rests on `transceive_cases`: a command either meets its first answer within the budget,
   after faults only, or meets faults only and ends in the else-clause with the last of them. *)
From Coq Require Import ZArith List Bool Lia Arith.
From NV Require Import Base.Result Model.Retry.
Import ListNotations.

Definition is_fault (a : attempt) : Prop := exists f b, a = Fault f b.
Definition fault_of (a : attempt) : option fault := match a with Fault f _ => Some f | Answer _ => None end.
Definition named (f : fault) : Prop := f <> FOther.

Lemma fault_not_answer a d : is_fault a -> a <> Answer d.
Proof. intros [f [b E]] H. rewrite E in H. discriminate. Qed.

(* the k attempts from position pos on all fail *)
Definition faults (k : nat) (s : script) (pos : nat) : Prop := forall i, (i < k)%nat -> is_fault (s (pos + i)%nat).

Lemma faults_S k s pos : faults (S k) s pos <-> is_fault (s pos) /\ faults k s (S pos).
Proof.
  split.
  - intro H. split; [rewrite <- (Nat.add_0_r pos); apply H; lia|].
    intros i Hi. rewrite Nat.add_succ_comm. apply H. lia.
  - intros [H0 H] [|i] Hi; [rewrite Nat.add_0_r; exact H0|].
    rewrite <- Nat.add_succ_comm. apply H. lia.
Qed.

(* the first answer is where it is *)
Lemma first_answer_unique s pos j d j' d' :
  faults j s pos -> s (pos + j)%nat = Answer d -> faults j' s pos -> s (pos + j')%nat = Answer d' -> j = j'.
Proof.
  intros Hf Ha Hf' Ha'. destruct (Nat.lt_trichotomy j j') as [H|[H|H]]; [|exact H|]; exfalso.
  - exact (fault_not_answer _ _ (Hf' _ H) Ha).
  - exact (fault_not_answer _ _ (Hf _ H) Ha').
Qed.

(* the last error of a budget of n attempts starting at pos (None for an empty range) *)
Definition last_fault (n : nat) (s : script) (pos : nat) : option fault :=
  match n with O => None | S m => fault_of (s (pos + m)%nat) end.

Lemma loop_cases : forall n s pos used last,
  (exists j d l, (j < n)%nat /\ faults j s pos /\ s (pos + j)%nat = Answer d /\
                 loop n s pos used last = (Some d, (used + S j)%nat, l)) \/
  (faults n s pos /\
   loop n s pos used last = (None, (used + n)%nat, match n with O => last | S _ => last_fault n s pos end)).
Proof.
  induction n as [|n IH]; intros s pos used last; cbn [loop].
  - right. split; [intros i Hi; lia|]. rewrite Nat.add_0_r. reflexivity.
  - destruct (s pos) as [d|f b] eqn:E.
    + left. exists 0%nat, d, last. rewrite Nat.add_0_r, Nat.add_1_r.
      split; [lia|]. split; [intros i Hi; lia|]. split; [exact E|reflexivity].
    + assert (F : is_fault (s pos)) by (rewrite E; exists f, b; reflexivity).
      destruct (IH s (S pos) (S used) (Some f)) as [(j & d & l & Hj & Hf & Ha & ->)|[Hf ->]]; [left|right].
      * exists (S j), d, l. rewrite <- Nat.add_succ_comm, faults_S.
        split; [lia|]. split; [auto|]. split; [exact Ha|]. f_equal. f_equal. lia.
      * rewrite faults_S. split; [auto|]. f_equal; [f_equal; lia|].
        destruct n; cbn [last_fault]; [rewrite Nat.add_0_r, E; reflexivity|rewrite <- Nat.add_succ_comm; reflexivity].
Qed.

Lemma transceive_cases ty fixed3 n s pos :
  (exists j d, (j < n)%nat /\ faults j s pos /\ s (pos + j)%nat = Answer d /\
               transceive_n ty fixed3 n true s pos = (Ok d, S j)) \/
  (faults n s pos /\ transceive_n ty fixed3 n true s pos = (exhausted ty fixed3 (last_fault n s pos), n)).
Proof.
  replace (transceive_n ty fixed3 n true s pos)
    with (match loop n s pos 0 None with
          | (Some d, k, _) => (Ok d, k)
          | (None, k, last) => (exhausted ty fixed3 last, k) end) by (destruct ty; reflexivity).
  destruct (loop_cases n s pos 0 None) as [(j & d & l & Hj & Hf & Ha & ->)|[Hf ->]]; [left; eauto 6|right].
  split; [exact Hf|]. destruct n; reflexivity.
Qed.

Definition retry_spec_stmt (ty : ttype) (fixed3 : bool) (n : nat) (s : script) (pos : nat) : Prop :=
  let '(r, k) := transceive_n ty fixed3 n true s pos in
  (* attempts <= budget *)
  (k <= n)%nat /\
  (* result = first answer within the budget ... *)
  (forall j d, (j < n)%nat -> s (pos + j)%nat = Answer d -> (forall i, (i < j)%nat -> is_fault (s (pos + i)%nat)) ->
     r = Ok d /\ k = S j) /\
  (* ... else the outcome of the else-clause for the LAST error, after exactly `budget` attempts *)
  ((forall j, (j < n)%nat -> is_fault (s (pos + j)%nat)) ->
     r = exhausted ty fixed3 (last_fault n s pos) /\ k = n) /\
  (* no attempt after an answer: every attempt made except the last one failed *)
  (forall i, (S i < k)%nat -> is_fault (s (pos + i)%nat)).

Lemma retry_spec_lemma : forall ty fixed3 n s pos, retry_spec_stmt ty fixed3 n s pos.
Proof.
  intros ty fixed3 n s pos. unfold retry_spec_stmt.
  destruct (transceive_cases ty fixed3 n s pos) as [(j & d & Hj & Hf & Ha & ->)|[Hf ->]].
  - split; [lia|]. split; [|split].
    + intros j' d' _ Ha' Hf'. destruct (first_answer_unique s pos j d j' d' Hf Ha Hf' Ha').
      rewrite Ha in Ha'. inversion Ha'. split; reflexivity.
    + intros Hall. destruct (fault_not_answer _ _ (Hall _ Hj) Ha).
    + intros i Hi. apply Hf. lia.
  - split; [lia|]. split; [|split].
    + intros j d Hj Ha _. destruct (fault_not_answer _ _ (Hf _ Hj) Ha).
    + split; reflexivity.
    + intros i Hi. apply Hf. lia.
Qed.

(* faults throughout the budget: the else-clause decides, on the last of them *)
Lemma transceive_exhausted ty fixed3 n s pos : faults n s pos ->
  transceive_n ty fixed3 n true s pos = (exhausted ty fixed3 (last_fault n s pos), n).
Proof.
  intro Hall. destruct (transceive_cases ty fixed3 n s pos) as [(j & d & Hj & _ & Ha & _)|[_ E]]; [|exact E].
  destruct (fault_not_answer _ _ (Hall _ Hj) Ha).
Qed.

(* persistent errors of the three named classes end with the matching reason code *)
Lemma retry_errno_lemma : forall ty fixed3 n s pos f,
  faults (S n) s pos ->
  fault_of (s (pos + n)%nat) = Some f -> named f ->
  exists e, errno_of f = Some e /\ transceive_n ty fixed3 (S n) true s pos = (Err (TagCommandError e), S n).
Proof.
  intros ty fixed3 n s pos f Hall Hl Hn. rewrite (transceive_exhausted _ _ _ _ _ Hall). cbn [last_fault]. rewrite Hl.
  destruct f; cbn; eauto. destruct (Hn eq_refl).
Qed.

(* a CommunicationError of another class: RuntimeError (tt1, tt2, repaired tt3), the unbound local in
   the unrepaired Type 3 code *)
Lemma retry_other_lemma : forall ty fixed3 n s pos,
  faults (S n) s pos ->
  fault_of (s (pos + n)%nat) = Some FOther ->
  transceive_n ty fixed3 (S n) true s pos = (after_tests ty fixed3, S n).
Proof.
  intros ty fixed3 n s pos Hall Hl. rewrite (transceive_exhausted _ _ _ _ _ Hall). cbn [last_fault]. rewrite Hl. reflexivity.
Qed.

Definition named_script (s : script) : Prop := forall i f b, s i = Fault f b -> named f.

Definition closed_result (r : res (list Z)) : Prop :=
  (exists d, r = Ok d) \/ r = Err (TagCommandError TIMEOUT_ERROR) \/
  r = Err (TagCommandError RECEIVE_ERROR) \/ r = Err (TagCommandError PROTOCOL_ERROR).

Lemma exhausted_named ty fixed3 f : named f -> closed_result (exhausted ty fixed3 (Some f)).
Proof.
  intro H. destruct f; cbn; unfold closed_result; auto. exfalso. apply H. reflexivity.
Qed.

(* with at least one attempt and only the three named error classes, the outcome is an answer or a
   TagCommandError with one of the three reason codes - never a crash, never RuntimeError *)
Lemma transceive_closed_lemma : forall ty fixed3 n present s pos,
  named_script s -> closed_result (fst (transceive_n ty fixed3 (S n) present s pos)).
Proof.
  intros ty fixed3 n present s pos Hs.
  assert (G : closed_result (fst (transceive_n ty fixed3 (S n) true s pos))).
  { destruct (transceive_cases ty fixed3 (S n) s pos) as [(j & d & _ & _ & _ & ->)|[Hf ->]]; [left; exists d; reflexivity|].
    destruct (Hf n (Nat.lt_succ_diag_r n)) as [f [b E]]. cbn [last_fault fst]. rewrite E.
    apply exhausted_named. exact (Hs _ _ _ E). }
  destruct ty, present; try exact G. right. left. reflexivity.
Qed.

Lemma deliveries_S k s pos : deliveries (S k) s pos =
  match s pos with
  | Answer _ => [true]
  | Fault _ true => false :: deliveries k s (S pos)
  | Fault _ false => deliveries k s (S pos)
  end.
Proof. reflexivity. Qed.

(* the faults before the first answer reach the tag unanswered, the answer is the last delivery *)
Lemma deliveries_first_answer : forall j s pos d, faults j s pos -> s (pos + j)%nat = Answer d ->
  deliveries (S j) s pos = deliveries j s pos ++ [true] /\ Forall (fun b => b = false) (deliveries j s pos).
Proof.
  induction j as [|j IH]; intros s pos d Hf Ha.
  - rewrite Nat.add_0_r in Ha. rewrite deliveries_S, Ha. split; [reflexivity|constructor].
  - apply faults_S in Hf as [[f [b E]] Hf]. rewrite <- Nat.add_succ_comm in Ha.
    destruct (IH s (S pos) d Hf Ha) as [El Fl].
    rewrite (deliveries_S (S j) s pos), (deliveries_S j s pos), E, El. destruct b; split; auto.
Qed.

Lemma deliveries_spec : forall k s pos,
  (forall i, (S i < k)%nat -> is_fault (s (pos + i)%nat)) ->
  (* at most the last delivery is an answered one *)
  (forall l1 b l2, deliveries k s pos = l1 ++ b :: l2 -> l2 <> [] -> b = false).
Proof.
  induction k as [|k IH]; intros s pos Hf l1 b l2 E Hne; cbn [deliveries] in E.
  - destruct l1; discriminate.
  - assert (Hf' : forall i, (S i < k)%nat -> is_fault (s (S pos + i)%nat)).
    { intros i Hi. rewrite Nat.add_succ_comm. apply Hf. lia. }
    destruct (s pos) as [d|f [|]] eqn:Es; [| |exact (IH s (S pos) Hf' _ _ _ E Hne)];
      destruct l1 as [|x l1]; inversion E; subst.
    + destruct (Hne eq_refl).
    + destruct l1; discriminate.
    + reflexivity.
    + eapply (IH s (S pos)); eassumption.
Qed.

(* an answered attempt is the last attempt made *)
Lemma deliveries_answer_last : forall k s pos,
  In true (deliveries k s pos) -> exists j d, (j < k)%nat /\ s (pos + j)%nat = Answer d /\
    deliveries k s pos = deliveries j s pos ++ [true].
Proof.
  induction k as [|k IH]; intros s pos H; [destruct H|]. rewrite deliveries_S in *.
  destruct (s pos) as [d|f b] eqn:Es.
  - exists 0%nat, d. rewrite Nat.add_0_r. split; [lia|]. split; [exact Es|reflexivity].
  - assert (H' : In true (deliveries k s (S pos))) by (destruct b; [destruct H as [H|H]; [discriminate|]|]; exact H).
    destruct (IH s (S pos) H') as (j & d & Hj & Ha & Hd).
    exists (S j), d. rewrite <- Nat.add_succ_comm, deliveries_S, Es, Hd. split; [lia|]. split; [exact Ha|].
    destruct b; reflexivity.
Qed.

Section TagState.
  Variable St : Type.
  Variable apply : St -> St.          (* effect of the command on the tag *)

  Fixpoint iter (n : nat) (x : St) : St := match n with O => x | S m => apply (iter m x) end.

  (* tag state after the attempts of one command *)
  Definition tag_after (k : nat) (s : script) (pos : nat) (x : St) : St := iter (length (deliveries k s pos)) x.

  Hypothesis idem : forall x, apply (apply x) = apply x.

  Lemma iter_idem : forall n x, iter (S n) x = apply x.
  Proof. induction n as [|n IH]; intro x; [reflexivity|]. cbn [iter] in *. rewrite IH. apply idem. Qed.

  (* an idempotent command (WRITE of a page / block / byte, UPDATE BINARY) re-sent after lost responses
     leaves the tag as one execution does *)
  Lemma tag_after_idem : forall k s pos x,
    tag_after k s pos x = match deliveries k s pos with [] => x | _ => apply x end.
  Proof.
    intros. unfold tag_after. destruct (deliveries k s pos) as [|b l]; [reflexivity|].
    cbn [length]. apply iter_idem.
  Qed.
End TagState.

(* the else-clause never answers *)
Lemma exhausted_not_ok ty fixed3 last d : exhausted ty fixed3 last <> Ok d.
Proof. destruct last as [[]|], ty, fixed3; discriminate. Qed.

(* an answered command was executed: the answer is the last delivery *)
Lemma answered_delivered : forall ty fixed3 n s pos d k,
  transceive_n ty fixed3 n true s pos = (Ok d, k) ->
  exists l, deliveries k s pos = l ++ [true] /\ Forall (fun b => b = false) l.
Proof.
  intros ty fixed3 n s pos d k H.
  destruct (transceive_cases ty fixed3 n s pos) as [(j & d' & _ & Hf & Ha & E)|[_ E]]; rewrite E in H; inversion H.
  - exists (deliveries j s pos). exact (deliveries_first_answer j s pos d' Hf Ha).
  - edestruct exhausted_not_ok; eassumption.
Qed.

Lemma attempts_of_snoc : forall j s pos, attempts_of (S j) s pos = attempts_of j s pos ++ [s (pos + j)%nat].
Proof.
  induction j as [|j IHj]; intros s pos.
  - cbn. rewrite Nat.add_0_r. reflexivity.
  - change (attempts_of (S (S j)) s pos) with (s pos :: attempts_of (S j) s (S pos)).
    rewrite IHj, <- Nat.add_succ_comm. reflexivity.
Qed.

Lemma attempts_faults : forall k s pos, faults k s pos -> Forall is_fault (attempts_of k s pos).
Proof.
  induction k as [|k IH]; intros s pos H; [constructor|]. apply faults_S in H as [H0 H].
  constructor; [exact H0|apply IH, H].
Qed.

(* in the wire of an operation: the command index never decreases, and an exchange that was ANSWERED is
   followed (if at all) by an exchange of a LATER command - an answered command is not sent again *)
Inductive wire_ok : list (nat * attempt) -> Prop :=
| wo_nil : wire_ok []
| wo_one x : wire_ok [x]
| wo_fault i f b j a w : (i <= j)%nat -> wire_ok ((j, a) :: w) -> wire_ok ((i, Fault f b) :: (j, a) :: w)
| wo_answer i d j a w : (i < j)%nat -> wire_ok ((j, a) :: w) -> wire_ok ((i, Answer d) :: (j, a) :: w).

Definition idx_ge (n : nat) (w : list (nat * attempt)) : Prop := Forall (fun p => (n <= fst p)%nat) w.

Lemma idx_ge_map idx l : idx_ge idx (map (fun a => (idx, a)) l).
Proof. apply Forall_forall. intros p Hp. apply in_map_iff in Hp as [a [<- _]]. apply Nat.le_refl. Qed.

Lemma wire_ok_app_faults : forall idx l w,
  Forall is_fault l -> wire_ok w -> idx_ge idx w -> wire_ok (map (fun a => (idx, a)) l ++ w).
Proof.
  induction l as [|a l IH]; intros w Hl Hw Hge; cbn; [exact Hw|].
  inversion Hl as [|a' l' [f [b E]] Hl']. subst. specialize (IH w Hl' Hw Hge).
  destruct l as [|a2 l]; cbn in *.
  - destruct w as [|[j a] w]; [constructor|]. constructor; [|exact Hw].
    inversion Hge. cbn in *. assumption.
  - constructor; [lia|exact IH].
Qed.

Lemma run_seq_wire_lemma : forall ty fixed3 budgets s pos idx,
  let '(_, w) := run_seq ty fixed3 budgets s pos idx in wire_ok w /\ idx_ge idx w.
Proof.
  intros ty fixed3 budgets. induction budgets as [|n rest IH]; intros s pos idx; cbn [run_seq].
  - split; constructor.
  - destruct (transceive_cases ty fixed3 n s pos) as [(j & d & _ & Hf & Ha & ->)|[Hf ->]].
    + (* the faults, then the answer, then the wire of the later commands *)
      specialize (IH s (pos + S j)%nat (S idx)).
      destruct (run_seq ty fixed3 rest s (pos + S j) (S idx)) as [r' w']. destruct IH as [Hw' Hge'].
      assert (Hge : idx_ge idx ((idx, Answer d) :: w')).
      { constructor; [apply Nat.le_refl|]. eapply Forall_impl; [|exact Hge']. cbn. intros. lia. }
      rewrite attempts_of_snoc, Ha, map_app, <- app_assoc. split.
      * apply wire_ok_app_faults; [apply attempts_faults, Hf| |exact Hge].
        destruct w' as [|[j' a'] w']; constructor; [|exact Hw']. inversion Hge'. assumption.
      * apply Forall_app. split; [apply idx_ge_map|exact Hge].
    + (* faults only *)
      assert (G : wire_ok (map (fun a => (idx, a)) (attempts_of n s pos))).
      { rewrite <- (app_nil_r (map _ _)). apply wire_ok_app_faults; [apply attempts_faults, Hf|constructor|constructor]. }
      destruct (exhausted ty fixed3 (last_fault n s pos)) eqn:X; try (split; [exact G|apply idx_ge_map]).
      destruct (exhausted_not_ok _ _ _ _ X).
Qed.

(* an operation written as a command sequence ends Ok or with a TagCommandError of one of the three
   reason codes when the script only contains the three named error classes and every command has at
   least one attempt *)
Lemma run_seq_closed_lemma : forall ty fixed3 budgets s pos idx,
  named_script s -> Forall (fun n => n <> O) budgets ->
  let r := fst (run_seq ty fixed3 budgets s pos idx) in
  r = Ok tt \/ r = Err (TagCommandError TIMEOUT_ERROR) \/ r = Err (TagCommandError RECEIVE_ERROR) \/
  r = Err (TagCommandError PROTOCOL_ERROR).
Proof.
  intros ty fixed3 budgets s. induction budgets as [|n rest IH]; intros pos idx Hs Hb; cbn [run_seq].
  - left. reflexivity.
  - inversion Hb as [|n' rest' Hn Hrest]. subst.
    destruct n as [|n]; [exfalso; apply Hn; reflexivity|].
    pose proof (transceive_closed_lemma ty fixed3 n true s pos Hs) as C.
    destruct (transceive_n ty fixed3 (S n) true s pos) as [r k]. cbn [fst] in C.
    destruct C as [[d ->] | [-> | [-> | ->]]]; [|cbn; auto..].
    specialize (IH (pos + k)%nat (S idx) Hs Hrest).
    destruct (run_seq ty fixed3 rest s (pos + k) (S idx)) as [r' w']. exact IH.
Qed.
