(* C20: FeliCa Lite-S mutual authentication (write_with_mac of the STATE block, MAC read back) and
   protect() against the card model over the undisturbed channel. *)
From Coq Require Import ZArith List Bool Lia.
From NV Require Import Base.Result Base.Bytes Base.PyPrims Model.Des Model.FelicaMac Proofs.AuthMac Proofs.AuthTag.
Import ListNotations.
Open Scope Z_scope.

Lemma list16 {A} (l : list A) : length l = 16%nat ->
  exists a0 a1 a2 a3 a4 a5 a6 a7 a8 a9 a10 a11 a12 a13 a14 a15,
    l = [a0; a1; a2; a3; a4; a5; a6; a7; a8; a9; a10; a11; a12; a13; a14; a15].
Proof. exact (@PyAuth.list16 A l). Qed.

(* the card after an accepted MAC write of block b *)
Definition after_mac_write (tg : ftag) (b : Z) (data : list Z) : ftag :=
  let tg' := do_write tg b data in
  mkFT (ft_lites tg') (ft_idm tg') (mem_set (ft_mem tg') 144 (wcnt_inc (ft_mem tg 144))) (ft_ext tg').

Lemma honest_write_mac tg st b data m :
  length (ft_idm tg) = 8%nat -> ft_lites tg = true -> 0 <= b < 256 ->
  block_exists tg b && mac_writable tg b = true ->
  length data = 16%nat -> length m = 8%nat -> length (ft_mem tg 144) = 16%nat ->
  generate_mac (firstn 3 (ft_mem tg 144) ++ [0; b; 0; 145; 0] ++ data)
    (skipn 8 (ft_sk tg) ++ firstn 8 (ft_sk tg)) (firstn 8 (ft_rc tg)) false = Ok m ->
  write_blocks honest (ft_idm tg) [b; 145] (data ++ m ++ firstn 3 (ft_mem tg 144) ++ zeros 5) (tg, st)
    = ((after_mac_write tg b data, st), Ok tt).
Proof.
  intros H8 Hl Hb Hw Hd Hm Hw16 HG.
  unfold write_blocks, bindM, lift. change (255 <? len [b; 145]) with false. cbv iota.
  rewrite block_codes_small by (constructor; [exact Hb | constructor; [easy | constructor]]).
  cbn [map concat code2 app].
  set (w3 := firstn 3 (ft_mem tg 144)) in *.
  assert (Hw3 : length w3 = 3%nat) by (unfold w3; rewrite firstn_length, Hw16; reflexivity).
  set (payload := data ++ m ++ w3 ++ zeros 5).
  assert (Hpl : len payload = 32).
  { unfold payload, len. rewrite !app_length, Hd, Hm, Hw3. reflexivity. }
  assert (P1 : firstn 16 payload = data) by apply firstn_len_app, Hd.
  assert (P2 : firstn 8 (skipn 16 payload) = m).
  { unfold payload. rewrite (skipn_len_app data _ 16 Hd). apply firstn_len_app, Hm. }
  assert (P3 : firstn 3 (skipn 24 payload) = w3).
  { unfold payload. rewrite app_assoc, skipn_len_app by (rewrite app_length, Hd, Hm; reflexivity). apply firstn_len_app, Hw3. }
  rewrite (honest_send tg (after_mac_write tg b data) st 8 _ []); try assumption.
  - reflexivity.
  - rewrite !len_cons, Hpl. lia.
  - destruct (frame_parts (ft_idm tg) 8 (1 :: 9 :: 0 :: len [b; 145] :: 128 :: b :: 128 :: 145 :: payload) H8) as (F1 & F2 & F3).
    unfold ftag_step. rewrite F1, F2, F3, list_eqb_refl. cbn [negb Z.eqb Pos.eqb].
    change (parse_block_list (Z.to_nat (len [b; 145])) (128 :: b :: 128 :: 145 :: payload)) with (Some ([b; 145], payload)).
    cbv iota. rewrite Hpl, Hl. cbn [Z.eqb Pos.eqb negb andb]. rewrite Hw. cbn [negb].
    cbv zeta. rewrite P1, P2, P3. fold w3. rewrite HG, !list_eqb_refl. reflexivity.
Qed.

Local Opaque generate_mac session_key.

Definition state_block (tg : ftag) : list Z := (if ft_ext tg then 1 else 0) :: zeros 15.
Lemma read_data_state tg : ft_lites tg = true ->
  read_data tg [146; 129] [] = Some (state_block tg ++ ft_mac tg (state_block tg)).
Proof. intro H. unfold read_data, block_readable, block_exists. rewrite H. reflexivity. Qed.

(* a reader that shares the card's session key and challenge: write_with_mac is accepted ... *)
Lemma honest_write_with_mac tg sk iv a data b :
  ft_wf tg -> ft_lites tg = true -> length (ft_rc tg) = 16%nat -> ft_sk tg = sk -> firstn 8 (ft_rc tg) = iv ->
  0 <= b < 256 -> block_exists tg b && mac_writable tg b = true -> length data = 16%nat ->
  let st := mkR (Some sk) (Some iv) a in
  write_with_mac honest (ft_idm tg) data b (tg, st) = ((after_mac_write tg b data, st), Ok tt).
Proof.
  intros Hwf Hl Hrc Hsk <- Hb Hw Hdl st. pose proof Hwf as [H8 H16].
  assert (Hskl : length sk = 16%nat) by (rewrite <- Hsk; apply session_key_length, Hrc).
  set (w3 := firstn 3 (ft_mem tg 144)).
  assert (Hw3 : length w3 = 3%nat) by (unfold w3; rewrite firstn_length, H16; reflexivity).
  destruct (generate_mac_ok (w3 ++ [0; b; 0; 145; 0] ++ data) (skipn 8 sk ++ firstn 8 sk) (firstn 8 (ft_rc tg)) false)
    as (m & Hm & Hml).
  { unfold len. rewrite !app_length, Hw3, Hdl. reflexivity. }
  { unfold len. rewrite app_length, skipn_length, firstn_length, Hskl. reflexivity. }
  { unfold len. rewrite firstn_length, Hrc. reflexivity. }
  assert (Hml8 : length m = 8%nat) by (apply Hml; unfold len; rewrite !app_length, Hw3, Hdl; cbn; lia).
  unfold write_with_mac. rewrite (len_length data 16 Hdl : len data = 16). cbn [Z.eqb Pos.eqb negb].
  unfold bindM at 1. unfold get_rs. cbn [fst snd st r_sk r_iv].
  unfold bindM at 1.
  rewrite honest_read1; [ | exact Hwf | easy | unfold block_readable, block_exists; rewrite Hl; reflexivity | easy | easy ].
  change (slice (ft_mem tg 144) 0 3) with w3. replace ((b <? 0) || (255 <? b)) with false by lia.
  unfold bindM at 1. unfold lift at 1. rewrite Hm.
  assert (Hsl : slice (w3 ++ [0; b; 0; 145; 0] ++ data) 8 24 = data).
  { change (firstn 16 (skipn 8 (w3 ++ [0; b; 0; 145; 0] ++ data)) = data).
    rewrite app_assoc, skipn_len_app by (rewrite app_length, Hw3; reflexivity). apply firstn_all2. rewrite Hdl. lia. }
  rewrite Hsl. apply (honest_write_mac tg st b data m); try assumption; [apply H16 | rewrite Hsk; exact Hm].
Qed.

(* ... and the STATE block read back verifies *)
Lemma honest_read_state tg sk iv a :
  ft_wf tg -> ft_lites tg = true -> length (ft_rc tg) = 16%nat -> ft_sk tg = sk -> firstn 8 (ft_rc tg) = iv ->
  let st := mkR (Some sk) (Some iv) a in
  read_with_mac honest (ft_idm tg) [146] (tg, st) = ((tg, st), Ok (Some (state_block tg))).
Proof.
  intros [H8 H16] Hl Hrc <- <- st.
  destruct (ft_mac_spec tg (state_block tg)) as (m & Hm & Hml & Hmac); [reflexivity | cbn; lia | exact Hrc |].
  apply (read_with_mac_complete honest (ft_idm tg) [146] _ _ (ft_sk tg) (firstn 8 (ft_rc tg)) _ m (zeros 8)); try reflexivity.
  - cbn [app]. apply honest_read.
    + exact H8.
    + repeat constructor; lia.
    + cbn; lia.
    + rewrite (read_data_state tg Hl), Hmac. reflexivity.
    + unfold len. rewrite !app_length, Hml. reflexivity.
  - unfold len. rewrite Hml. reflexivity.
  - exact Hm.
Qed.

Lemma wcnt_inc_length w : length w = 16%nat -> length (wcnt_inc w) = 16%nat.
Proof. intro H. unfold wcnt_inc. rewrite app_length, skipn_length, H. reflexivity. Qed.
Lemma after_mac_write_state_wf tg d : ft_wf tg -> ft_wf (after_mac_write tg 146 d).
Proof.
  intros [H8 H16]. split; [exact H8|]. exact (mem_set_length _ 144 _ _ H16 (wcnt_inc_length _ (H16 144))).
Qed.

(* FelicaLiteS.authenticate (either version of the code) against a card holding the key *)
Theorem lites_auth_same_key tg st rep pw rc key :
  ft_wf tg -> ft_lites tg = true -> length rc = 16%nat -> felica_key pw = Ok key -> key_equiv key (ft_ck tg) ->
  lites_authenticate honest (ft_idm tg) rep pw rc (tg, st) =
    ((after_mac_write (with_rc tg rc) 146 (1 :: zeros 15),
      mkR (Some (session_key key rc)) (Some (firstn 8 rc)) true), Ok true).
Proof.
  intros Hwf Hl Hrc Hk He.
  pose proof (felica_key_length pw key Hk) as Hkl.
  set (sk := session_key key rc). set (iv := firstn 8 rc).
  set (tg1 := with_rc tg rc). set (tg2 := after_mac_write tg1 146 (1 :: zeros 15)).
  (* after the challenge write, and still after the STATE write, the card's challenge and session key are the reader's *)
  assert (Hrc1 : ft_rc tg1 = rc) by exact (ft_rc_with_rc tg rc Hrc).
  assert (Hsk1 : ft_sk tg1 = sk).
  { unfold ft_sk. rewrite Hrc1. symmetry. apply (session_key_equiv key (ft_ck tg)); [lia | exact He]. }
  assert (Hrcl : length (ft_rc tg1) = 16%nat) by (rewrite Hrc1; exact Hrc).
  assert (Hiv : firstn 8 (ft_rc tg1) = iv) by (rewrite Hrc1; reflexivity).
  unfold lites_authenticate. unfold bindM at 1.
  rewrite (lite_auth_same_key_full tg st pw rc key Hwf Hrc Hk He). fold sk iv tg1. cbv iota.
  unfold bindM at 1. unfold set_auth at 1. cbn [fst snd r_sk r_iv].
  unfold bindM at 1. change (ft_idm tg) with (ft_idm tg1).
  rewrite (honest_write_with_mac tg1 sk iv false (1 :: zeros 15) 146 (with_rc_wf tg rc Hwf Hrc) Hl Hrcl Hsk1 Hiv);
    [ | lia | unfold block_exists, mac_writable; cbn [ft_lites tg1 with_rc]; rewrite Hl; reflexivity | reflexivity ].
  fold tg2. unfold bindM at 1. change (ft_idm tg1) with (ft_idm tg2).
  rewrite (honest_read_state tg2 sk iv false (after_mac_write_state_wf tg1 _ (with_rc_wf tg rc Hwf Hrc)) Hl Hrcl Hsk1 Hiv).
  reflexivity.
Qed.


Lemma felica_key_of_key k : length k = 16%nat -> felica_key k = Ok k.
Proof.
  intro H. unfold felica_key. unfold len. rewrite H. cbn [Z.of_nat Pos.of_succ_nat Pos.succ Z.ltb Z.compare Pos.compare Pos.compare_cont andb Z.eqb].
  rewrite firstn_all2 by lia. reflexivity.
Qed.

Theorem lites_protect_honest tg st pw rp pf rc :
  ft_wf tg -> ft_lites tg = true -> nth 2 (ft_mem tg 136) 0 = 255 -> pw_len_bad (Some pw) = false -> 0 <= pf ->
  length rc = 16%nat ->
  exists tg' st',
    lites_protect honest (ft_idm tg) true (Some pw) rp pf rc (tg, st) = ((tg', st'), Ok PTrue) /\
    ft_wf tg' /\ ft_lites tg' = true /\ ft_idm tg' = ft_idm tg /\ ft_ck tg' = pw_key pw.
Proof.
  intros Hwf Hl Hmc Hpw Hpf Hrc. pose proof Hwf as [H8 H16].
  assert (Hs : mc_sys_open tg = true) by (unfold mc_sys_open; rewrite Hmc; reflexivity).
  pose proof (pw_key_length pw Hpw) as Hkl.
  set (key := pw_key pw) in *.
  unfold lites_protect. rewrite Hpw. replace (pf <? 0) with false by lia. cbv iota.
  unfold bindM at 1. rewrite honest_read1 by (assumption || easy).
  set (mc := ft_mem tg 136) in *.
  assert (Hmcn : length mc = 16%nat) by apply H16.
  pose proof (len_length mc 16 Hmcn : len mc = 16) as Hmcl.
  unfold bindM at 1. unfold get_rs at 1. cbn [snd].
  unfold bindM at 1. unfold lift at 1. rewrite (idx_nth _ 2), Hmc by (rewrite Hmcn; lia).
  unfold bindM at 1. unfold lift at 1. rewrite (idx_nth _ 5) by (rewrite Hmcn; lia).
  change (255 =? 255) with true. cbn [negb andb]. fold key.
  set (mask := if pf <? 14 then le16 (2 ^ 14 - 2 ^ pf) else []).
  unfold bindM at 1. unfold bindM at 1. rewrite honest_read1 by (assumption || easy).
  unfold bindM at 1. rewrite honest_write_sys by (assumption || lia || reflexivity).
  set (tgA := with_block tg 134 (lites_ckv_block (ft_mem tg 134))).
  assert (HwfA : ft_wf tgA) by (apply with_block_wf; [exact Hwf | reflexivity]).
  unfold bindM at 1. change (ft_idm tg) with (ft_idm tgA).
  rewrite honest_write_sys by (assumption || lia || apply rev_halves_length, Hkl).
  set (tgB := with_block tgA 135 (rev_halves key)).
  assert (HwfB : ft_wf tgB) by (apply with_block_wf; [exact HwfA | apply rev_halves_length, Hkl]).
  assert (HckB : ft_ck tgB = key) by exact (rev_halves_invol _ Hkl).
  (* mutual authentication with the new key *)
  unfold bindM at 1. change (ft_idm tgA) with (ft_idm tgB).
  rewrite (lites_auth_same_key tgB st true key rc key HwfB Hl Hrc (felica_key_of_key key Hkl));
    [ | rewrite HckB; apply key_equiv_refl ].
  cbn [negb]. unfold ret at 1.
  set (tgC := after_mac_write (with_rc tgB rc) 146 (1 :: zeros 15)).
  assert (HwfC : ft_wf tgC) by (apply after_mac_write_state_wf, with_rc_wf; assumption).
  set (stC := mkR (Some (session_key key rc)) (Some (firstn 8 rc)) true).
  set (mc0 := if rp && (pf <? 14) then set_slice mc 6 mask else mc).
  cbv iota. cbn [negb].
  set (mc1 := if pf <? 14 then set_slice (set_slice mc0 8 mask) 10 mask else mc0).
  assert (Hmask : pf <? 14 = true -> len mask = 2) by (intro H; unfold mask; rewrite H; reflexivity).
  assert (Hmc0 : len mc0 = 16).
  { unfold mc0. destruct (pf <? 14) eqn:E; [|rewrite andb_false_r; exact Hmcl].
    destruct rp; [|exact Hmcl]. apply set_slice_len; [exact Hmcl | rewrite Hmask by reflexivity; reflexivity]. }
  assert (Hmc1 : len mc1 = 16).
  { unfold mc1. destruct (pf <? 14) eqn:E; [|exact Hmc0].
    apply set_slice_len; [apply set_slice_len; [exact Hmc0|]|]; rewrite Hmask by reflexivity; reflexivity. }
  assert (Hprobe : (if pf =? 0 then ndef_probe honest (ft_idm tgB) else ret false) (tgC, stC) = ((tgC, stC), Ok false)).
  { destruct (pf =? 0); [apply (honest_ndef_probe tgC stC) | reflexivity]. }
  unfold bindM at 1. rewrite Hprobe. cbv iota.
  set (mc2 := set_slice (set_slice mc1 2 [0]) 5 [1]).
  assert (Hmc2 : length mc2 = 16%nat).
  { apply Nat2Z.inj, (set_slice_len _ 5 [1] 16); [apply set_slice_len; [exact Hmc1|]|]; reflexivity. }
  unfold bindM. change (ft_idm tgB) with (ft_idm tgC).
  rewrite honest_write_sys by (assumption || lia).
  exists (with_block tgC 136 mc2), stC. split; [reflexivity|].
  split; [apply with_block_wf; assumption|]. split; [exact Hl|]. split; [reflexivity|]. exact HckB.
Qed.

Theorem lites_protect_then_auth tg st pw rp pf rc rc' :
  ft_wf tg -> ft_lites tg = true -> nth 2 (ft_mem tg 136) 0 = 255 -> pw_len_bad (Some pw) = false -> 0 <= pf ->
  length rc = 16%nat -> length rc' = 16%nat ->
  exists s1, lites_protect honest (ft_idm tg) true (Some pw) rp pf rc (tg, st) = (s1, Ok PTrue) /\
             snd (lites_authenticate honest (ft_idm tg) true pw rc' s1) = Ok true.
Proof.
  intros Hwf Hl Hmc Hpw Hpf Hrc Hrc'.
  destruct (lites_protect_honest tg st pw rp pf rc Hwf Hl Hmc Hpw Hpf Hrc) as (tg' & st' & HP & Hwf' & Hl' & Hid & Hck).
  exists (tg', st'). split; [exact HP|]. rewrite <- Hid.
  rewrite (lites_auth_same_key tg' st' true pw rc' (pw_key pw) Hwf' Hl' Hrc' (felica_key_pw pw Hpw)); [reflexivity|].
  rewrite Hck. apply key_equiv_refl.
Qed.

Lemma lites_auth_first_phase {T : Type} (xchg : T -> list Z -> T * xres) idm rep pw rc (s s' : T * rstate) :
  lite_authenticate xchg idm pw rc s = (s', Ok false) -> lites_authenticate xchg idm rep pw rc s = (s', Ok false).
Proof. intro H. unfold lites_authenticate, bindM. rewrite H. reflexivity. Qed.
