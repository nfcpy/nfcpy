(* C18 - sense(), listen(), exchange(): proofs about Model/Connect.v for ALL target lists,
   iteration counts and driver outcome tables / all histories. *)
From Coq Require Import ZArith List Bool Arith Lia.
From NV Require Import Model.Connect.
Import ListNotations.

Definition sense_ev (e : ev) : bool := match e with EvMute | EvSense _ _ => true | _ => false end.
Definition scan_tail (r : scan_res) : list ev := match r with Raised e => [EvRaise e] | _ => [] end.
Definition out_tail {A} (r : out A) : list ev := match r with Raise e => [EvRaise e] | _ => [] end.

(* position k of the argument list (absolute position j + k) gave no acceptable answer in iteration i *)
Definition unacc (tb : table) (i : nat) (ts : list tspec) (j k : nat) : Prop :=
  forall t d, nth_error ts k = Some t -> dispatch_of t = DCall d -> accepted d (lookup tb i (j + k)) = None.

(* what the result of the inner loop says: nothing acceptable at any position; the first acceptable position;
   with several targets (or none) UnsupportedTargetError never leaves the loop *)
Definition scan_post (single : bool) (call : nat) (tb : table) (i : nat) (ts : list tspec) (j : nat) (r : scan_res) : Prop :=
  match r with
  | Continue => forall k, unacc tb i ts j k
  | Found t => exists k tk d p, nth_error ts k = Some tk /\ dispatch_of tk = DCall d /\
      accepted d (lookup tb i (j + k)) = Some p /\ t = RemoteT call i (j + k) p /\ forall k', k' < k -> unacc tb i ts j k'
  | Raised e => single = false -> e <> XUnsupported
  end.

(* the loop went past position j *)
Lemma scan_post_skip single call tb i t ts j r :
  (forall d, dispatch_of t = DCall d -> accepted d (lookup tb i j) = None) ->
  scan_post single call tb i ts (S j) r -> scan_post single call tb i (t :: ts) j r.
Proof.
  intro H0.
  assert (U : forall k, (k <> 0 -> unacc tb i ts (S j) (pred k)) -> unacc tb i (t :: ts) j k).
  { intros [|k] H t' d Hn Hd; cbn in Hn.
    - inversion Hn; subst. rewrite Nat.add_0_r. auto.
    - replace (j + S k) with (S j + k) by lia. exact (H ltac:(discriminate) t' d Hn Hd). }
  destruct r as [|t'|e]; cbn; [intros H k; auto | | auto].
  intros (k & tk & d & p & Hn & Hd & Ha & Ht & Hb). exists (S k), tk, d, p. replace (j + S k) with (S j + k) by lia.
  repeat split; auto. intros k' Hk. apply U. intros Hk'. apply Hb. lia.
Qed.

Lemma scan_spec single call i tb : forall ts j r l,
  scan single call i tb ts j = (r, l) ->
  scan_post single call tb i ts j r /\ exists l0, forallb sense_ev l0 = true /\ l = l0 ++ scan_tail r.
Proof.
  induction ts as [|t ts IH]; intros j r l H; cbn [scan] in H.
  { inversion H; subst. split; [intros k t d Hn; destruct k; discriminate | exists []; auto]. }
  (* the three ways on: stop with r0 after the log l0, go on, go on after the driver call *)
  assert (Stop : forall r0 l0, (r0, l0 ++ scan_tail r0) = (r, l) -> forallb sense_ev l0 = true ->
            scan_post single call tb i (t :: ts) j r0 -> scan_post single call tb i (t :: ts) j r /\
            exists l0, forallb sense_ev l0 = true /\ l = l0 ++ scan_tail r).
  { intros r0 l0 E Hl Hp. inversion E; subst. eauto. }
  assert (Go : forall pre, (forall d, dispatch_of t = DCall d -> accepted d (lookup tb i j) = None) -> forallb sense_ev pre = true ->
            (let '(r', l') := scan single call i tb ts (S j) in (r', pre ++ l')) = (r, l) ->
            scan_post single call tb i (t :: ts) j r /\ exists l0, forallb sense_ev l0 = true /\ l = l0 ++ scan_tail r).
  { intros pre H0 Hpre E. destruct (scan single call i tb ts (S j)) as [r' l'] eqn:Es. inversion E; subst.
    destruct (IH _ _ _ Es) as (Hp & l0 & Hl0 & ->). split; [exact (scan_post_skip _ _ _ _ _ _ _ _ H0 Hp)|].
    exists (pre ++ l0). rewrite forallb_app, Hpre, app_assoc. auto. }
  destruct (dispatch_of t) as [d| |] eqn:Ed.
  - destruct (accepted d (lookup tb i j)) as [p|] eqn:Ea.
    + apply (Stop _ [EvSense d j] H eq_refl). exists 0, t, d, p. rewrite Nat.add_0_r. repeat split; auto. intros k' Hk'; lia.
    + assert (H0 : forall d', DCall d = DCall d' -> accepted d' (lookup tb i j) = None) by (intros d' E; inversion E; subst; exact Ea).
      (* IOError and KeyboardInterrupt stop the scan, UnsupportedTargetError only with a single target;
         after every other answer it goes on *)
      destruct (lookup tb i j).
      5: destruct single.
      5,8,9: apply (Stop _ [EvSense d j] H eq_refl); cbn; congruence.
      all: exact (Go [EvSense d j] H0 eq_refl H).
  - apply (Stop _ [] H eq_refl). cbn; congruence.
  - destruct single; [apply (Stop _ [] H eq_refl); cbn; congruence|]. apply (Go []); [discriminate | reflexivity | ].
    destruct (scan false call i tb ts (S j)); exact H.
Qed.

Definition iterate_post (single : bool) (call : nat) (tb : table) (ts : list tspec) (n i0 : nat) (r : out (option tid)) : Prop :=
  match r with
  | Ret None => forall i j, i0 <= i < i0 + n -> unacc tb i ts 0 j
  | Ret (Some t) => exists i j tj d p, i0 <= i < i0 + n /\ nth_error ts j = Some tj /\ dispatch_of tj = DCall d /\
      accepted d (lookup tb i j) = Some p /\ t = RemoteT call i j p /\
      (forall j', j' < j -> unacc tb i ts 0 j') /\ (forall i' j', i0 <= i' < i -> unacc tb i' ts 0 j')
  | Raise e => single = false -> e <> XUnsupported
  | Hang => False
  end.

Lemma iterate_spec single nonempty call tb ts : forall n i0 r l,
  iterate single nonempty call tb ts n i0 = (r, l) ->
  iterate_post single call tb ts n i0 r /\ exists l0, forallb sense_ev l0 = true /\ l = l0 ++ out_tail r.
Proof.
  induction n as [|n IH]; intros i0 r l H; cbn [iterate] in H.
  { inversion H; subst. split; [intros i j Hi; lia | exists []; auto]. }
  destruct (scan single call i0 tb ts 0) as [sr sl] eqn:Es.
  destruct (scan_spec _ _ _ _ _ _ _ _ Es) as (Hp & s0 & Hs0 & ->). destruct sr as [|t|e]; cbn [scan_post scan_tail] in *.
  - destruct (iterate single nonempty call tb ts n (S i0)) as [r' l'] eqn:Ei. inversion H; subst.
    destruct (IH _ _ _ Ei) as (Hq & l0 & H0 & ->). split.
    + destruct r as [[t|]|e|]; cbn in *; auto.
      * destruct Hq as (i & j & tj & d & p & Hi & Hn & Hd & Ha & Ht & Hb & Hc). exists i, j, tj, d, p.
        repeat split; auto; try lia. intros i' j' Hi'. destruct (Nat.eq_dec i' i0) as [->|Hne]; [apply Hp | apply Hc; lia].
      * intros i j Hi. destruct (Nat.eq_dec i i0) as [->|Hne]; [apply Hp | apply Hq; lia].
    + exists ((s0 ++ []) ++ (if nonempty then [EvMute] else []) ++ l0). rewrite !forallb_app, Hs0, H0, <- !app_assoc.
      split; [destruct nonempty; reflexivity | reflexivity].
  - inversion H; subst. split; [|exists s0; split; [exact Hs0 | reflexivity]].
    destruct Hp as (k & tk & d & p & Hn & Hd & Ha & Ht & Hb). exists i0, k, tk, d, p. cbn in Ha, Ht. repeat split; auto; try lia.
  - inversion H; subst. split; [exact Hp | exists s0; auto].
Qed.

(* when nothing was found the log of the iterations is empty (no targets) or ends with mute() *)
Lemma iterate_none_mute single call tb ts : forall n i0 l,
  iterate single true call tb ts n i0 = (Ret None, l) -> n = 0 \/ exists l', l = l' ++ [EvMute].
Proof.
  induction n as [|n IH]; intros i0 l H; cbn in H.
  - left; reflexivity.
  - right. destruct (scan single call i0 tb ts 0) as [sr sl] eqn:Es. destruct sr as [|t'|e]; try (inversion H; fail).
    destruct (iterate single true call tb ts n (S i0)) as [r' l'] eqn:Ei. inversion H; subst.
    destruct (IH _ _ Ei) as [->|(l'' & ->)].
    + cbn in Ei. inversion Ei; subst. exists sl. reflexivity.
    + exists (sl ++ EvMute :: l''). rewrite <- app_assoc. reflexivity.
Qed.

Lemma iterate_empty single call tb : forall n i0,
  iterate single false call tb [] n i0 = (Ret None, []).
Proof. induction n as [|n IH]; intro i0; cbn; [reflexivity|]. rewrite IH. reflexivity. Qed.

Lemma niter_pos iters : 1 <= niter iters.
Proof. unfold niter. lia. Qed.

Lemma is_single_false ts : length ts <> 1 -> is_single ts = false.
Proof. destruct ts as [|a [|b ts]]; cbn; intros; try reflexivity; lia. Qed.

(* sense() raises before it touches the device, or mutes it and runs the iterations *)
Lemma sense_cases dev call ts iters tb stored r l s' : sense dev call ts iters tb stored = (r, l, s') ->
  (exists e, e <> XUnsupported /\ r = Raise e /\ l = [EvRaise e] /\ s' = stored) \/
  (dev = true /\ exists l0, iterate (is_single ts) (is_nonempty ts) call tb ts (niter iters) 0 = (r, l0) /\ l = EvMute :: l0 /\
     s' = match r with Ret (Some t) => Some t | _ => None end).
Proof.
  unfold sense. destruct (negb (forallb is_remote ts)).
  { intro H; inversion H; subst. left. exists XValueError. repeat split. discriminate. }
  destruct dev; cbn [negb].
  - destruct (iterate _ _ _ _ _ _ _) as [r0 l0]. intro H; inversion H; subst. right. eauto.
  - intro H; inversion H; subst. left. exists XIOError. repeat split. discriminate.
Qed.

Theorem sense_no_unsupported_multi_proof : forall dev call ts iters tb stored,
  length ts <> 1 -> fst (fst (sense dev call ts iters tb stored)) <> Raise XUnsupported.
Proof.
  intros dev call ts iters tb stored Hn. destruct (sense dev call ts iters tb stored) as [[r l] s'] eqn:E. cbn.
  destruct (sense_cases _ _ _ _ _ _ _ _ _ E) as [(e & He & -> & _)|(_ & l0 & Ei & _)]; [congruence|].
  rewrite (is_single_false _ Hn) in Ei. destruct (iterate_spec _ _ _ _ _ _ _ _ _ Ei) as [Hp _].
  intros ->. exact (Hp eq_refl eq_refl).
Qed.

(* position (i, j) gave no acceptable answer; convertible with [unacc tb i ts 0 j], which the proofs below use *)
Definition no_answer (tb : table) (ts : list tspec) (i j : nat) : Prop :=
  forall t d, nth_error ts j = Some t -> dispatch_of t = DCall d -> accepted d (lookup tb i j) = None.

Theorem sense_first_in_order_proof : forall call ts iters tb stored t l s',
  sense true call ts iters tb stored = (Ret (Some t), l, s') ->
  exists i j tj d p,
    t = RemoteT call i j p /\ i < niter iters /\ nth_error ts j = Some tj /\ dispatch_of tj = DCall d /\
    accepted d (lookup tb i j) = Some p /\
    (forall i' j', i' < i \/ (i' = i /\ j' < j) -> no_answer tb ts i' j') /\
    s' = Some t.
Proof.
  intros call ts iters tb stored t l s' H.
  destruct (sense_cases _ _ _ _ _ _ _ _ _ H) as [(e & _ & E & _)|(_ & l0 & Ei & _ & ->)]; [discriminate|].
  destruct (iterate_spec _ _ _ _ _ _ _ _ _ Ei) as [(i & j & tj & d & p & Hi & Hn & Hd & Ha & Ht & Hb & Hc) _].
  exists i, j, tj, d, p. repeat split; auto; try lia.
  intros i' j' [Hlt|[-> Hlt]]; [apply (Hc i' j'); lia | apply (Hb j' Hlt)].
Qed.

Theorem sense_none_complete_proof : forall call ts iters tb stored l s',
  sense true call ts iters tb stored = (Ret None, l, s') ->
  (forall i j, i < niter iters -> no_answer tb ts i j) /\ s' = None.
Proof.
  intros call ts iters tb stored l s' H.
  destruct (sense_cases _ _ _ _ _ _ _ _ _ H) as [(e & _ & E & _)|(_ & l0 & Ei & _ & ->)]; [discriminate|].
  destruct (iterate_spec _ _ _ _ _ _ _ _ _ Ei) as [Hp _]. split; [|reflexivity].
  intros i j Hi. apply (Hp i j). lia.
Qed.

Theorem sense_field_off_when_none_proof : forall call ts iters tb stored l s',
  sense true call ts iters tb stored = (Ret None, l, s') ->
  exists l', l = l' ++ [EvMute].
Proof.
  intros call ts iters tb stored l s' H.
  destruct (sense_cases _ _ _ _ _ _ _ _ _ H) as [(e & _ & E & _)|(_ & l0 & Ei & -> & _)]; [discriminate|].
  destruct ts as [|t0 ts]; cbn [is_nonempty] in Ei.
  - rewrite iterate_empty in Ei. inversion Ei; subst. exists []. reflexivity.
  - destruct (iterate_none_mute _ _ _ _ _ _ _ Ei) as [H0|(l' & ->)].
    + pose proof (niter_pos iters). lia.
    + exists (EvMute :: l'). reflexivity.
Qed.

(* the log of every sense call: mute() first, then only mute / sense_xxx driver calls *)
Lemma sense_log : forall dev call ts iters tb stored r l s',
  sense dev call ts iters tb stored = (r, l, s') ->
  r <> Hang /\ exists l0, forallb sense_ev l0 = true /\ l = l0 ++ out_tail r.
Proof.
  intros dev call ts iters tb stored r l s' H.
  destruct (sense_cases _ _ _ _ _ _ _ _ _ H) as [(e & _ & -> & -> & _)|(_ & l0 & Ei & -> & _)].
  - split; [discriminate|]. exists []. auto.
  - destruct (iterate_spec _ _ _ _ _ _ _ _ _ Ei) as (Hp & l1 & H1 & ->).
    split; [intros ->; exact Hp|]. exists (EvMute :: l1). auto.
Qed.

Definition touched (l : list ev) : bool := existsb (fun e => match e with EvMute => true | _ => false end) l.

(* what the latest sense / listen that reached the device left behind *)
Fixpoint latest_from (init : option tid) (rs : list opres) : option tid :=
  match rs with
  | [] => init
  | ResTarget r l _ :: rest =>
    latest_from (if touched l then match r with Ret (Some t) => Some t | _ => None end else init) rest
  | ResData _ _ _ :: rest => latest_from init rest
  end.

Lemma touched_app l1 l2 : touched (l1 ++ l2) = touched l1 || touched l2.
Proof. unfold touched. apply existsb_app. Qed.

Lemma sense_stored : forall dev call ts iters tb stored r l s',
  sense dev call ts iters tb stored = (r, l, s') ->
  s' = if touched l then match r with Ret (Some t) => Some t | _ => None end else stored.
Proof.
  intros dev call ts iters tb stored r l s' H.
  destruct (sense_cases _ _ _ _ _ _ _ _ _ H) as [(e & _ & _ & -> & ->)|(_ & l0 & _ & -> & ->)]; reflexivity.
Qed.

Lemma listen_stored dev n t o stored :
  let '(r, l, s') := listen dev n t o stored in
  s' = if touched l then match r with Ret (Some t) => Some t | _ => None end else stored.
Proof. destruct t; [destruct dev; [destruct o|]..|]; reflexivity. Qed.

Definition exchange_uses (expected : option tid) (r : out (option unit)) (l : list ev) : Prop :=
  match expected with
  | Some (RemoteT c i j p) => r = Ret (Some tt) /\ l = [EvCmdTo (RemoteT c i j p)]
  | Some (LocalT n) => r = Ret (Some tt) /\ l = [EvRspTo (LocalT n)]
  | None => r = Ret None /\ l = []
  end.

Lemma exchange_spec stored : let '(r, l) := exchange true stored in exchange_uses stored r l.
Proof. destruct stored as [[c i j p|n]|]; cbn; auto. Qed.

Lemma history_fresh : forall ops h pre r l s post,
  run_history true h ops = pre ++ ResData r l s :: post ->
  exchange_uses (latest_from (h_stored h) pre) r l.
Proof.
  induction ops as [|o ops IH]; intros h pre r l s post H; cbn in H.
  - destruct pre; inversion H.
  - destruct (step true h o) as [x h'] eqn:Es.
    destruct pre as [|p pre]; cbn in H; inversion H; subst; clear H.
    + (* this op is the exchange *)
      destruct o; cbn [step] in Es.
      * destruct (sense true (h_nsense h) ts iters tb (h_stored h)) as [[? ?] ?]. inversion Es.
      * destruct (listen true (S (h_nlisten h)) t o (h_stored h)) as [[? ?] ?]. inversion Es.
      * pose proof (exchange_spec (h_stored h)) as Hx.
        destruct (exchange true (h_stored h)) as [r' l']. inversion Es; subst. exact Hx.
    + apply IH in H2. destruct o; cbn [step] in Es.
      * destruct (sense true (h_nsense h) ts iters tb (h_stored h)) as [[r' l'] s'] eqn:E. inversion Es; subst.
        cbn [latest_from h_stored] in *. rewrite <- (sense_stored _ _ _ _ _ _ _ _ _ E). exact H2.
      * pose proof (listen_stored true (S (h_nlisten h)) t o (h_stored h)) as E.
        destruct (listen true (S (h_nlisten h)) t o (h_stored h)) as [[r' l'] s']. inversion Es; subst p h'.
        cbn [latest_from h_stored] in *. rewrite <- E. exact H2.
      * destruct (exchange true (h_stored h)) as [r' l']. inversion Es; subst. cbn [latest_from]. exact H2.
Qed.

Theorem target_fresh_proof : forall ops pre r l s post,
  run_history true h0 ops = pre ++ ResData r l s :: post ->
  exchange_uses (latest_from None pre) r l.
Proof. intros. eapply (history_fresh ops h0); eauto. Qed.

(* after a sense/listen that reached the device, the stored target is its result or None *)
Theorem stored_after_sense : forall dev call ts iters tb stored r l s',
  sense dev call ts iters tb stored = (r, l, s') -> touched l = true ->
  s' = match r with Ret (Some t) => Some t | _ => None end.
Proof. intros. rewrite (sense_stored _ _ _ _ _ _ _ _ _ H), H0. reflexivity. Qed.
