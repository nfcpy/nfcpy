(* C10 - the MIU taken over from the peer is 128 + the low 11 bits of the MIUX value, whatever the reserved
   bits are.  V is the 16-bit value of the TLV (struct '>H'), hence the bound in the statements. *)
From Coq Require Import ZArith Lia.
From NV Require Import Base.Bytes Model.Collect.
Open Scope Z_scope.

Lemma miux_decode_mod V : 0 <= V < 65536 -> miux_decode V = V mod 2048.
Proof. intro H. unfold miux_decode. rewrite (mask_clear 16) by (reflexivity || lia). apply land2047. Qed.

Theorem miux_learned V : 0 <= V < 65536 -> learn_miu (Some V) = 128 + V mod 2048 /\ 128 <= learn_miu (Some V) <= 2175.
Proof.
  intro H. unfold learn_miu. rewrite (miux_decode_mod V H).
  pose proof (Z.mod_pos_bound V 2048 ltac:(lia)). lia.
Qed.

Theorem conn_learned M V s : 0 <= V < 65536 ->
  smiu (learn_conn_miu M (Some V) s) = Z.min M (128 + V mod 2048) /\
  peer (learn_conn_miu M (Some V) s) = peer s /\ addr (learn_conn_miu M (Some V) s) = addr s.
Proof.
  intro H. destruct (miux_learned V H) as [E _]. unfold learn_conn_miu, llc_clamp_miu. cbn [smiu with_smiu].
  rewrite E. destruct (128 + V mod 2048 >? M) eqn:C; cbn [smiu peer addr with_smiu]; repeat split; lia.
Qed.
