(* C17 - every operation preserves the invariant; addresses are handed out only while free, a socket never
   changes its address, and an operation on one socket leaves the other sockets as they are. *)
From Coq Require Import ZArith List Bool Lia ZifyBool.
From NV Require Import Base.Result Base.Bytes Base.PyPrims Model.Addr Proofs.Addr Proofs.AddrInv.
Import ListNotations.
Open Scope Z_scope.

(* every existing socket keeps its address *)
Definition same_addrs (c c' : ctl) : Prop :=
  forall j sj, get_sock c j = Some sj -> exists sj', get_sock c' j = Some sj' /\ s_type sj' = s_type sj /\ s_addr sj' = s_addr sj.
(* ... or gets one that was free before the step *)
Definition addr_step (c c' : ctl) : Prop :=
  forall j sj, get_sock c j = Some sj -> exists sj', get_sock c' j = Some sj' /\ s_type sj' = s_type sj /\
    (s_addr sj' = s_addr sj \/ (s_addr sj = None /\ exists a, s_addr sj' = Some a /\ is_free c a = true)).

Lemma same_refl c : same_addrs c c.
Proof. intros j sj G. eauto. Qed.
Lemma same_trans c1 c2 c3 : same_addrs c1 c2 -> same_addrs c2 c3 -> same_addrs c1 c3.
Proof. intros H1 H2 j sj G. destruct (H1 j sj G) as (s2 & G2 & T2 & A2). destruct (H2 j s2 G2) as (s3 & G3 & T3 & A3).
  exists s3. repeat split; auto; congruence. Qed.
Lemma same_step c c' : same_addrs c c' -> addr_step c c'.
Proof. intros H j sj G. destruct (H j sj G) as (s' & G' & T' & A'). eauto. Qed.
Lemma step_same c1 c2 c3 : addr_step c1 c2 -> same_addrs c2 c3 -> addr_step c1 c3.
Proof. intros H1 H2 j sj G. destruct (H1 j sj G) as (s2 & G2 & T2 & A2). destruct (H2 j s2 G2) as (s3 & G3 & T3 & A3).
  exists s3. split; auto. split; [congruence|]. rewrite A3. auto. Qed.

Lemma same_ext c c' : c_socks c' = c_socks c -> same_addrs c c'.
Proof. intros E j sj G. exists sj. unfold get_sock in *. rewrite E. auto. Qed.
Lemma same_put c i s s' : get_sock c i = Some s -> s_addr s' = s_addr s -> s_type s' = s_type s -> same_addrs c (put_sock c i s').
Proof. intros G A T j sj Gj. rewrite (get_put c i s' s j G). destruct (Nat.eqb i j) eqn:E; [|eauto].
  apply Nat.eqb_eq in E. subst j. exists s'. repeat split; auto; congruence. Qed.
Lemma same_sap_set c a e : same_addrs c (sap_set c a e).
Proof. apply same_ext. apply sap_set_socks. Qed.
Lemma same_new c x : same_addrs c (set_socks c (c_socks c ++ [x])).
Proof. intros j sj G. exists sj. split; auto. rewrite get_sock_app_old; auto. eapply get_sock_lt; eauto. Qed.
Lemma sap_remove_get c a i j : get_sock (sap_remove c a i) j = get_sock c j.
Proof. unfold sap_remove. destruct (sap_get c a); auto. destruct (remove_id socks i); [|apply get_sock_sap_set].
  change (get_sock (sap_set c a SapNone) j = get_sock c j). apply get_sock_sap_set. Qed.
Lemma same_sap_remove c a i : same_addrs c (sap_remove c a i).
Proof. intros j sj G. exists sj. rewrite sap_remove_get. auto. Qed.

(* a socket that is left alone, or created with empty queues *)
Definition fresh_or_same (c c' : ctl) (j : nat) : Prop :=
  get_sock c' j = get_sock c j \/
  (get_sock c j = None /\ exists x, get_sock c' j = Some x /\ s_sendq x = [] /\ s_recvq x = []).

(* what is shown of every branch of an operation: of an API call on socket oi (good), of a step that hands out no
   address (goods), of one that moreover touches socket i only (upd) *)
Definition good (oi : option nat) (c c' : ctl) : Prop :=
  wf c' /\ addr_step c c' /\ forall j, oi <> Some j -> fresh_or_same c c' j.
Definition goods (c c' : ctl) : Prop := wf c' /\ same_addrs c c'.
Definition upd (i : nat) (c c' : ctl) : Prop := goods c c' /\ forall j, j <> i -> get_sock c' j = get_sock c j.

Lemma goods_refl c : wf c -> goods c c.
Proof. intro W. split; auto. apply same_refl. Qed.
Lemma goods_trans c1 c2 c3 : goods c1 c2 -> goods c2 c3 -> goods c1 c3.
Proof. intros [W1 S1] [W2 S2]. split; auto. eapply same_trans; eauto. Qed.
Lemma upd_refl i c : wf c -> upd i c c.
Proof. intro W. split; [apply goods_refl|]; auto. Qed.
Lemma upd_good i c c' : upd i c c' -> good (Some i) c c'.
Proof. intros [[W S] F]. split; [auto | split; [apply same_step; auto | intros j N; left; apply F; congruence]]. Qed.
Lemma good_socks oi c c' : wf c' -> c_socks c' = c_socks c -> good oi c c'.
Proof. intros W E. split; [auto | split; [apply same_step, same_ext; auto | intros j _; left; unfold get_sock; rewrite E; auto]]. Qed.
Lemma good_refl oi c : wf c -> good oi c c.
Proof. intro W. apply good_socks; auto. Qed.
Lemma good_upd i c1 c2 c3 : good (Some i) c1 c2 -> upd i c2 c3 -> good (Some i) c1 c3.
Proof. intros (W1 & S1 & F1) [[W2 S2] F2]. split; [auto | split; [eapply step_same; eauto|]].
  intros j N. unfold fresh_or_same. rewrite F2 by congruence. exact (F1 j N). Qed.
(* the branches of an operation in which the state stays as it is are closed by auto *)
Local Hint Resolve good_refl upd_refl : core.

Lemma in_tl {A} (x : A) l : In x (tl l) -> In x l.
Proof. destruct l; cbn; auto. Qed.

Ltac st_tac :=
  unfold nolisten; cbn; intros;
  repeat match goal with H : _ \/ _ |- _ => destruct H end; try congruence; intuition congruence.
(* queue conditions: the queue is unchanged, shorter, or the socket is not a datagram socket *)
Ltac q_tac :=
  intros; try congruence;
  repeat match goal with
  | H : In _ (_ ++ _) |- _ => apply in_app_or in H; destruct H as [H|H]
  | H : In _ [] |- _ => destruct H
  | H : False |- _ => destruct H
  | H : _ \/ False |- _ => destruct H as [H|[]]
  | H : In _ [_] |- _ => destruct H as [H|[]]
  | H : In _ (tl _) |- _ => apply in_tl in H
  end;
  try (match goal with Q : s_recvq ?s = _ :: _ |- _ => rewrite Q end; cbn; auto; fail);
  try (match goal with Q : s_sendq ?s = _ :: _ |- _ => rewrite Q end; cbn; auto; fail);
  try (subst; right; reflexivity);
  auto.
Ltac ev_tac :=
  constructor; cbn;
  [ first [reflexivity | congruence | auto] | first [reflexivity | congruence | auto] | first [reflexivity | congruence | auto]
  | st_tac | st_tac | q_tac | q_tac | q_tac ].

Lemma upd_put c i s s' : wf c -> get_sock c i = Some s -> evolves s s' -> upd i c (put_sock c i s').
Proof. intros W G E. split; [split; [eapply wf_put_evolve; eauto | eapply same_put; eauto; apply E] | intros; apply get_put_other; auto]. Qed.

Lemma goods_sd c cache tids sent sdreq sdres wait : wf c -> goods c (set_sd c cache tids sent sdreq sdres wait).
Proof. intro W. split; [apply (wf_ext c); auto; apply W | apply same_ext; reflexivity]. Qed.
Lemma goods_dmpdu c l : wf c -> (forall p, In p l -> is_ui p = false) -> goods c (set_dmpdu c l).
Proof. intros W NU. split; [apply (wf_ext c); auto | apply same_ext; reflexivity]. Qed.
Lemma goods_sendl c a l sl sl' : wf c -> sap_get c a = Sap l sl -> (forall p, In p sl' -> is_ui p = false) ->
  goods c (sap_set c a (Sap l sl')).
Proof. intros W G NU. split; [eapply wf_sendl; eauto | apply same_sap_set]. Qed.

Lemma place_get_self c i s a s0 : get_sock c i = Some s0 -> get_sock (place c i s a) i = Some (set_addr s (Some a)).
Proof. intro G. unfold place. rewrite get_sock_sap_set. eapply get_put_same; eauto. Qed.
Lemma place_get_other c i s a j : i <> j -> get_sock (place c i s a) j = get_sock c j.
Proof. intro N. unfold place. rewrite get_sock_sap_set. apply get_put_other; auto. Qed.

Lemma good_place_named c i s a on : wf c -> get_sock c i = Some s -> s_addr s = None -> is_free c a = true -> 2 <= a < 64 ->
  (forall n, on = Some n -> lookup (c_snl c) n = None /\ name_valid n = true /\
                            (wks n = Some a \/ (wks n = None /\ 16 <= a < 32))) ->
  good (Some i) c (place_named c i s a on).
Proof.
  intros W G A F R ON. split; [apply wf_place_named; auto | split]; intros j;
    change (get_sock (place_named c i s a on) j) with (get_sock (place c i (set_bname s on) a) j).
  - intros sj Gj. destruct (Nat.eq_dec i j).
    + subst j. rewrite (place_get_self c i _ a s G). eexists. split; eauto. split; [cbn; congruence|]. right. split; [congruence|]. exists a. auto.
    + rewrite place_get_other by auto. eauto.
  - intro N. left. apply place_get_other. congruence.
Qed.
Lemma good_place c i s a : wf c -> get_sock c i = Some s -> s_addr s = None -> is_free c a = true -> 2 <= a < 64 ->
  good (Some i) c (place c i s a).
Proof. intros W G A F R. rewrite <- place_named_none by (eapply wf_unbound_noname; eauto).
  apply good_place_named; auto. discriminate. Qed.

Lemma bind_none_good c i s c' oa : wf c -> get_sock c i = Some s -> s_addr s = None -> bind_none c i s = (c', oa) ->
  good (Some i) c c' /\
  match oa with
  | Some a => c' = place c i s a /\ 32 <= a < 64 /\ is_free c a = true /\ (forall b, 32 <= b < a -> is_free c b = false)
  | None => c' = c /\ forall b, 32 <= b < 64 -> is_free c b = false
  end.
Proof.
  intros W G A. unfold bind_none. destruct (first_free c (zrange 32 64)) as [a|] eqn:F; intro H; inversion H; subst.
  - destruct (first_free_range_some _ _ _ _ F) as (R & Fa & L). split; [apply good_place; auto; lia | auto].
  - split; [auto | split; auto]. apply first_free_range_none; auto.
Qed.

Definition same_but_addr (s s' : sock) : Prop :=
  s_type s' = s_type s /\ s_state s' = s_state s /\ s_peer s' = s_peer s /\ s_rbuf s' = s_rbuf s /\
  s_recvq s' = s_recvq s /\ s_sendq s' = s_sendq s /\ s_pend s' = s_pend s /\ s_bname s' = s_bname s.

Lemma autobind_good c i s c' os : wf c -> get_sock c i = Some s -> autobind c i s = (c', os) ->
  good (Some i) c c' /\ match os with
               | Some s' => get_sock c' i = Some s' /\ same_but_addr s s' /\ (exists a, s_addr s' = Some a) /\
                            (s_addr s <> None -> s' = s /\ c' = c)
               | None => c' = c /\ s_addr s = None /\ forall b, 32 <= b < 64 -> is_free c b = false
               end.
Proof.
  intros W G. unfold autobind. destruct (s_addr s) as [a0|] eqn:A.
  - intro H; inversion H; subst. split; [auto|].
    split; auto. split; [repeat split; auto|]. split; eauto.
  - destruct (bind_none c i s) as [c1 [a|]] eqn:B; intro H; inversion H; subst;
      destruct (bind_none_good _ _ _ _ _ W G A B) as (Gd & P); split; auto.
    + destruct P as (-> & R & F & L). split; [eapply place_get_self; eauto|].
      split; [repeat split; auto|]. split; [cbn; eauto | intro N; congruence].
    + destruct P as (-> & L). auto.
Qed.

Lemma wks_cases n a : wks n = Some a -> a = 1 \/ a = 4.
Proof. unfold wks. destruct (name_eqb n name_sdp); [intro H; inversion H; auto|].
  destruct (name_eqb n name_snep); [intro H; inversion H; auto | discriminate]. Qed.

Lemma do_socket_good c t : wf c -> good None c (fst (do_socket c t)).
Proof. intro W. cbn. split; [apply wf_new_sock; auto; destruct t; repeat split | split; [apply same_step, same_new|]].
  intros j _. unfold fresh_or_same. rewrite get_sock_app. destruct (Nat.eqb j (length (c_socks c))) eqn:E; auto.
  apply Nat.eqb_eq in E. right. split; [apply nth_error_None; lia | exists (new_sock t); destruct t; auto]. Qed.

Lemma do_bind_good c i arg : wf c -> good (Some i) c (fst (do_bind c i arg)).
Proof.
  intro W. unfold do_bind. destruct (get_sock c i) as [s|] eqn:G; [|auto].
  destruct (s_addr s) eqn:A; [auto|].
  destruct arg as [|a|n|]; auto.
  - destruct (bind_none c i s) as [c' [a|]] eqn:B; destruct (bind_none_good _ _ _ _ _ W G A B) as (Gd & _); auto.
  - unfold bind_addr. destruct ((a <? 0) || (63 <? a)) eqn:R; [auto|].
    destruct (((32 <=? a) && (a <=? 63)) || stype_eqb (s_type s) TRaw); [|auto].
    destruct (is_free c a) eqn:F; [|auto]. cbn.
    apply good_place; auto. pose proof (wf_free_ge2 c a W F). lia.
  - unfold bind_name. destruct (negb (name_valid n)) eqn:V; [auto|].
    destruct (lookup (c_snl c) n) eqn:L; [auto|].
    assert (V' : name_valid n = true) by (destruct (name_valid n); auto; discriminate).
    destruct (wks n) as [a|] eqn:K.
    + destruct (is_free c a) eqn:F; [|auto]. cbn.
      pose proof (wf_free_ge2 c a W F). apply good_place_named; [auto .. | destruct (wks_cases _ _ K); lia |].
      intros m E; inversion E; subst m. auto.
    + destruct (first_free c (zrange 16 32)) as [a|] eqn:FF; [|auto]. cbn.
      destruct (first_free_range_some _ _ _ _ FF) as (R & F & _).
      apply good_place_named; auto; [lia|]. intros m E; inversion E; subst m. auto.
Qed.

Lemma base_close_evolves s : evolves s (base_close s).
Proof. ev_tac. Qed.
Lemma sock_close_some s s' : sock_close s = Some s' -> evolves s s' /\ s_state s' = StShutdown /\ s_recvq s' = [].
Proof.
  unfold sock_close. destruct (s_type s) eqn:Ty; try (intro H; inversion H; split; [apply base_close_evolves | split; reflexivity]).
  destruct (sstate_eqb (s_state s) StEstablished && _) eqn:E.
  - cbn [s_recvq set_sendq set_state]. destruct (s_recvq s); [discriminate|]. intro H; inversion H.
    split; [ev_tac | split; reflexivity].
  - intro H; inversion H; split; [apply base_close_evolves | split; reflexivity].
Qed.
Lemma sock_close_none s : sock_close s = None ->
  s_type s = TDlc /\ s_state s = StEstablished /\ s_addr s <> None /\ s_recvq s = [] /\ evolves s (sock_close_wait s).
Proof.
  unfold sock_close. destruct (s_type s) eqn:Ty; try discriminate.
  destruct (sstate_eqb (s_state s) StEstablished && _) eqn:E; [|discriminate].
  apply andb_true_iff in E. destruct E as [E1 E2].
  assert (St : s_state s = StEstablished) by (destruct (s_state s); auto; discriminate).
  cbn [s_recvq set_sendq set_state]. destruct (s_recvq s) eqn:Q; [|discriminate]. intros _.
  split; [reflexivity|]. split; [auto|]. split; [destruct (s_addr s); [discriminate | discriminate E2]|]. split; [reflexivity|].
  unfold sock_close_wait. ev_tac.
Qed.

Lemma close_tail_good c i s s' a : wf c -> get_sock c i = Some s -> s_addr s = Some a ->
  evolves s s' -> s_state s' = StShutdown -> upd i c (sap_remove (put_sock c i s') a i).
Proof.
  intros W G A E St. destruct (upd_put c i s s' W G E) as [[W1 S1] F1].
  split; [split; [|eapply same_trans; [exact S1 | apply same_sap_remove]] | intros j N; rewrite sap_remove_get; auto].
  eapply wf_sap_remove; eauto; [eapply get_put_same; eauto|]. eapply (wf_addr_range _ W); eauto.
Qed.

Lemma do_close_good c i : wf c -> good (Some i) c (fst (do_close c i)).
Proof.
  intro W. unfold do_close. destruct (get_sock c i) as [s|] eqn:G; [|auto].
  destruct (s_pend s); auto.
  destruct (sock_close s) as [s'|] eqn:SC.
  - destruct (sock_close_some _ _ SC) as (E & St & _).
    assert (P : good (Some i) c (put_sock c i s')) by (apply upd_good; eapply upd_put; eauto).
    destruct (s_addr s) as [a|] eqn:A; [|exact P]. destruct (sap_get c a); try exact P.
    apply upd_good. eapply close_tail_good; eauto.
  - destruct (sock_close_none _ SC) as (_ & _ & _ & _ & E).
    assert (P : good (Some i) c (put_sock c i (sock_close_wait s))) by (apply upd_good; eapply upd_put; eauto).
    destruct (s_addr s) as [a|]; [destruct (sap_get c a)|]; auto.
Qed.

(* after autobind the state is left as it is, or an evolved version of the socket, which is now bound, is put back *)
Lemma autobind_walk c i s c' os : wf c -> get_sock c i = Some s -> autobind c i s = (c', os) ->
  good (Some i) c c' /\
  forall s' s'', os = Some s' -> ((exists a, s_addr s' = Some a) -> s_type s' = s_type s -> evolves s' s'') ->
                 good (Some i) c (put_sock c' i s'').
Proof.
  intros W G AB. destruct (autobind_good _ _ _ _ _ W G AB) as (Gd & P). split; [exact Gd|].
  intros s' s'' -> E. destruct P as (G' & (T & _) & A & _). eapply good_upd; [exact Gd|]. eapply upd_put; eauto. apply Gd.
Qed.

Lemma do_listen_good c i b : wf c -> good (Some i) c (fst (do_listen c i b)).
Proof.
  intro W. unfold do_listen. destruct (get_sock c i) as [s|] eqn:G; [|auto].
  destruct (s_pend s); auto.
  destruct (s_type s); auto.
  destruct (b <? 0); [auto|].
  destruct (autobind c i s) as [c' os] eqn:AB. destruct (autobind_walk _ _ _ _ _ W G AB) as [Gd PUT].
  destruct os as [s'|]; [|auto]. destruct (s_state s') eqn:St; cbn; auto. apply (PUT s'); auto. ev_tac.
Qed.

Lemma do_accept_good c i : wf c -> good (Some i) c (fst (do_accept c i)).
Proof.
  intro W. unfold do_accept. destruct (get_sock c i) as [s|] eqn:G; [|auto].
  destruct (s_pend s); auto.
  destruct (s_type s) eqn:Ty; auto.
  destruct (s_state s) eqn:St; auto.
  destruct (s_recvq s) as [|p q] eqn:Q; [auto|].
  assert (NC : forall q', good (Some i) c (put_sock c i (set_recvq s q'))).
  { intro q'. apply upd_good. eapply upd_put; eauto. ev_tac. }
  destruct p; try (cbn; apply NC).
  set (cc := PCC s0 _).
  set (s1 := set_sendq (set_recvq s q) (s_sendq s ++ [cc])).
  assert (E1 : evolves s s1) by (unfold s1; ev_tac).
  destruct (upd_put c i s s1 W G E1) as [[W1 S1] F1].
  set (c1 := put_sock c i s1) in *.
  set (client := mkSock TDlc StEstablished (s_addr s) (Some s0) 1 [] [] PdNone None).
  destruct (s_addr s) as [a|] eqn:A.
  - assert (G1 : get_sock c1 i = Some s1) by (eapply get_put_same; eauto).
    assert (L1 : listed c1 a i). { eapply (wf_open_listed _ W1); eauto. unfold s1. cbn. congruence. }
    destruct (wf_accept c1 a i s1 client W1 L1 G1) as (c3 & INS & W3 & GS); auto.
    { unfold nolisten; cbn; auto. }
    assert (LEN : length (c_socks c1) = length (c_socks c)) by apply put_sock_len.
    rewrite LEN in INS, GS. fold client. rewrite INS. cbn. split; [auto | split].
    + eapply step_same; [apply same_step; exact S1|].
      intros j sj Gj. exists sj. split; auto. rewrite GS. pose proof (get_sock_lt _ _ _ Gj).
      replace (Nat.eqb j (length (c_socks c))) with false by (symmetry; apply Nat.eqb_neq; lia). auto.
    + (* the accepted socket is new and has empty queues *)
      intros j N. unfold fresh_or_same. rewrite GS. destruct (Nat.eqb j (length (c_socks c))) eqn:E.
      * apply Nat.eqb_eq in E. right. split; [apply nth_error_None; lia | exists client; auto].
      * left. apply F1. congruence.
  - cbn. apply upd_good. split; [split|]; auto.
Qed.

Lemma do_connect_good c i d : wf c -> good (Some i) c (fst (do_connect c i d)).
Proof.
  intro W. unfold do_connect. destruct (get_sock c i) as [s|] eqn:G; [|auto].
  destruct (s_pend s); auto.
  destruct (autobind c i s) as [c' os] eqn:AB. destruct (autobind_walk _ _ _ _ _ W G AB) as [Gd PUT].
  destruct os as [s'|]; [|auto]. destruct (s_type s') eqn:Ty'; [auto | |].
  - destruct (s_state s') eqn:St; auto; (destruct d; cbn; [apply (PUT s'); auto; ev_tac | auto]).
  - destruct (s_state s') eqn:St; auto.
    cbn [s_recvq set_sendq set_state]. destruct (s_recvq s'); destruct d; cbn; apply (PUT s'); auto; ev_tac.
Qed.

(* sendto and send refuse a socket that is shut down and treat every other state alike *)
Lemma unless_shutdown {A} (st : sstate) (x y : A) :
  match st with StShutdown => x | _ => y end = if sstate_eqb st StShutdown then x else y.
Proof. destruct st; reflexivity. Qed.

Lemma do_sendto_good c i m d : wf c -> good (Some i) c (fst (do_sendto c i m d)).
Proof.
  intro W. unfold do_sendto. destruct (get_sock c i) as [s|] eqn:G; [|auto].
  destruct (s_pend s); auto.
  destruct (s_type s) eqn:Ty; auto.
  - destruct (autobind c i s) as [c' os] eqn:AB. destruct (autobind_walk _ _ _ _ _ W G AB) as [Gd PUT].
    destruct os as [s'|]; [|auto].
    rewrite unless_shutdown. destruct (sstate_eqb (s_state s') StShutdown); [auto|]. cbv zeta.
    destruct (match s_peer s' with Some p => negb (p =? 0) && negb (d =? p) | None => false end); [auto|].
    destruct (link_miu <? len m); [auto|]. cbn. apply (PUT s'); auto.
    (* the datagram queued carries the address the socket now has *)
    intros (a & A) T. rewrite A. constructor; cbn; auto; try st_tac.
    intros _ p H. apply in_app_or in H. destruct H as [H|[H|[]]]; auto. right. subst p. exists d, m, a. auto.
  - destruct (s_state s); auto.
Qed.

Lemma do_rawsend_good c i p : wf c -> good (Some i) c (fst (do_rawsend c i p)).
Proof.
  intro W. unfold do_rawsend. destruct (get_sock c i) as [s|] eqn:G; [|auto].
  destruct (s_type s) eqn:Ty; auto.
  destruct (autobind c i s) as [c' os] eqn:AB. destruct (autobind_walk _ _ _ _ _ W G AB) as [Gd PUT].
  destruct os as [s'|]; [|auto]. rewrite unless_shutdown. destruct (sstate_eqb (s_state s') StShutdown); [auto|].
  cbn. apply (PUT s'); auto. intros _ T. ev_tac.
Qed.

Lemma do_recvfrom_good c i : wf c -> good (Some i) c (fst (do_recvfrom c i)).
Proof.
  intro W. unfold do_recvfrom. destruct (get_sock c i) as [s|] eqn:G; [|auto].
  destruct (s_pend s); auto.
  match goal with |- context [if ?b then _ else _] => destruct b end; [auto|].
  (* the head of the receive queue is taken *)
  assert (EV : forall p q, s_recvq s = p :: q -> evolves s (set_recvq s q)).
  { intros p q Q. constructor; cbn; auto. intros _ x Hx. left. rewrite Q. right. exact Hx. }
  assert (NC : forall p q, s_recvq s = p :: q -> good (Some i) c (put_sock c i (set_recvq s q))).
  { intros p q Q. apply upd_good. eapply upd_put; eauto. }
  destruct (s_type s) eqn:Ty.
  - (* raw *) rewrite unless_shutdown. destruct (sstate_eqb (s_state s) StShutdown); [auto|].
    destruct (s_recvq s) as [|p q]; [auto | exact (NC p q eq_refl)].
  - (* datagram *) rewrite unless_shutdown. destruct (sstate_eqb (s_state s) StShutdown); [auto|].
    destruct (s_recvq s) as [|p q]; [auto | destruct p; exact (NC _ q eq_refl)].
  - (* connection, established or closed by the peer: a DISC at the head also closes the socket *)
    destruct (s_state s); auto; (destruct (s_recvq s) as [|p q]; [auto|]); destruct p; try exact (NC _ q eq_refl).
    all: destruct (sock_close (set_recvq s q)) as [s'|] eqn:SC; [|auto]; cbn.
    all: destruct (sock_close_some _ _ SC) as (E & _); apply upd_good; eapply upd_put; eauto.
    all: eapply evolves_trans; [exact (EV _ _ eq_refl) | exact E].
Qed.

Lemma do_rcvbuf_good c i v : wf c -> good (Some i) c (fst (do_rcvbuf c i v)).
Proof.
  intro W. unfold do_rcvbuf. destruct (get_sock c i) as [s|] eqn:G; [|auto].
  destruct (s_type s); auto;
    (destruct (s_state s); auto; cbn; apply upd_good; eapply upd_put; eauto; ev_tac).
Qed.

Lemma do_resolve_good c n k : wf c -> good None c (fst (do_resolve c n k)).
Proof.
  intro W. unfold do_resolve. destruct (lookup (sd_cache c) n); [auto|].
  destruct (sd_tids c); [auto|]. cbn. apply good_socks; auto. apply goods_sd; auto.
Qed.

Definition target (o : lop) : option nat :=
  match o with
  | LSocket _ | LResolve _ _ => None
  | LBind i _ | LListen i _ | LAccept i | LConnect i _ | LSendto i _ _ | LRawsend i _ | LRecvfrom i | LRcvbuf i _
  | LClose i | LGetsockname i => Some i
  end.

Lemma lstep_good c o : wf c -> good (target o) c (fst (lstep c o)).
Proof.
  intro W. destruct o; cbn [lstep target].
  - apply do_socket_good; auto.
  - apply do_bind_good; auto.
  - apply do_listen_good; auto.
  - apply do_accept_good; auto.
  - apply do_connect_good; auto.
  - apply do_sendto_good; auto.
  - apply do_rawsend_good; auto.
  - apply do_recvfrom_good; auto.
  - apply do_rcvbuf_good; auto.
  - apply do_resolve_good; auto.
  - apply do_close_good; auto.
  - destruct (get_sock c i) as [s|]; [destruct (s_addr s)|]; auto.
Qed.

Lemma base_dequeue_head s m p s' : base_dequeue s m = Some (p, s') -> s' = set_sendq s (tl (s_sendq s)) /\ s_sendq s = p :: s_sendq s'.
Proof. unfold base_dequeue. destruct (s_sendq s) as [|h t] eqn:Q; [discriminate|].
  destruct m as [m|]; [destruct (m <? pdu_isize h); [discriminate|]|]; intro H; inversion H; subst; cbn; auto. Qed.

(* the PDU taken is the head of the send queue; the rest stays (nothing else changes on a datagram socket), or is cleared
   with the FRMR *)
Lemma sock_dequeue_cases s miu p s' : sock_dequeue s miu = Some (p, s') ->
  exists rest, s_sendq s = p :: rest /\ (s_sendq s' = rest \/ s_sendq s' = []) /\ evolves s s' /\
               (s_type s = TLdl -> s' = set_sendq s rest).
Proof.
  unfold sock_dequeue. intro D. exists (tl (s_sendq s)). destruct (s_type s) eqn:T.
  1, 2: apply base_dequeue_head in D; destruct D as [-> Q]; cbn in Q; (split; [exact Q|]); split; [cbn; auto|]; split; [ev_tac | auto].
  destruct (base_dequeue s (Some miu)) as [[p1 s1]|] eqn:B; [|discriminate].
  apply base_dequeue_head in B. destruct B as [-> Q]. cbn in Q.
  assert (K : forall x, Some (p1, x) = Some (p, s') -> evolves s x -> s_sendq x = tl (s_sendq s) \/ s_sendq x = [] ->
            s_sendq s = p :: tl (s_sendq s) /\ (s_sendq s' = tl (s_sendq s) \/ s_sendq s' = []) /\ evolves s s' /\
            (TDlc = TLdl -> s' = set_sendq s (tl (s_sendq s)))).
  { intros x E Ev R. inversion E; subst. split; [exact Q|]. split; [exact R|]. split; [exact Ev | discriminate]. }
  destruct p1; try (apply (K _ D); [ev_tac | cbn; auto]).
  destruct (sstate_eqb _ _); apply (K _ D); solve [ev_tac | cbn; auto].
Qed.

(* where a collected PDU comes from: a socket of the SAP, its send list, or service discovery *)
Lemma collect_cases c a' miu p c' : collect1 c a' miu = Some (p, c') ->
  (exists x sx sx', listed c a' x /\ get_sock c x = Some sx /\ sock_dequeue sx miu = Some (p, sx') /\ c' = put_sock c x sx') \/
  (exists l t, sap_get c a' = Sap l (p :: t) /\ c' = sap_set c a' (Sap l t)) \/
  (sap_get c a' = SapSD /\ sd_dequeue c miu = Some (p, c')).
Proof.
  unfold collect1. destruct (sap_get c a') as [| |l sl] eqn:SG; [discriminate | auto |].
  destruct (socks_dequeue c l miu) as [[p1 c1]|] eqn:D.
  - intro H; inversion H; subst. left.
    assert (K : forall l0, socks_dequeue c l0 miu = Some (p, c') ->
              exists x sx sx', In x l0 /\ get_sock c x = Some sx /\ sock_dequeue sx miu = Some (p, sx') /\ c' = put_sock c x sx').
    { induction l0 as [|x t IH]; cbn; [discriminate|]. destruct (get_sock c x) as [sx|] eqn:Gx.
      - destruct (sock_dequeue sx miu) as [[p2 s2]|] eqn:SD.
        + intro E; inversion E; subst. exists x, sx, s2. auto.
        + intro E. destruct (IH E) as (y & sy & sy' & I & R). exists y, sy, sy'. auto.
      - intro E. destruct (IH E) as (y & sy & sy' & I & R). exists y, sy, sy'. auto. }
    destruct (K l D) as (x & sx & sx' & I & R). exists x, sx, sx'. split; auto. unfold listed. rewrite SG. auto.
  - destruct sl as [|h t]; [discriminate|]. intro H; inversion H; subst. right. left. eauto.
Qed.

(* service discovery sends SNL and DM PDUs, and touches no socket *)
Lemma sd_dequeue_good c miu p c' : wf c -> sd_dequeue c miu = Some (p, c') ->
  goods c c' /\ c_socks c' = c_socks c /\ is_ui p = false.
Proof.
  intro W. unfold sd_dequeue.
  destruct (sd_sdres c) eqn:R, (sd_sdreq c) eqn:Q;
  try (destruct (take_sdres _ _ _) as [[rs rest] m1]; destruct (take_sdreq _ _ _ _) as [rq rest']; intro H; inversion H; subst;
       split; [apply goods_sd; auto | split; reflexivity]).
  destruct (sd_dmpdu c) eqn:DM; [discriminate|]. destruct (0 <? miu); [|discriminate]. intro H; inversion H; subst.
  assert (NU : forall q, In q (p :: l) -> is_ui q = false) by (intros q Hq; apply (wf_dmpdu_ui _ W); rewrite DM; exact Hq).
  split; [apply goods_dmpdu; auto; intros q Hq; apply NU; right; exact Hq | split; [reflexivity | apply NU; left; reflexivity]].
Qed.

Lemma collect1_good c a miu p c' : wf c -> collect1 c a miu = Some (p, c') -> goods c c'.
Proof.
  intros W C. destruct (collect_cases _ _ _ _ _ C) as [(x & sx & sx' & _ & G & D & ->)|[(l & t & SG & ->)|[_ D]]].
  - eapply upd_put; eauto. destruct (sock_dequeue_cases _ _ _ _ D) as (rest & _ & _ & E & _). exact E.
  - apply (goods_sendl c a l _ t W SG). intros q Hq. apply (wf_sendl_ui _ W a l _ q SG). right; auto.
  - eapply sd_dequeue_good; eauto.
Qed.

Lemma pick_sock_some c l f i s : pick_sock c l f = Some (i, s) -> In i l /\ get_sock c i = Some s /\ f s = true.
Proof. induction l as [|x t IH]; cbn; [discriminate|].
  destruct (get_sock c x) as [sx|] eqn:G.
  - destruct (f sx) eqn:F; [intro H; inversion H; subst; auto | intro H; destruct (IH H) as (? & ? & ?); auto].
  - intro H; destruct (IH H) as (? & ? & ?); auto. Qed.

Lemma pick_sock_none c l f : pick_sock c l f = None -> forall i s, In i l -> get_sock c i = Some s -> f s = false.
Proof. induction l as [|x t IH]; cbn; [intros _ i s []|]. destruct (get_sock c x) as [sx|] eqn:G.
  - destruct (f sx) eqn:F; [discriminate|]. intros P i s [->|Li] Gi; [congruence | eauto].
  - intros P i s [->|Li] Gi; [congruence | eauto]. Qed.

Lemma finish_connect_good c i s s' : wf c -> get_sock c i = Some s -> evolves s s' ->
  s_state s' = StConnect -> upd i c (fst (finish_connect c i s')).
Proof.
  intros W G E St'. unfold finish_connect. destruct (s_recvq s') as [|h t] eqn:Q; [auto|].
  destruct h; auto; cbn; eapply upd_put; eauto; (eapply evolves_trans; [exact E|]); ev_tac.
Qed.

Lemma finish_close_good c i s s' : wf c -> get_sock c i = Some s -> evolves s s' -> upd i c (fst (finish_close c i s')).
Proof.
  intros W G E. unfold finish_close. destruct (s_recvq s') as [|h t] eqn:Q; [auto|]. cbn.
  set (s2 := set_pend (base_close (set_recvq s' t)) PdNone).
  assert (E2 : evolves s s2) by (eapply evolves_trans; [exact E|]; unfold s2; ev_tac).
  destruct (s_addr s') as [a|] eqn:A.
  - eapply close_tail_good; eauto. rewrite <- A. symmetry. apply E.
  - eapply upd_put; eauto.
Qed.

(* a raw access point takes any PDU, a datagram socket a UI PDU within the link MIU, while the queue has room *)
Lemma sock_enqueue_dgram c i s p : s_type s <> TDlc ->
  sock_enqueue c i s p = (c, Ok []) \/
  (sock_enqueue c i s p = (put_sock c i (set_recvq s (s_recvq s ++ [p])), Ok [EvEnq i p]) /\ (s_type s = TLdl -> is_ui p = true)).
Proof.
  intro T. unfold sock_enqueue. destruct (s_type s); [| |congruence].
  - destruct (len (s_recvq s) <? s_rbuf s); auto. right. split; [reflexivity | discriminate].
  - destruct p; auto. destruct (link_miu <? len data); auto. destruct (len (s_recvq s) <? s_rbuf s); auto.
Qed.

Lemma sock_enqueue_good c i s p : wf c -> get_sock c i = Some s -> s_addr s = Some (pdu_dsap p) ->
  upd i c (fst (sock_enqueue c i s p)).
Proof.
  intros W G AD.
  destruct (s_type s) eqn:Ty; [| |unfold sock_enqueue; rewrite Ty].
  1, 2: destruct (sock_enqueue_dgram c i s p) as [-> | [-> U]]; [congruence | auto | cbn; eapply upd_put; eauto].
  - ev_tac.
  - (* the datagram queued is addressed to the socket's own address *)
    constructor; cbn; auto. intros _ x Hx. apply in_app_or in Hx. destruct Hx as [Hx|[<-|[]]]; auto.
    right. destruct p; try discriminate (U Ty). exists d, s0, data. auto.
  - destruct (negb (is_dlc_pdu p)) eqn:ND.
    + destruct (negb (c_enq_blocks c) && sstate_eqb (s_state s) StEstablished) eqn:NB.
      { cbn. eapply upd_put; eauto. ev_tac. }
      destruct (sock_close s) as [s'|] eqn:SC; [|auto].
      destruct (sock_close_some _ _ SC) as (E & St & _).
      set (s2 := set_pend (set_sendq s' _) PdNone).
      assert (E2 : evolves s s2).
      { eapply evolves_trans; [exact E|]. assert (T' : s_type s' = TDlc) by (rewrite (ev_type _ _ E); auto). unfold s2; ev_tac. }
      destruct (s_pend s); cbn; try (eapply upd_put; eauto).
      destruct (s_addr s) as [a|] eqn:A; [|eapply upd_put; eauto].
      eapply close_tail_good; eauto.
    + destruct (s_state s) eqn:St; auto.
      * cbn. eapply upd_put; eauto; ev_tac.
      * destruct (is_connect p); [|auto].
        destruct (len (s_recvq s) <? s_rbuf s); cbn; eapply upd_put; eauto; ev_tac.
      * assert (K : forall p', upd i c (fst (let s' := set_recvq s (s_recvq s ++ [p']) in
                        match s_pend s with
                        | PdConnect => let '(c', evs) := finish_connect c i s' in (c', Ok (EvEnq i p' :: evs))
                        | _ => (put_sock c i s', Ok [EvEnq i p'])
                        end))).
        { intro p'. cbn zeta. destruct (s_pend s); cbn; try (eapply upd_put; eauto; ev_tac).
          destruct (finish_connect c i (set_recvq s (s_recvq s ++ [p']))) as [c1 evs] eqn:FC. cbn.
          change c1 with (fst (c1, evs)). rewrite <- FC. eapply finish_connect_good; eauto. ev_tac. }
        destruct p; auto; apply K.
      * destruct p; auto; cbn; eapply upd_put; eauto; ev_tac.
      * destruct p; auto. cbn zeta.
        destruct (s_pend s); cbn; try (eapply upd_put; eauto; ev_tac).
        destruct (finish_close c i (set_recvq s (s_recvq s ++ [PDM d s0 r]))) as [c1 evs] eqn:FC. cbn.
        change c1 with (fst (c1, evs)). rewrite <- FC. eapply finish_close_good; eauto. ev_tac.
Qed.

(* dispatch hands the PDU, or the CONNECT by name rewritten to the resolved address, to the SAP at its DSAP *)
Definition route (c : ctl) (q : pdu) : DR :=
  match sap_get c (pdu_dsap q) with
  | SapNone => (c, Ok [])
  | SapSD => sd_enqueue c q
  | Sap l sl => sap_enqueue c (pdu_dsap q) l sl q
  end.

Lemma dispatch_route c p :
  (exists q, (q = p \/ is_ui q = false /\ is_ui p = false) /\ dispatch c p = route c q) \/
  (exists x, is_ui x = false /\ is_ui p = false /\ dispatch c p = (set_dmpdu c (sd_dmpdu c ++ [x]), Ok [])).
Proof.
  unfold dispatch. fold (route c). destruct p; try (left; eexists; split; [left; reflexivity | reflexivity]).
  destruct d as [|[d|d|]|]; try (left; eexists; split; [left; reflexivity | reflexivity]).
  match goal with |- context [if ?b then _ else _] => destruct b end.
  - left. eexists. split; [|reflexivity]. right. split; reflexivity.
  - right. eexists. split; [|split; reflexivity]. reflexivity.
Qed.

(* which socket of the SAP gets the PDU; with none, connection-mode PDUs are answered by a DM from the SAP *)
Lemma route_cases c q c' r : route c q = (c', r) ->
  (c' = c /\ r = Ok []) \/
  (sap_get c (pdu_dsap q) = SapSD /\ sd_enqueue c q = (c', r)) \/
  (exists i s, listed c (pdu_dsap q) i /\ get_sock c i = Some s /\ sock_enqueue c i s q = (c', r) /\
               (if is_connect q then sstate_eqb (s_state s) StListen
                else match s_peer s with None => true | Some x => x =? pdu_ssap q end) = true) \/
  (exists l sl reason, sap_get c (pdu_dsap q) = Sap l sl /\ is_ui q = false /\ r = Ok [] /\
                       c' = sap_set c (pdu_dsap q) (Sap l (sl ++ [PDM (pdu_ssap q) (pdu_dsap q) reason]))).
Proof.
  unfold route. destruct (sap_get c (pdu_dsap q)) as [| |l sl] eqn:SG; [intro H; inversion H; auto | auto |].
  assert (LI : forall i, In i l -> listed c (pdu_dsap q) i) by (intros i H; unfold listed; rewrite SG; exact H).
  unfold sap_enqueue. destruct (is_connect q) eqn:IC.
  - destruct (pick_sock c l _) as [[i s]|] eqn:P.
    + apply pick_sock_some in P. destruct P as (Li & G & F). intro E. right. right. left. exists i, s. auto.
    + intro E. inversion E. right. right. right. exists l, sl, 2. repeat split; auto. destruct q; auto; discriminate.
  - destruct (pick_sock c l _) as [[i s]|] eqn:P.
    + apply pick_sock_some in P. destruct P as (Li & G & F). intro E. right. right. left. exists i, s. auto.
    + destruct (is_dlc_pdu q) eqn:ID; intro E; inversion E; auto.
      right. right. right. exists l, sl, 1. repeat split; auto. destruct q; auto; discriminate.
Qed.

Lemma sd_enqueue_socks c p : c_socks (fst (sd_enqueue c p)) = c_socks c.
Proof. unfold sd_enqueue. destruct p; auto. destruct (sd_take_res _ _ _ _), (wake _ _). reflexivity. Qed.

Lemma sd_enqueue_good c p : wf c -> goods c (fst (sd_enqueue c p)).
Proof.
  intro W. unfold sd_enqueue. destruct p; try (apply goods_refl; auto).
  destruct (sd_take_res _ _ _ _) as [cache tids]. destruct (wake _ _) as [evs w]. cbn. apply goods_sd; auto.
Qed.

Lemma dispatch_good c p : wf c -> goods c (fst (dispatch c p)).
Proof.
  intro W. assert (NU : forall l x, (forall y, In y l -> is_ui y = false) -> is_ui x = false -> forall y, In y (l ++ [x]) -> is_ui y = false).
  { intros l x Hl Hx y Hy. apply in_app_or in Hy. destruct Hy as [Hy|[<-|[]]]; auto. }
  destruct (dispatch_route c p) as [(q & _ & ->)|(x & Ux & _ & ->)].
  - destruct (route c q) as [c' r] eqn:R.
    destruct (route_cases _ _ _ _ R) as [[-> _]|[[_ E]|[(i & s & L & G & E & _)|(l & sl & n & SG & _ & _ & ->)]]]; cbn.
    + apply goods_refl; auto.
    + change c' with (fst (c', r)). rewrite <- E. apply sd_enqueue_good; auto.
    + change c' with (fst (c', r)). rewrite <- E. apply (sock_enqueue_good c i s q); auto.
      destruct (wf_listed_addr _ W _ i L) as (s0 & G0 & A0). congruence.
    + apply (goods_sendl c _ l sl _ W SG). apply NU; auto. intro y. apply (wf_sendl_ui _ W _ l sl y SG).
  - cbn. apply goods_dmpdu; auto. apply NU; auto. apply (wf_dmpdu_ui _ W).
Qed.

Definition wf2 (st : sys) : Prop := wf (fst st) /\ wf (snd st).
Definition exec (b : bool) (ops : list op) : sys := fold_left (fun st o => fst (step st o)) ops (init_sys b).

Lemma get_set_side_same st sd c : get_side (set_side st sd c) sd = c.
Proof. destruct sd; reflexivity. Qed.
Lemma get_set_side_other st sd c : get_side (set_side st sd c) (other sd) = get_side st (other sd).
Proof. destruct sd; reflexivity. Qed.
Lemma wf2_side st sd : wf2 st -> wf (get_side st sd).
Proof. intros [A B]. destruct sd; auto. Qed.
Lemma wf2_set st sd c : wf2 st -> wf c -> wf2 (set_side st sd c).
Proof. intros [A B] W. destruct sd; split; auto. Qed.

(* one step of the system, seen from either controller *)
Lemma step_side st o sd : wf2 st ->
  wf (get_side (fst (step st o)) sd) /\ addr_step (get_side st sd) (get_side (fst (step st o)) sd).
Proof.
  intro W.
  assert (SAME : wf (get_side st sd) /\ addr_step (get_side st sd) (get_side st sd))
    by (split; [apply wf2_side; auto | apply same_step, same_refl]).
  destruct o as [sd' lo|from a miu]; cbn [step].
  - destruct (lstep_good _ lo (wf2_side st sd' W)) as (W' & S' & _).
    destruct (lstep (get_side st sd') lo) as [c' r]. destruct sd, sd'; cbn in *; auto.
  - destruct (collect1 (get_side st from) a miu) as [[p c1]|] eqn:C; [|exact SAME].
    destruct (collect1_good _ _ _ _ _ (wf2_side st from W) C) as [W1 S1].
    destruct (dispatch_good _ p (wf2_side _ (other from) (wf2_set st from c1 W W1))) as [W2 S2].
    destruct (dispatch (get_side (set_side st from c1) (other from)) p) as [c2 r].
    destruct sd, from; cbn in *; auto using same_step.
Qed.

Lemma step_wf2 st o : wf2 st -> wf2 (fst (step st o)).
Proof. intro W. split; [apply (step_side st o SA W) | apply (step_side st o SB W)]. Qed.
Lemma step_addr st o sd : wf2 st -> addr_step (get_side st sd) (get_side (fst (step st o)) sd).
Proof. intro W. apply (step_side st o sd W). Qed.

Lemma wf2_init b : wf2 (init_sys b).
Proof. split; apply wf_init. Qed.

Lemma exec_app b ops o : exec b (ops ++ [o]) = fst (step (exec b ops) o).
Proof. unfold exec. rewrite fold_left_app. reflexivity. Qed.

Theorem exec_wf2 b ops : wf2 (exec b ops).
Proof.
  induction ops as [|o ops IH] using rev_ind; [apply wf2_init|]. rewrite exec_app. apply step_wf2; auto.
Qed.

(* run (which stops at the first crash) only visits exec states *)
Lemma run_is_exec st ops : exists pre, fst (run st ops) = fold_left (fun st o => fst (step st o)) pre st.
Proof.
  revert st. induction ops as [|o t IH]; intro st; cbn.
  - exists []. reflexivity.
  - destruct (step st o) as [st' r] eqn:S.
    assert (E1 : exists pre, st' = fold_left (fun st o => fst (step st o)) pre st) by (exists [o]; cbn; rewrite S; reflexivity).
    destruct r; try (destruct E1 as (pre & E); exists pre; exact E);
      (destruct (run st' t) as [st'' rs] eqn:Rn; destruct (IH st') as (pre & E); rewrite Rn in E; cbn in E;
       exists (o :: pre); cbn; rewrite S; exact E).
Qed.
Corollary final_wf2 b ops : wf2 (final b ops).
Proof. unfold final. destruct (run_is_exec (init_sys b) ops) as (pre & ->). apply (exec_wf2 b pre). Qed.
