(* C05 - user-visible corollaries of the reachable-state invariant, stated over what an
   observer of the two sockets sees (results of send / recv, PDUs delivered). *)
From Coq Require Import ZArith List Bool Lia ZifyBool.
From NV Require Import Base.Result Base.Bytes Model.Dlc Proofs.DlcBase Proofs.Dlc.
Import ListNotations.
Open Scope Z_scope.

Fixpoint outs (s : sys) (ops : list op) : list (op * out) :=
  match ops with
  | [] => []
  | o :: r => (o, snd (step_full s o)) :: outs (step s o) r
  end.

Definition side_eqb (a b : side) : bool := match a, b with A, A | B, B => true | _, _ => false end.

(* messages for which sd.send returned True, in call order *)
Definition accepted1 (sd : side) (e : op * out) : list msg :=
  match e with
  | (Send sd' m, OSend (Ok _)) => if side_eqb sd sd' then [m] else []
  | _ => []
  end.
(* messages returned by sd.recv, in call order *)
Definition returned1 (sd : side) (e : op * out) : list msg :=
  match e with
  | (Recv sd', ORecv (Ok (Some d))) => if side_eqb sd sd' then [d] else []
  | _ => []
  end.
Lemma side_eqb_refl sd : side_eqb sd sd = true.
Proof. destruct sd; reflexivity. Qed.
(* an op is no event of the other side *)
Lemma accepted1_other sd m r : accepted1 (other sd) (Send sd m, r) = [].
Proof. destruct r as [[]| | | | |], sd; reflexivity. Qed.
Lemma returned1_other sd r : returned1 (other sd) (Recv sd, r) = [].
Proof. destruct r as [|[[|]| | |]| | | |], sd; reflexivity. Qed.
Definition accepted (sd : side) (h : list (op * out)) : list msg := flat_map (accepted1 sd) h.
Definition returned (sd : side) (h : list (op * out)) : list msg := flat_map (returned1 sd) h.

(* something went wrong at the link level: an I PDU discarded or rejected, recv raising *)
Definition bad1 (e : op * out) : bool :=
  match snd e with
  | ODeliver (Some (_, EnqDiscarded)) | ODeliver (Some (_, EnqRejected)) => true
  | ORecv (Err RuntimeErr) => true
  | _ => false
  end.

(* a bad event sets (and nothing ever clears) one of the ghost flags *)
Definition flagged (s : sys) : bool :=
  lost (gab s) || frmr (gab s) || rterr (gab s) || lost (gba s) || frmr (gba s) || rterr (gba s).

Lemma ghost_step s o sd : let e := (o, snd (step_full s o)) in
  sent (get_g (step s o) sd) = sent (get_g s sd) ++ accepted1 sd e /\
  dlv (get_g (step s o) sd) = dlv (get_g s sd) ++ returned1 (other sd) e.
Proof.
  (* step_full puts into the ghost exactly the message its output carries: by cases on the op and the result *)
  unfold step, step_full, emit, accepted1, returned1.
  destruct o as [sd' m|sd'|sd' b|sd'|sd' miu icv|sd'|sd'];
    [ destruct (ep_send (get_ep s sd') m) as [x' []]
    | destruct (ep_recv_nb (get_ep s sd')) as [x' [[d|]|[]| |]]
    |
    | destruct (ep_poll_acks (get_ep s sd')) as [x' r]
    | destruct (ep_dequeue (get_ep s sd') miu icv) as [x' [p|]]
    | destruct (ep_sendack (get_ep s sd')) as [x' [p|]]
    | destruct (get_w s (other sd')) as [|p w]; [|destruct (ep_enqueue (get_ep s sd') p) as [x' []]] ];
    destruct sd, sd';
    cbn [fst snd get_g set_g set_ep set_w get_w get_ep other side_eqb gab gba g_sent g_dlv g_rterr g_ra g_acked g_enq
         sent dlv];
    rewrite ?app_nil_r; split; reflexivity.
Qed.

Lemma bad_step s o : bad1 (o, snd (step_full s o)) = true -> flagged (step s o) = true.
Proof.
  unfold step, step_full, emit, bad1, flagged.
  destruct o as [sd' m|sd'|sd' b|sd'|sd' miu icv|sd'|sd'];
    [ destruct (ep_send (get_ep s sd') m) as [x' r]
    | destruct (ep_recv_nb (get_ep s sd')) as [x' [[d|]|[]| |]]
    |
    | destruct (ep_poll_acks (get_ep s sd')) as [x' r]
    | destruct (ep_dequeue (get_ep s sd') miu icv) as [x' [p|]]
    | destruct (ep_sendack (get_ep s sd')) as [x' [p|]]
    | destruct (get_w s (other sd')) as [|p w]; [|destruct (ep_enqueue (get_ep s sd') p) as [x' []]] ];
    cbn [fst snd]; try discriminate; intros _; destruct sd';
    cbn [get_g set_g set_ep set_w other gab gba g_rterr g_acked g_enq lost frmr rterr];
    rewrite ?orb_true_r; reflexivity.
Qed.

Lemma sent_run ops : forall s sd, sent (get_g (fold_left step ops s) sd) = sent (get_g s sd) ++ accepted sd (outs s ops).
Proof.
  induction ops as [|o ops IH]; intros s sd; cbn [fold_left outs accepted flat_map]; [rewrite app_nil_r; reflexivity|].
  rewrite IH, (proj1 (ghost_step s o sd)), <- app_assoc. reflexivity.
Qed.
Lemma dlv_run ops : forall s sd, dlv (get_g (fold_left step ops s) sd) = dlv (get_g s sd) ++ returned (other sd) (outs s ops).
Proof.
  induction ops as [|o ops IH]; intros s sd; cbn [fold_left outs returned flat_map]; [rewrite app_nil_r; reflexivity|].
  rewrite IH, (proj2 (ghost_step s o sd)), <- app_assoc. reflexivity.
Qed.

Lemma sent_reach c ops sd : sent (get_g (run c ops) sd) = accepted sd (outs (init c) ops).
Proof. unfold run. rewrite sent_run. destruct sd; reflexivity. Qed.
Lemma dlv_reach c ops sd : dlv (get_g (run c ops) sd) = returned (other sd) (outs (init c) ops).
Proof. unfold run. rewrite dlv_run. destruct sd; reflexivity. Qed.

Lemma inv_unflagged s : Inv s -> flagged s = false.
Proof.
  intro HI. destruct (HI A) as (Ha & _). destruct (HI B) as (Hb & _).
  destruct (dir_unflagged _ _ _ _ _ _ _ _ _ _ _ _ _ _ Ha) as (Hl1 & Hf1 & Hr1).
  destruct (dir_unflagged _ _ _ _ _ _ _ _ _ _ _ _ _ _ Hb) as (Hl2 & Hf2 & Hr2). cbn [get_g] in *.
  unfold flagged. rewrite Hl1, Hf1, Hr1, Hl2, Hf2, Hr2. reflexivity.
Qed.


(* in order, exactly once: what X.send accepted = what Y.recv returned ++ Y's receive queue ++ the
   data of the I PDUs on the wire X -> Y ++ the data of the I PDUs in X's send queue; in particular
   the returned messages are a prefix of the accepted ones - for both directions at once *)
Theorem in_order_exactly_once c ops sd : cfg_ok c ->
  let s := run c ops in let h := outs (init c) ops in
  accepted sd h = returned (other sd) h ++ rq (get_ep s (other sd)) ++ map snd (Is (get_w s sd)) ++ map snd (Is (sq (get_ep s sd))).
Proof.
  intros Hc s h. destruct (inv_reachable c ops Hc sd) as (HD & _). unfold Dir in HD. dir_intro HD.
  unfold h. rewrite <- sent_reach, <- dlv_reach, <- map_app. exact Hsent.
Qed.

Corollary returned_prefix_of_accepted c ops sd : cfg_ok c ->
  let h := outs (init c) ops in exists rest, accepted sd h = returned (other sd) h ++ rest.
Proof. intros Hc h. eexists. apply (in_order_exactly_once c ops sd Hc). Qed.

(* every I PDU of the direction on the wire / in the send queue carries the sequence number of its
   position in the sending order, modulo 16 *)
Theorem sequence_numbers c ops sd : cfg_ok c ->
  let s := run c ops in
  let fl := Is (get_w s sd) ++ Is (sq (get_ep s sd)) in
  fl = number (gR (get_g s sd)) (map snd fl) /\
  vr (get_ep s (other sd)) = gR (get_g s sd) mod 16 /\
  len (returned (other sd) (outs (init c) ops)) + len (rq (get_ep s (other sd))) = gR (get_g s sd).
Proof.
  intros Hc s fl. destruct (inv_reachable c ops Hc sd) as (HD & _). unfold Dir in HD. dir_intro HD.
  rewrite <- dlv_reach. repeat split; try assumption. subst s. lia.
Qed.

(* the window: accepted but unacknowledged messages never exceed the window the peer announced,
   and the modulo-16 difference of the state variables is the true count (no aliasing) *)
Theorem window_respected c ops sd : cfg_ok c ->
  let s := run c ops in let x := get_ep s sd in let y := get_ep s (other sd) in
  let S := len (accepted sd (outs (init c) ops)) in let SA := gSA (get_g s sd) in
  0 <= S - SA <= rwl y /\ rwr x = rwl y /\ rwl y <= 15 /\
  vs x = S mod 16 /\ vsa x = SA mod 16 /\ (vs x - vsa x) mod 16 = S - SA /\
  (* ghost-free reading: I PDUs of X in X's send queue, on the wire, in Y's receive queue, or
     consumed by Y's application but not yet acknowledged by Y *)
  len (Is (sq x)) + len (Is (get_w s sd)) + len (rq y) + confs y <= rwl y.
Proof.
  intros Hc s x y S SA. destruct (inv_reachable c ops Hc sd) as (HD & _). unfold Dir in HD.
  destruct (dir_counters _ _ _ _ _ _ _ _ _ _ _ _ _ _ HD) as (Hw & _ & Hd & _ & _ & Hfl & Hle).
  destruct (dir_sender _ _ _ _ _ _ _ _ _ _ _ _ _ _ HD) as (Hvs & Hvsa & Hrw & Hrng & _).
  rewrite len_app in Hfl. subst S SA s x y. rewrite <- sent_reach.
  repeat split; try assumption; lia.
Qed.

(* nothing is ever discarded or rejected, recv never raises: no bad event in any history *)
Theorem no_overflow c ops : cfg_ok c ->
  forallb (fun e => negb (bad1 e)) (outs (init c) ops) = true /\
  let s := run c ops in
  est (epa s) = true /\ est (epb s) = true /\ flagged s = false /\
  forallb notF (wab s ++ wba s ++ sq (epa s) ++ sq (epb s)) = true.
Proof.
  intro Hc. split.
  - unfold run. assert (H := inv_init c Hc). revert H. generalize (init c).
    induction ops as [|o ops IH]; intros s H; cbn [outs forallb]; [reflexivity|].
    pose proof (inv_step s o H) as H'. rewrite (IH _ H'), andb_true_r.
    destruct (bad1 (o, snd (step_full s o))) eqn:E; [|reflexivity].
    apply bad_step in E. rewrite (inv_unflagged _ H') in E. discriminate.
  - intro s. pose proof (inv_reachable c ops Hc) as HI. fold s in HI.
    destruct (HI A) as (_ & Ea & Ia & Fa). destruct (HI B) as (_ & Eb & Ib & Fb). cbn [get_ep get_w] in *.
    repeat split; try assumption; [apply inv_unflagged, HI|].
    rewrite !forallb_app. rewrite !andb_true_iff. repeat split; apply forallb_forall; intros p Hp.
    + rewrite Forall_forall in Fa. apply Fa, Hp.
    + rewrite Forall_forall in Fb. apply Fb, Hp.
    + rewrite Forall_forall in Ia. specialize (Ia p Hp). destruct p; try discriminate; reflexivity.
    + rewrite Forall_forall in Ib. specialize (Ib p Hp). destruct p; try discriminate; reflexivity.
Qed.

(* messages larger than the connection MIU (= the peer's receive MIU) are refused with EMSGSIZE
   and nothing changes; all others are accepted exactly when the window is open *)
Theorem emsgsize c ops sd m : cfg_ok c ->
  let s := run c ops in
  smiu (get_ep s sd) = rmiu (get_ep s (other sd)) /\
  (smiu (get_ep s sd) < len m -> step_full s (Send sd m) = (s, OSend (Err (LlcpError EMSGSIZE)))) /\
  (len m <= smiu (get_ep s sd) ->
     snd (step_full s (Send sd m)) = OSend (Ok true) \/
     (step_full s (Send sd m) = (s, OSend (Err (LlcpError EWOULDBLOCK))) /\
      len (accepted sd (outs (init c) ops)) - gSA (get_g s sd) = rwl (get_ep s (other sd)))).
Proof.
  intros Hc s. subst s. destruct (inv_reachable c ops Hc sd) as (HD & Ex & _). unfold Dir in HD.
  destruct (dir_counters _ _ _ _ _ _ _ _ _ _ _ _ _ _ HD) as (_ & _ & _ & Hslots & _).
  destruct (dir_sender _ _ _ _ _ _ _ _ _ _ _ _ _ _ HD) as (_ & _ & Hrw & _ & Hmiu).
  split; [exact Hmiu|]. unfold step_full, ep_send, send_window_slots. rewrite Ex, <- sent_reach. cbn [negb]. set (s := run c ops) in *.
  split; intro Hm.
  - replace (smiu (get_ep s sd) <? len m) with true by lia. reflexivity.
  - replace (smiu (get_ep s sd) <? len m) with false by lia.
    destruct ((rwr (get_ep s sd) - vs (get_ep s sd) + vsa (get_ep s sd)) mod 16 =? 0) eqn:E.
    + right. split; [reflexivity|lia].
    + left. reflexivity.
Qed.

(* the two window computations of tco.py return the true number of free slots (no wrap-around alias) *)
Theorem window_slots_true c ops sd : cfg_ok c ->
  let s := run c ops in let x := get_ep s sd in let y := get_ep s (other sd) in let g := get_g s sd in
  send_window_slots x = rwl y - (len (sent g) - gSA g) /\
  recv_window_slots y = rwl y - (gR g - gRA g) /\
  0 <= len (sent g) - gSA g <= rwl y /\ 0 <= gR g - gRA g <= rwl y.
Proof.
  intros Hc s x y g. destruct (inv_reachable c ops Hc sd) as (HD & _).
  destruct (dir_counters _ _ _ _ _ _ _ _ _ _ _ _ _ _ HD) as (Hs & Hr & _ & Hss & Hrs & _).
  exact (conj Hss (conj Hrs (conj Hs Hr))).
Qed.
