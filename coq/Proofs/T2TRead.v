(* Type 2 reader: the TLV walk depends only on the bytes it reads; what a reader sees on a memory
   that agrees with a well-formed one up to the NDEF TLV. *)
From Coq Require Import ZArith List Bool Lia ZifyBool.
From NV Require Import Base.Result Base.Bytes Model.TlvMem Model.T2T Proofs.TlvLib.
Import ListNotations.
Open Scope Z_scope.
Ltac Zify.zify_post_hook ::= Z.to_euclidean_division_equations.

Lemma t2_dispatch_3 skip l v : t2_dispatch skip 3 l v = Ok Found. Proof. reflexivity. Qed.

Lemma t2_walk_found : forall fuel em dend skip off inner hw o s v h,
  t2_walk fuel em dend skip off inner hw = Ok (Some (o, s, v, h)) ->
  hw <= h /\ in_skip s o = false /\ exists l e, read_tlv em o s = Ok (3, l, v, e).
Proof.
  induction fuel as [|f IH]; intros em dend skip off inner hw o s v h H; [discriminate|].
  cbn [t2_walk] in H. destruct (negb inner && (dend <=? off)); [discriminate|].
  destruct (in_skip skip off) eqn:Es; [apply IH in H; exact H|].
  destruct (read_tlv em off skip) as [[[[t l] v0] e]| | |] eqn:Er; try discriminate.
  destruct (t2_dispatch skip t l v0) as [[skip'| |]| | |] eqn:Ed; try discriminate.
  - apply IH in H. destruct H as (H1 & H3 & H4). repeat split; auto; lia.
  - injection H as <- <- <- <-. apply (dispatch_found 1048576) in Ed. subst t. repeat split; auto; try lia. eauto.
Qed.

(* the walk depends only on the bytes below its high-water mark and on the NDEF TLV it ends at *)
Lemma t2_walk_reach : forall fuel em1 em2 dend skip off inner hw o s v h l' v' e',
  t2_walk fuel em1 dend skip off inner hw = Ok (Some (o, s, v, h)) ->
  agree_below h em1 em2 ->
  read_tlv em2 o s = Ok (3, l', v', e') ->
  t2_walk fuel em2 dend skip off inner hw = Ok (Some (o, s, v', h)).
Proof.
  induction fuel as [|f IH]; intros em1 em2 dend skip off inner hw o s v h l' v' e' H HA HR; [discriminate|].
  cbn [t2_walk] in *. destruct (negb inner && (dend <=? off)); [discriminate|].
  destruct (in_skip skip off) eqn:Es; [eapply IH; eauto|].
  destruct (read_tlv em1 off skip) as [[[[t l] v0] e]| | |] eqn:Er; try discriminate.
  destruct (t2_dispatch skip t l v0) as [[skip'| |]| | |] eqn:Ed; try discriminate.
  - pose proof (t2_walk_found _ _ _ _ _ _ _ _ _ _ _ H) as (Hm & _).
    destruct HA as [HL HG].
    rewrite (read_tlv_congr em1 em2 off skip t l v0 e Er HL) by (intros; apply HG; lia).
    rewrite Ed. eapply IH; eauto. split; assumption.
  - injection H as <- <- <- <-. rewrite HR. rewrite t2_dispatch_3. reflexivity.
Qed.

Lemma t2_read_inv em L : t2_read em = Ok (Some L) ->
  exists b13 b14 b15,
    rd em 12 = Ok 225 /\ rd em 13 = Ok b13 /\ rd em 14 = Ok b14 /\ rd em 15 = Ok b15 /\ Z.shiftr b13 4 = 1 /\
    l_dend L = b14 * 8 + 16 /\
    t2_walk (S (length em)) em (l_dend L) [] 16 false 16 = Ok (Some (l_off L, l_skip L, l_val L, l_hw L)) /\
    l_cap L = get_capacity (l_dend L) (l_off L) (l_skip L) /\
    l_rd L = (Z.shiftr b15 4 =? 0) /\ l_wr L = (Z.land b15 15 =? 0).
Proof.
  unfold t2_read. intro H.
  destruct (rd em 12) as [b12| | |] eqn:E12; try discriminate.
  destruct (rd em 13) as [b13| | |] eqn:E13; try discriminate.
  destruct (rd em 14) as [b14| | |] eqn:E14; try discriminate.
  destruct (rd em 15) as [b15| | |] eqn:E15; try discriminate.
  destruct (Z.eqb_spec b12 225) as [->|]; [|discriminate]. cbn [negb] in H.
  destruct (Z.eqb_spec (Z.shiftr b13 4) 1) as [Hv|]; [|discriminate]. cbn [negb] in H.
  destruct (t2_walk (S (length em)) em (b14 * 8 + 16) [] 16 false 16) as [[[[[off skip] v] hw]|]| | |] eqn:Ew;
    cbn [bind] in H; try discriminate.
  injection H as <-. cbn [l_off l_skip l_val l_hw l_dend l_cap l_rd l_wr].
  exists b13, b14, b15. repeat split; auto.
Qed.

(* a memory that agrees with em up to the NDEF TLV (and on everything the walk read before it) is
   parsed to the same layout, with whatever value its NDEF TLV holds *)
Lemma t2_read_transfer em em2 L l' v' e' : t2_read em = Ok (Some L) ->
  agree_below (Z.max 16 (l_hw L)) em em2 ->
  read_tlv em2 (l_off L) (l_skip L) = Ok (3, l', v', e') ->
  t2_read em2 = Ok (Some (set_val L v')).
Proof.
  intros H HA HR. destruct (t2_read_inv _ _ H) as (b13 & b14 & b15 & E12 & E13 & E14 & E15 & Hv & Hd & Hw & Hc & Hrd & Hwr).
  destruct HA as [HL HG].
  assert (R : forall a, a < 16 -> rd em2 a = rd em a) by (intros a Ha; apply rd_congr; [congruence | intro; symmetry; apply HG; lia]).
  unfold t2_read. rewrite (R 12), (R 13), (R 14), (R 15), E12, E13, E14, E15 by lia.
  cbn [Z.eqb negb Pos.eqb]. rewrite Hv. cbn [Z.eqb negb Pos.eqb].
  rewrite <- Hd, <- HL.
  rewrite (t2_walk_reach _ em em2 _ _ _ _ _ _ _ _ _ l' v' e' Hw); [| split; [exact HL | intros; apply HG; lia] | exact HR].
  cbn [bind]. unfold set_val. rewrite Hc, Hrd, Hwr. reflexivity.
Qed.

(* ---- the repaired reader: the walk followed by the test that the NDEF TLV lies inside the data area ---- *)
Lemma t2_reader_inv em L : t2_reader em = Ok (Some L) -> t2_read em = Ok (Some L) /\ ndef_fits em L = true.
Proof. unfold t2_reader. destruct (t2_read em) as [[L'|]| | |]; try discriminate.
  destruct (ndef_fits em L') eqn:E; [|discriminate]. intro H. injection H as <-. auto. Qed.
Lemma t2_reader_intro em L : t2_read em = Ok (Some L) -> ndef_fits em L = true -> t2_reader em = Ok (Some L).
Proof. intros H F. unfold t2_reader. rewrite H, F. reflexivity. Qed.
Lemma t2_reader_transfer em em2 L l' v' e' : t2_read em = Ok (Some L) ->
  agree_below (Z.max 16 (l_hw L)) em em2 -> ndef_fits em2 (set_val L v') = true ->
  read_tlv em2 (l_off L) (l_skip L) = Ok (3, l', v', e') ->
  t2_reader em2 = Ok (Some (set_val L v')).
Proof. intros H HA HF HR. apply t2_reader_intro; [eapply t2_read_transfer; eassumption | exact HF]. Qed.
