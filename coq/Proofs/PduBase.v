(* Basic facts used by the LLCP PDU proofs: reading [rd]/[slice] inside pre ++ w ++ post, bit operations on bytes. *)
From Coq Require Import ZArith List Bool Lia ZifyBool.
From NV Require Import Base.Result Base.Bytes Base.PyPrims Model.Pdu.
Import ListNotations.
Open Scope Z_scope.
Ltac Zify.zify_post_hook ::= Z.to_euclidean_division_equations.

Lemma shr2 a : Z.shiftr a 2 = a / 4. Proof. now apply (Z.shiftr_div_pow2 a 2). Qed.
Lemma shr4 a : Z.shiftr a 4 = a / 16. Proof. now apply (Z.shiftr_div_pow2 a 4). Qed.
Lemma shr6 a : Z.shiftr a 6 = a / 64. Proof. now apply (Z.shiftr_div_pow2 a 6). Qed.
Lemma land63 a : Z.land a 63 = a mod 64. Proof. now apply (Z.land_ones a 6). Qed.

Lemma testbit_small b n : 0 <= b -> 0 <= n -> b < 2 ^ n -> Z.testbit b n = false.
Proof.
  intros Hb Hn Hlt. pose proof (Z.testbit_spec' b n Hn) as H.
  rewrite Z.div_small in H by lia. destruct (Z.testbit b n); [cbn in H; discriminate | reflexivity].
Qed.
Lemma lor_shiftl_add a b k : 0 <= k -> 0 <= b < 2 ^ k -> Z.lor (Z.shiftl a k) b = a * 2 ^ k + b.
Proof.
  intros Hk Hb.
  assert (Hl : Z.land (Z.shiftl a k) b = 0).
  { apply Z.bits_inj'. intros n Hn. rewrite Z.land_spec, Z.bits_0.
    destruct (Z.lt_ge_cases n k) as [Hlt|Hge].
    - rewrite Z.shiftl_spec_low by assumption. reflexivity.
    - rewrite (testbit_small b n); [apply andb_false_r | lia | lia |].
      apply Z.lt_le_trans with (2 ^ k); [lia | apply Z.pow_le_mono_r; lia]. }
  rewrite <- Z.lxor_lor by assumption. rewrite <- Z.add_nocarry_lxor by assumption.
  rewrite Z.shiftl_mul_pow2 by assumption. reflexivity.
Qed.
Lemma lor_nibbles a b : 0 <= b < 16 -> Z.lor (Z.shiftl a 4) b = a * 16 + b.
Proof. intro. rewrite lor_shiftl_add by lia. reflexivity. Qed.
Lemma header_value d pt s : 0 <= pt < 16 -> 0 <= s < 64 ->
  Z.lor (Z.lor (Z.shiftl d 10) (Z.shiftl pt 6)) s = d * 1024 + pt * 64 + s.
Proof.
  intros Hp Hs. rewrite (Z.shiftl_mul_pow2 pt 6) by lia.
  rewrite (lor_shiftl_add d (pt * 2 ^ 6) 10) by lia.
  replace (d * 2 ^ 10 + pt * 2 ^ 6) with ((d * 16 + pt) * 2 ^ 6) by lia.
  rewrite <- Z.shiftl_mul_pow2 by lia. rewrite lor_shiftl_add by lia. lia.
Qed.
(* (d0 << 2 | d1 >> 6) & 15 : the PTYPE of a header a, b *)
Lemma ptype_alt a b : 0 <= a < 256 -> 0 <= b < 256 ->
  Z.land (Z.lor (Z.shiftl a 2) (Z.shiftr b 6)) 15 = Z.land (Z.shiftr (a * 256 + b) 6) 15.
Proof.
  intros Ha Hb. rewrite shr6. rewrite lor_shiftl_add by (rewrite ?shr6; lia). rewrite !land15, !shr6. lia.
Qed.

Lemma rd_spec l k : 0 <= k < len l -> rd l k = Some (nth (Z.to_nat k) l 0).
Proof.
  intro H. unfold rd. replace (k <? 0) with false by lia. unfold len in H.
  rewrite (nth_error_nth' l 0) by lia. reflexivity.
Qed.
Lemma rd_none l k : len l <= k -> rd l k = None.
Proof. intro H. pose proof (len_nonneg l). unfold rd. replace (k <? 0) with false by lia.
  apply nth_error_None. unfold len in *. lia. Qed.
Lemma rd_neg l k : k < 0 -> rd l k = None.
Proof. intro. unfold rd. replace (k <? 0) with true by lia. reflexivity. Qed.
Lemma rd_app_mid pre l k : 0 <= k -> rd (pre ++ l) (len pre + k) = rd l k.
Proof.
  intro H. pose proof (len_nonneg pre). unfold rd.
  replace (len pre + k <? 0) with false by lia. replace (k <? 0) with false by lia.
  unfold len. replace (Z.to_nat (Z.of_nat (length pre) + k)) with (length pre + Z.to_nat k)%nat by lia.
  rewrite nth_error_app2 by lia. f_equal. lia.
Qed.
Lemma rd_app_l w post k : k < len w -> rd (w ++ post) k = rd w k.
Proof.
  intro H. unfold rd. destruct (k <? 0) eqn:E; [reflexivity|].
  apply nth_error_app1. unfold len in H. lia.
Qed.
Lemma rd_mid pre w post k : 0 <= k < len w -> rd (pre ++ w ++ post) (len pre + k) = rd w k.
Proof. intro H. rewrite rd_app_mid by lia. apply rd_app_l. lia. Qed.
Lemma rd_cons0 x l : rd (x :: l) 0 = Some x. Proof. reflexivity. Qed.
Lemma rd_consS x l k : 0 < k -> rd (x :: l) k = rd l (k - 1).
Proof. intro H. unfold rd. replace (k <? 0) with false by lia. replace (k - 1 <? 0) with false by lia.
  replace (Z.to_nat k) with (S (Z.to_nat (k - 1))) by lia. reflexivity. Qed.
Lemma rd_byte l k x : bytes_ok l -> rd l k = Some x -> byte_ok x.
Proof.
  intros Hl H. unfold rd in H. destruct (k <? 0); [discriminate|].
  apply nth_error_In in H. unfold bytes_ok in Hl. rewrite Forall_forall in Hl. apply Hl, H.
Qed.

Lemma slice_app_mid {A} (pre l : list A) a b : 0 <= a -> slice (pre ++ l) (len pre + a) (len pre + b) = slice l a b.
Proof.
  intro H. pose proof (len_nonneg pre). rewrite !slice_take_drop by lia. unfold take, drop.
  replace (len pre + b - (len pre + a)) with (b - a) by lia. f_equal.
  unfold len. replace (Z.to_nat (Z.of_nat (length pre) + a)) with (length pre + Z.to_nat a)%nat by lia.
  rewrite skipn_app. rewrite skipn_all2 by lia. cbn [app]. f_equal. lia.
Qed.
Lemma slice_app_l {A} (w post : list A) a b : 0 <= a -> b <= len w -> slice (w ++ post) a b = slice w a b.
Proof.
  intros Ha Hb. rewrite !slice_take_drop by lia. unfold take, drop, len in *.
  rewrite skipn_app, firstn_app. rewrite skipn_length.
  replace (Z.to_nat (b - a) - (length w - Z.to_nat a))%nat with 0%nat by lia.
  rewrite firstn_O, app_nil_r. reflexivity.
Qed.
Lemma slice_mid {A} (pre w post : list A) a b : 0 <= a -> b <= len w ->
  slice (pre ++ w ++ post) (len pre + a) (len pre + b) = slice w a b.
Proof. intros. rewrite slice_app_mid by lia. apply slice_app_l; lia. Qed.
Lemma slice_drop {A} (l : list A) a : 0 <= a -> slice l a (len l) = drop a l.
Proof. intro. rewrite slice_take_drop by lia. unfold take, drop. apply firstn_all2. rewrite skipn_length. unfold len. lia. Qed.
Lemma slice_take {A} (l : list A) b : slice l 0 b = take b l.
Proof. rewrite slice_take_drop by lia. rewrite Z.sub_0_r. reflexivity. Qed.
Lemma drop_0 {A} (l : list A) : drop 0 l = l. Proof. apply Bytes.drop_0. Qed.
Lemma drop_cons {A} (x : A) l n : 0 < n -> drop n (x :: l) = drop (n - 1) l.
Proof. intro. unfold drop. replace (Z.to_nat n) with (S (Z.to_nat (n - 1))) by lia. reflexivity. Qed.
Lemma drop_drop {A} (l : list A) a b : 0 <= a -> 0 <= b -> drop a (drop b l) = drop (a + b) l.
Proof. intros. rewrite Z.add_comm. now apply Bytes.drop_drop. Qed.

Lemma byte_of (x : Z) l : bytes_ok (x :: l) -> 0 <= x < 256.
Proof. intro H. apply bytes_ok_cons in H. apply H. Qed.
Lemma bytes_tl (x : Z) l : bytes_ok (x :: l) -> bytes_ok l.
Proof. intro H. apply bytes_ok_cons in H. apply H. Qed.
Lemma bytes_ok2_inv (a b : Z) l : bytes_ok (a :: b :: l) -> 0 <= a < 256 /\ 0 <= b < 256 /\ bytes_ok l.
Proof. intro H. exact (conj (byte_of _ _ H) (conj (byte_of _ _ (bytes_tl _ _ H)) (bytes_tl _ _ (bytes_tl _ _ H)))). Qed.
Lemma bytes_ok4_inv (a b c d : Z) l : bytes_ok (a :: b :: c :: d :: l) ->
  0 <= a < 256 /\ 0 <= b < 256 /\ 0 <= c < 256 /\ 0 <= d < 256 /\ bytes_ok l.
Proof.
  intro H. destruct (bytes_ok2_inv _ _ _ H) as (Ha & Hb & H'). destruct (bytes_ok2_inv _ _ _ H') as (Hc & Hd & Hl).
  exact (conj Ha (conj Hb (conj Hc (conj Hd Hl)))).
Qed.

Lemma split_window (data : list Z) off size : 0 <= off -> 0 <= size -> off + size <= len data ->
  exists pre w post, data = pre ++ w ++ post /\ len pre = off /\ len w = size.
Proof.
  intros Ho Hs Hl. exists (take off data), (take size (drop off data)), (drop size (drop off data)).
  split; [rewrite take_drop, take_drop; reflexivity|].
  split; [apply len_take; lia|]. apply len_take. rewrite len_drop by lia. lia.
Qed.
(* the window that starts n elements behind the two-element head of the present one *)
Lemma rewindow {A} (pre : list A) x y rest post n :
  pre ++ (x :: y :: rest) ++ post = ((pre ++ [x; y]) ++ take n rest) ++ drop n rest ++ post.
Proof. rewrite <- !app_assoc. cbn [app]. rewrite (app_assoc (take n rest)), take_drop. reflexivity. Qed.
Lemma len2 {A} (a b : A) l : len (a :: b :: l) = 2 + len l. Proof. rewrite !len_cons. lia. Qed.
