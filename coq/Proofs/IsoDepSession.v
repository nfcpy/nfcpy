(* ISO-DEP: sessions.  The APDUs of a list are exchanged one after the other on the same tag object and card,
   all rounds drawing their fates from ONE script (each exchange continues where the previous one stopped).
   As long as every exchange so far returned a value the per-exchange theorems chain: [in_step] is
   re-established by every Ok.  Nothing is claimed after the first exchange that fails - that is the known
   finding, and [session_boundary] shows it is exactly there that duplicates / stale responses appear. *)
From Coq Require Import ZArith List Bool Lia.
From NV Require Import Base.Result Base.Bytes Model.IsoDep Proofs.IsoDep Proofs.IsoDepSync Proofs.IsoDepBudget Proofs.IsoDepLegacy.
Import ListNotations.
Open Scope Z_scope.

Definition plan_t := list (list Z).

(* one exchange consumes one script entry per block it sends *)
Fixpoint session1 (app : Z -> bytes -> bytes) (fuel : nat) (k : cfg) (mx : option Z) (kc : ccfg) (pn : Z) (c : picc)
                  (cmds : list (bytes * plan_t)) (sc : list (fate * fate)) : list outcome :=
  match cmds with
  | [] => []
  | (cmd, pl) :: t =>
      let o := fst (exchangex app fuel k mx kc cmd pn (set_plan c pl) sc) in      (* n_extra starts at 0 in every exchange *)
      o :: session1 app fuel k mx kc (o_pni o) (o_card o) t (skipn (length (o_blocks o)) sc)
  end.

(* what a session must look like, given the card's log [e] before it *)
Fixpoint sess_spec (app : Z -> bytes -> bytes) (e : list bytes) (cmds : list (bytes * plan_t)) (outs : list outcome) : Prop :=
  match cmds, outs with
  | [], [] => True
  | (cmd, _) :: t, o :: os =>
      match o_res o with
      | Ok r => r = app (len e) cmd                              (* (b) the response to its own command *)
                /\ execs (o_card o) = e ++ [cmd]                  (* (a) executed once, appended to the log *)
                /\ in_step (o_pni o) (o_card o)                   (* (c) in step again *)
                /\ sess_spec app (e ++ [cmd]) t os
      | Err (TagCommandError _) | Hang =>                         (* first failure (Hang: fuel below the bound) *)
          execs (o_card o) = e \/ execs (o_card o) = e ++ [cmd]   (* at most this one command more; no claim beyond *)
      | _ => False                                                (* no raw clf error, no crash *)
      end
  | _, _ => False
  end.

Lemma in_step_set_plan pn c pl : in_step pn c -> in_step pn (set_plan c pl).
Proof. intros (H1 & H2 & H3 & H4 & H5). repeat split; assumption. Qed.

Theorem session_sound app k mx kc : repaired k -> params_ok k kc ->
  forall cmds fuel sc pn c, in_step pn c -> Forall (fun x => 0 < len (fst x)) cmds ->
  sess_spec app (execs c) cmds (session1 app fuel k mx kc pn c cmds sc).
Proof.
  intros Hrep Hpar. induction cmds as [|[cmd pl] t IH]; intros fuel sc pn c Hstep Hall; [exact I|].
  cbn [session1 sess_spec]. inversion Hall as [|x l Hc Ht]; subst. cbn [fst] in Hc.
  pose proof (in_step_set_plan pn c pl Hstep) as Hstep'.
  pose proof (exchangex_result_sound app k kc cmd pn (set_plan c pl) Hrep Hpar Hstep' Hc mx fuel sc) as Hs.
  pose proof (exchangex_at_most_once app k kc cmd pn (set_plan c pl) Hrep Hpar Hstep' Hc mx fuel sc) as Ha.
  cbv zeta in Hs, Ha. change (execs (set_plan c pl)) with (execs c) in *.
  unfold response in Hs. change (execs (set_plan c pl)) with (execs c) in Hs.
  destruct (o_res (fst (exchangex app fuel k mx kc cmd pn (set_plan c pl) sc))) as [r | e | x |] eqn:Er.
  - destruct Hs as (Hr & Hex & Hin). split; [exact Hr|]. split; [exact Hex|]. split; [exact Hin|].
    rewrite <- Hex. apply IH; assumption.
  - destruct e; try contradiction. exact Ha.
  - contradiction.
  - exact Ha.
Qed.

(* flat reading for a session in which every exchange returned a value *)
Fixpoint expected (app : Z -> bytes -> bytes) (e : list bytes) (cmds : list (bytes * plan_t)) : list (res bytes) :=
  match cmds with [] => [] | (cmd, _) :: t => Ok (app (len e) cmd) :: expected app (e ++ [cmd]) t end.

(* the card's log after the session *)
Definition final_log (e0 : list bytes) (outs : list outcome) : list bytes :=
  fold_left (fun _ o => execs (o_card o)) outs e0.

Lemma sess_spec_all_ok app : forall cmds e outs, sess_spec app e cmds outs ->
  Forall (fun o => is_ok (o_res o) = true) outs ->
  map o_res outs = expected app e cmds /\ final_log e outs = e ++ map fst cmds.
Proof.
  induction cmds as [|[cmd pl] t IH]; intros e outs Hs Hok; destruct outs as [|o os]; cbn [sess_spec] in Hs; try contradiction.
  - split; [reflexivity | cbn; rewrite app_nil_r; reflexivity].
  - inversion Hok as [|x l Ho Hos]; subst. destruct (o_res o) as [r | | |] eqn:Er; try discriminate.
    destruct Hs as (Hr & Hex & Hin & Hrest). destruct (IH _ _ Hrest Hos) as [H1 H2].
    split; [cbn [map expected]; rewrite Er, Hr, H1; reflexivity|].
    unfold final_log in *. cbn [fold_left]. rewrite Hex, H2. cbn [map fst]. rewrite <- app_assoc. reflexivity.
Qed.

(* every exchange returned a value: the log is exactly the commands, once each, in order,
   and every value is the response to its own command *)
Theorem session_all_ok app k mx kc : repaired k -> params_ok k kc ->
  forall cmds fuel sc pn c, in_step pn c -> Forall (fun x => 0 < len (fst x)) cmds ->
  let outs := session1 app fuel k mx kc pn c cmds sc in
  Forall (fun o => is_ok (o_res o) = true) outs ->
  map o_res outs = expected app (execs c) cmds /\ final_log (execs c) outs = execs c ++ map fst cmds.
Proof.
  intros Hrep Hpar cmds fuel sc pn c Hstep Hall. cbv zeta. intro Hok.
  apply (sess_spec_all_ok app cmds (execs c) _ (session_sound app k mx kc Hrep Hpar cmds fuel sc pn c Hstep Hall) Hok).
Qed.

(* the boundary: retry limits n_nak = n_ack = 1; the first exchange fails (response and the answer to R(NAK) lost); the session theorem
   holds and claims nothing beyond; the NEXT exchange, one lost block, executes its APDU twice (known finding) *)
Definition boundary_cmds : list (bytes * plan_t) := [([255; 1; 0; 5], []); ([255; 2; 0; 5], [])].
Definition boundary_script : list (fate * fate) := [(FD, FL); (FD, FL); (FD, FL)].
Definition boundary_session : list outcome :=
  session1 demo_app 50 k_repaired (Some MAX_EXTRA_BLOCKS) kc16 0 (picc_init []) boundary_cmds boundary_script.
Lemma session_boundary :
  sess_spec demo_app [] boundary_cmds boundary_session /\
  map o_res boundary_session = [Err (TagCommandError E_TIMEOUT); Ok (demo_app 2 [255; 2; 0; 5])] /\
  map (fun o => execs (o_card o)) boundary_session = [[[255; 1; 0; 5]]; [[255; 1; 0; 5]; [255; 2; 0; 5]; [255; 2; 0; 5]]].
Proof.
  split.
  - assert (H1 : repaired k_repaired) by (split; reflexivity).
    assert (H2 : params_ok k_repaired kc16) by (unfold params_ok; cbn; lia).
    assert (H3 : in_step 0 (picc_init [])) by (unfold in_step, bit; cbn; repeat split; auto).
    assert (H4 : Forall (fun x : bytes * plan_t => 0 < len (fst x)) boundary_cmds) by (repeat constructor).
    exact (session_sound demo_app k_repaired (Some MAX_EXTRA_BLOCKS) kc16 H1 H2 boundary_cmds 50%nat boundary_script 0 (picc_init []) H3 H4).
  - vm_compute. split; reflexivity.
Qed.

(* non-vacuity: three exchanges (20-byte command and response chained over FSC 16; a short one; a 30-byte response
   with S(WTX)), one script with a single faulty round (the second block of the first command is lost), retry limits 3 *)
Definition nvs_cmds : list (bytes * plan_t) :=
  [(nv_cmd, []); ([255; 9; 0; 3], []); ([255; 3; 0; 30], [[]; [5]])].
Definition nvs_script : list (fate * fate) := [(FD, FD); (FL, FD)].
Definition nvs_session : list outcome := session1 demo_app 900 k_nv (Some MAX_EXTRA_BLOCKS) kc16 0 (picc_init []) nvs_cmds nvs_script.
Lemma nvs_run :
  map o_res nvs_session = [Ok (demo_app 0 nv_cmd); Ok (demo_app 1 [255; 9; 0; 3]); Ok (demo_app 2 [255; 3; 0; 30])] /\
  final_log [] nvs_session = [nv_cmd; [255; 9; 0; 3]; [255; 3; 0; 30]] /\
  map (fun o => length (o_blocks o)) nvs_session = [5%nat; 1%nat; 4%nat].
Proof. vm_compute. repeat split. Qed.

(* non-vacuity of the per-exchange theorems with budget: the exchange of [nv_run] under the budget 65538, what it needs
   of the budget (2 S(WTX) + 1 chained response block, 4 faulty rounds in the script), and the same exchange
   under a budget of 2: the documented error, the APDU still executed once *)
Lemma nvx_run :
  need_extra demo_app kc16 nv_cmd nv_card = 3 /\ faults nv_script = 4 /\
  (let o := exchangex demo_app 900 k_nv (Some MAX_EXTRA_BLOCKS) kc16 nv_cmd 0 nv_card nv_script in
   o_res (fst o) = Ok (demo_app 0 nv_cmd) /\ execs (o_card (fst o)) = [nv_cmd] /\ snd o = 3) /\
  (let o := exchangex demo_app 900 k_nv (Some 2) kc16 nv_cmd 0 nv_card nv_script in
   o_res (fst o) = Err (TagCommandError E_PROTOCOL) /\ execs (o_card (fst o)) = [nv_cmd]).
Proof. vm_compute. repeat split. Qed.
