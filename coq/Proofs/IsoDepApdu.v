(* Type4Tag.send_apdu on top of the ISO-DEP exchange: header/Lc/Le encoding and status word
   handling never turn a sound exchange result into a wrong value. *)
From Coq Require Import ZArith List Bool Lia ZifyBool.
From NV Require Import Base.Result Base.Bytes Model.IsoDep Proofs.IsoDep Proofs.IsoDepSync Proofs.IsoDepBudget.
Import ListNotations.
Open Scope Z_scope.

Lemma last2_split (a : bytes) : 2 <= len a -> exists s1 s2, last2 a = [s1; s2] /\ a = but_last2 a ++ [s1; s2].
Proof.
  intro H. unfold last2, but_last2.
  pose proof (firstn_skipn (length a - 2) a) as Hs.
  assert (Hl : length (skipn (length a - 2) a) = 2%nat) by (rewrite skipn_length; unfold len in H; lia).
  destruct (skipn (length a - 2) a) as [|s1 [|s2 [|s3 t]]]; cbn in Hl; try lia.
  exists s1, s2. split; [reflexivity | symmetry; exact Hs].
Qed.

(* the status word match of send_apdu as a test *)
Lemma apdu_finish_status (full : bytes) s1 s2 : 2 <= len full -> last2 full = [s1; s2] ->
  apdu_finish true (Ok full) =
  if (s1 =? 144) && (s2 =? 0) then Ok (but_last2 full) else Err (TagCommandError (s1 * 256 + s2)).
Proof.
  intros H Hl. unfold apdu_finish, bind. replace (len full <? 2) with false by lia. rewrite Hl.
  (* the pattern [144; 0] of apdu_finish is a match on the binary digits of s1 *)
  destruct s1 as [|p|p]; try reflexivity. do 8 (destruct p as [p|p|]; try reflexivity). destruct s2; reflexivity.
Qed.

Lemma apdu_finish_ok check full r : apdu_finish check (Ok full) = Ok r ->
  if check then full = r ++ [144; 0] else full = r.
Proof.
  destruct check.
  - destruct (len full <? 2) eqn:E; [unfold apdu_finish, bind; rewrite E; discriminate|].
    destruct (last2_split full) as (s1 & s2 & Hl & Hs); [lia|]. rewrite (apdu_finish_status full s1 s2) by (lia || assumption).
    destruct ((s1 =? 144) && (s2 =? 0)) eqn:Es; [|discriminate].
    intro H. inversion H; subst r. replace 144 with s1 by lia. replace 0 with s2 by lia. exact Hs.
  - unfold apdu_finish, bind. destruct (len full <? 2); [discriminate|]. intro H. inversion H. reflexivity.
Qed.

Lemma apdu_finish_cases check r0 :
  match r0 with Ok _ | Err (TagCommandError _) => True | _ => False end ->
  match apdu_finish check r0 with Ok _ | Err (TagCommandError _) => True | _ => False end.
Proof.
  destruct r0 as [full | e | x |]; try contradiction; intro H; [|destruct e; try contradiction; exact I].
  destruct check, (len full <? 2) eqn:E; try (unfold apdu_finish, bind; rewrite E; exact I).
  destruct (last2_split full) as (s1 & s2 & Hl & _); [lia|]. rewrite (apdu_finish_status full s1 s2) by (lia || assumption).
  destruct ((s1 =? 144) && (s2 =? 0)); exact I.
Qed.

Lemma apdu_build_len cla ins p1 p2 data mrl a : apdu_build cla ins p1 p2 data mrl = Ok a -> 0 < len a.
Proof.
  unfold apdu_build. destruct ((0 <? len data) && (255 <? len data)); [discriminate|].
  destruct (negb (mrl =? 0) && (256 <? mrl)); [discriminate|].
  intro H. inversion H. rewrite !len_cons. 
  match goal with |- context [len ?l] => pose proof (len_nonneg l) end. lia.
Qed.

Lemma apdu_build_cases cla ins p1 p2 data mrl :
  (exists a, apdu_build cla ins p1 p2 data mrl = Ok a) \/ apdu_build cla ins p1 p2 data mrl = Err ValueError.
Proof.
  unfold apdu_build. destruct ((0 <? len data) && (255 <? len data)); [right; reflexivity|].
  destruct (negb (mrl =? 0) && (256 <? mrl)); [right; reflexivity|]. left; eauto.
Qed.

Theorem send_apdu_sound app k mx kc cla ins p1 p2 data mrl check pn c :
  repaired k -> params_ok k kc -> in_step pn c ->
  forall fuel sc, let o := send_apdux app fuel k mx kc cla ins p1 p2 data mrl check pn c sc in
  match apdu_build cla ins p1 p2 data mrl with
  | Ok a =>
      (execs (o_card o) = execs c \/ execs (o_card o) = execs c ++ [a]) /\
      match o_res o with
      | Ok r => execs (o_card o) = execs c ++ [a] /\ in_step (o_pni o) (o_card o) /\
                (if check then response app c a = r ++ [144; 0] else response app c a = r)
      | Err (TagCommandError _) => True
      | Hang => Z.of_nat fuel < fuel_bound app k a (execs c) c
      | _ => False
      end
  | _ => o_res o = Err ValueError /\ o_card o = c /\ o_blocks o = []      (* documented argument check, nothing sent *)
  end.
Proof.
  intros Hrep Hpar Hstep fuel sc. cbv zeta. unfold send_apdux.
  destruct (apdu_build_cases cla ins p1 p2 data mrl) as [[a Ha] | He].
  - rewrite Ha. cbn [o_res o_card o_pni].
    pose proof (apdu_build_len _ _ _ _ _ _ _ Ha) as Hlen.
    split; [apply (exchangex_at_most_once app k kc a pn c Hrep Hpar Hstep Hlen mx fuel sc)|].
    pose proof (exchangex_result_sound app k kc a pn c Hrep Hpar Hstep Hlen mx fuel sc) as Hs. cbv zeta in Hs.
    destruct (o_res (fst (exchangex app fuel k mx kc a pn c sc))) as [full | e | x |] eqn:Er.
    + destruct Hs as (Hfull & Hex & Hin).
      pose proof (apdu_finish_cases check (Ok full) I) as Hc.
      destruct (apdu_finish check (Ok full)) as [r | e | x |] eqn:Ef; try contradiction.
      * apply apdu_finish_ok in Ef. rewrite <- Hfull. split; [assumption|]. split; assumption.
      * destruct e; try contradiction. exact I.
    + destruct e; try contradiction. exact I.
    + contradiction.
    + exact Hs.
  - rewrite He. cbn [o_res o_card o_blocks]. repeat split.
Qed.
