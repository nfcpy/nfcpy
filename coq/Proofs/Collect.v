(* C10 - proofs about the packet collector model (Model/Collect.v): collect is total (no Hang, no Crash) for every state,
   every MIU and both variants (collect_v_total); one invariant/emission lemma (Section Inv), generic in PDU predicates
   P (queued), Q (in a frame) and a socket predicate G: every PDU put into the frame satisfies Q, the state invariant is kept,
   and the information field of the frame is at most the remote MIU (variant [fixed]); its instances collect_bound_ok and
   collect_bound_struct, what send()/sendto() establish (dlc_send_emsgsize, ldl_sendto_emsgsize), refutations for [orig]. *)
From Coq Require Import ZArith List Bool Lia ZifyBool.
From NV Require Import Base.Result Base.Bytes Model.Collect.
Import ListNotations.
Open Scope Z_scope.
Ltac Zify.zify_post_hook ::= Z.to_euclidean_division_equations.

Lemma hsize_range p : 2 <= hsize p <= 3.
Proof. unfold hsize. destruct (numbered (pt p)); lia. Qed.
Lemma plen_ge2 p : 2 <= plen p.
Proof. unfold plen. pose proof (hsize_range p). pose proof (len_nonneg (body p)). lia. Qed.
Lemma plen_set_nr p n : plen (set_nr p n) = plen p.
Proof. reflexivity. Qed.

Lemma agf_info_nil : agf_info [] = 0. Proof. reflexivity. Qed.
Lemma agf_info_cons p l : agf_info (p :: l) = 2 + plen p + agf_info l.
Proof. unfold agf_info. cbn [map]. rewrite sum_cons. lia. Qed.
Lemma agf_info_app a b : agf_info (a ++ b) = agf_info a + agf_info b.
Proof. unfold agf_info. rewrite map_app, sum_app. reflexivity. Qed.
Lemma agf_info_snoc a p : agf_info (a ++ [p]) = agf_info a + 2 + plen p.
Proof. rewrite agf_info_app, agf_info_cons, agf_info_nil. lia. Qed.
Lemma agf_info_nonneg l : 0 <= agf_info l.
Proof. induction l as [|p l IH]; [rewrite agf_info_nil; lia|]. rewrite agf_info_cons. pose proof (plen_ge2 p). lia. Qed.
Lemma agf_len_snoc a p : agf_len (a ++ [p]) = agf_len a + 2 + plen p.
Proof. unfold agf_len. rewrite agf_info_snoc. lia. Qed.
Lemma agf_info_in p l : In p l -> 2 + plen p <= agf_info l.
Proof.
  induction l as [|q l IH]; [intros []|]. intros [->|H]; rewrite agf_info_cons.
  - pose proof (agf_info_nonneg l). lia.
  - specialize (IH H). pose proof (plen_ge2 q). lia.
Qed.

Ltac lnil := repeat match goal with
  | |- context[len (@nil ?A)] => change (len (@nil A)) with 0
  | H : context[len (@nil ?A)] |- _ => change (len (@nil A)) with 0 in H end.

Lemma req_loop_total n : forall q taken miu, (n <= length q)%nat ->
  exists tq rq m, req_loop n q taken miu = Ok (tq, rq, m).
Proof.
  induction n as [|n IH]; intros q taken miu Hn; cbn [req_loop]; [eauto|].
  destruct q as [|r rest]; [cbn in Hn; lia|].
  destruct (3 + len (snd r) >? miu); apply IH; cbn [length] in *; [rewrite app_length; cbn [length]; lia | lia].
Qed.

Lemma sd_dequeue_total thr miu d : exists d' r, sd_dequeue thr miu d = Ok (d', r).
Proof.
  unfold sd_dequeue.
  assert (H : exists d' r,
    (let '(t, rest, m1) := take_res thr (sdres d) miu in
     do x <- req_loop (length (sdreq d)) (sdreq d) [] m1;
     let '(tq, restq, _) := x in Ok (mkSd rest restq (dmpdu d), Some (snl_pdu t tq))) = Ok (d', r)).
  { destruct (take_res thr (sdres d) miu) as [[t rest] m1].
    destruct (req_loop_total (length (sdreq d)) (sdreq d) [] m1 (le_n _)) as (tq & rq & m & E).
    rewrite E. cbn [bind]. eauto. }
  destruct (sdres d) as [|r0 rs]; [destruct (sdreq d) as [|q0 qs]|]; try exact H.
  destruct (dmpdu d) as [|p r]; [eauto|]. destruct (miu >? 0); eauto.
Qed.

Lemma obj_dequeue_total thr miu icv o : exists o' r, obj_dequeue thr miu icv o = Ok (o', r).
Proof.
  destruct o as [a|d]; cbn [obj_dequeue].
  - destruct (sap_dequeue miu icv a) as [a' r]. eauto.
  - destruct (sd_dequeue_total thr miu d) as (d' & r & E). rewrite E. cbn [bind]. eauto.
Qed.

Lemma first_pass_total c thr b miu l : exists l' r, first_pass c thr b miu l = Ok (l', r).
Proof.
  induction l as [|o l IH]; cbn [first_pass]; [eauto|].
  destruct IH as (l' & r & E).
  destruct (Bool.eqb (skind_eqb (obj_mode o) Raw) b).
  - destruct (obj_dequeue_total thr miu 0 o) as (o' & y & Eo). rewrite Eo. cbn [bind].
    destruct y; [eauto|]. rewrite E. cbn [bind]. eauto.
  - rewrite E. cbn [bind]. eauto.
Qed.

Lemma phase1_total c thr miu l : exists l' r, phase1 c thr miu l = Ok (l', r).
Proof.
  unfold phase1. destruct (first_pass_total c thr true miu l) as (l1 & y & E). rewrite E. cbn [bind].
  destruct y; [eauto|]. apply first_pass_total.
Qed.

Lemma agg_for_total c thr M icv l : forall agf miu dn, exists l' agf' miu' dn',
  agg_for c thr M icv l agf miu dn = Ok (l', agf', miu', dn') /\
  ((agf' = agf /\ miu' = miu /\ dn' = dn) \/
   (dn' = false /\ miu' = M - agf_len agf' - 3 /\ agf_len agf + 4 <= agf_len agf')).
Proof.
  induction l as [|o l IH]; intros agf miu dn; cbn [agg_for]; [do 4 eexists; split; [reflexivity|left; auto]|].
  destruct (obj_dequeue_total thr miu icv o) as (o' & y & Eo). rewrite Eo. cbn [bind].
  destruct y as [p|].
  - set (q := maybe_encrypt c p). pose proof (agf_len_snoc agf q) as Hs. pose proof (plen_ge2 q) as Hp.
    destruct (M - agf_len (agf ++ [q]) - 3 <? 0) eqn:Em.
    + do 4 eexists. split; [reflexivity|]. right. repeat split; lia.
    + destruct (IH (agf ++ [q]) (M - agf_len (agf ++ [q]) - 3) false) as (l' & a & m & d & E & H).
      rewrite E. cbn [bind]. do 4 eexists. split; [reflexivity|]. right.
      destruct H as [(-> & -> & ->)|(-> & -> & H)]; repeat split; lia.
  - destruct (IH agf miu dn) as (l' & a & m & d & E & H). rewrite E. cbn [bind].
    do 4 eexists. split; [reflexivity|exact H].
Qed.

Lemma agg_loop_total c v M icv fuel : forall l agf miu,
  (0 < fuel)%nat -> M - agf_len agf < Z.of_nat fuel ->
  exists l' agf' miu', agg_loop fuel c v M icv l agf miu = Ok (l', agf', miu').
Proof.
  induction fuel as [|f IH]; intros l agf miu Hf Hm; [lia|]. cbn [agg_loop].
  destruct (agf_guard v && (miu <? 0)); [eauto|].
  destruct (agg_for_total c (sd_thr v) M icv l agf miu true) as (l' & a & m & d & E & H).
  rewrite E. cbn [bind].
  destruct ((m <? 0) || d) eqn:Ec; [eauto|].
  apply orb_false_iff in Ec. destruct Ec as [Em Ed].
  destruct H as [(_ & _ & ->)|(_ & -> & H)]; [discriminate|].
  apply IH; lia.
Qed.

Lemma agg_loop_nonempty c v M icv fuel : forall l a m l' a' m', a <> [] ->
  agg_loop fuel c v M icv l a m = Ok (l', a', m') -> a' <> [].
Proof.
  induction fuel as [|f IH]; intros l a m l' a' m' Ha H; cbn [agg_loop] in H; [discriminate|].
  destruct (agf_guard v && (m <? 0)); [inversion H; subst; exact Ha|].
  destruct (agg_for_total c (sd_thr v) M icv l a m true) as (l1 & a1 & m1 & d1 & E & Hd).
  rewrite E in H. cbn [bind] in H.
  assert (Ha1 : a1 <> []).
  { destruct Hd as [(-> & _)|(_ & _ & Hd)]; [exact Ha|]. intros ->. unfold agf_len in Hd. rewrite agf_info_nil in Hd.
    pose proof (agf_info_nonneg a). lia. }
  destruct ((m1 <? 0) || d1); [inversion H; subst; exact Ha1|]. eapply IH; eauto.
Qed.

Lemma ack_for_nonempty M l : forall a, a <> [] -> snd (ack_for M l a) <> [].
Proof.
  induction l as [|o l IH]; intros a Ha; cbn [ack_for]; [exact Ha|].
  assert (Hgo : forall o', snd (let '(r', a') := ack_for M l a in (o' :: r', a')) <> []).
  { intro o'. specialize (IH a Ha). destruct (ack_for M l a). exact IH. }
  destruct (skind_eqb (obj_mode o) Dlc); [|apply Hgo]. destruct (obj_sendack o) as [o' [q|]]; [|apply Hgo].
  assert (Hq : a ++ [q] <> []) by (destruct a; discriminate).
  destruct (M - agf_len (a ++ [q]) - 3 <? 0); [exact Hq|].
  specialize (IH _ Hq). destruct (ack_for M l (a ++ [q])). exact IH.
Qed.

(* collect() once it has a first PDU p that does not fill the MIU *)
Definition agg_tail (v : variant) (c : cfg) (l2 : list sapobj) (p : pdu) : res (list sapobj * frame) :=
  let M := send_miu c in
  if negb (send_agf c) then Ok (l2, FOne p)
  else
    do z <- agg_loop (collect_fuel c) c v M (cfg_icv c) l2 [p] (M - agf_len [p] - 3);
    let '(l3, agf1, miu1) := z in
    let '(l4, agf2) := if miu1 >=? 0 then ack_for M l3 agf1 else (l3, agf1) in
    match agf2 with [] => Crash IndexErr | [q] => Ok (l4, FOne q) | _ => Ok (l4, FAgf agf2) end.

Lemma collect_v_eq v c st : collect_v v c st =
  do x <- phase1 c (sd_thr v) (send_miu c) st;
  let '(l1, y) := x in
  match y with
  | Some p => if plen p - hsize p >=? send_miu c then Ok (l1, FOne p) else agg_tail v c l1 p
  | None => let '(l2, y2) := ack_pass l1 in match y2 with Some p => agg_tail v c l2 p | None => Ok (l2, FNone) end
  end.
Proof. unfold collect_v. destruct (phase1 c (sd_thr v) (send_miu c) st) as [[l1 [p|]]| | |]; reflexivity. Qed.

Lemma agg_tail_total v c l2 p : exists st' f, agg_tail v c l2 p = Ok (st', f).
Proof.
  unfold agg_tail. destruct (negb (send_agf c)); [eauto|].
  destruct (agg_loop_total c v (send_miu c) (cfg_icv c) (collect_fuel c) l2 [p] (send_miu c - agf_len [p] - 3))
    as (l3 & agf1 & miu1 & El).
  { unfold collect_fuel. lia. }
  { unfold collect_fuel, agf_len. rewrite agf_info_cons, agf_info_nil. pose proof (plen_ge2 p). lia. }
  rewrite El. cbn [bind].
  (* the aggregate is never empty: it starts with p and only grows *)
  assert (H1 : agf1 <> []) by (eapply agg_loop_nonempty; [|exact El]; discriminate).
  assert (H2 : snd (if miu1 >=? 0 then ack_for (send_miu c) l3 agf1 else (l3, agf1)) <> [])
    by (destruct (miu1 >=? 0); [apply ack_for_nonempty|]; exact H1).
  destruct (if miu1 >=? 0 then ack_for (send_miu c) l3 agf1 else (l3, agf1)) as [l4 [|q [|q2 r]]]; [contradiction H2; reflexivity|eauto|eauto].
Qed.

Theorem collect_v_total v c st : exists st' f, collect_v v c st = Ok (st', f).
Proof.
  rewrite collect_v_eq. destruct (phase1_total c (sd_thr v) (send_miu c) st) as (l1 & y & ->). cbn [bind].
  destruct y as [p|].
  - destruct (plen p - hsize p >=? send_miu c); [eauto|apply agg_tail_total].
  - destruct (ack_pass l1) as [l2 [p|]]; [apply agg_tail_total|eauto].
Qed.

Corollary collect_never_hangs c st : collect c st <> Hang.
Proof. destruct (collect_v_total fixed c st) as (st' & f & E). unfold collect. rewrite E. discriminate. Qed.

(* if x returns a value, T holds of it *)
Definition on_ok {X} (T : X -> Prop) (x : res X) : Prop := match x with Ok y => T y | _ => True end.
Lemma on_ok_bind {X Y} (T : X -> Prop) (U : Y -> Prop) (x : res X) (f : X -> res Y) :
  on_ok T x -> (forall y, T y -> on_ok U (f y)) -> on_ok U (bind x f).
Proof. destruct x; cbn [on_ok bind]; auto. Qed.

(* the outcome of a dequeue or sendack step: the new state satisfies I, a PDU handed out satisfies R *)
Definition yields {X} (I : X -> Prop) (R : pdu -> Prop) (x : X * option pdu) : Prop :=
  I (fst x) /\ forall p, snd x = Some p -> R p.
Lemma yields_none {X} (I : X -> Prop) R a : I a -> yields I R (a, None).
Proof. intro Ha. split; [exact Ha|discriminate]. Qed.
Lemma yields_some {X} (I : X -> Prop) (R : pdu -> Prop) a p : I a -> R p -> yields I R (a, Some p).
Proof. intros Ha Hp. split; [exact Ha|]. intros p0 [= <-]. exact Hp. Qed.
Lemma yields_tail {X} (I : X -> Prop) R a l o : I a -> yields (Forall I) R (l, o) -> yields (Forall I) R (a :: l, o).
Proof. intros Ha [Hl Ho]. split; [constructor; assumption|exact Ho]. Qed.
(* a pass over a list that stops at the first element whose step hands out a PDU; the model has three of them,
   each a Fixpoint of its own, so the pass is given by its two defining equations *)
Lemma first_hit_spec {X} (I : X -> Prop) R (step : X -> X * option pdu) (pass : list X -> list X * option pdu) :
  pass [] = ([], None) ->
  (forall s r, pass (s :: r) = let '(s', o) := step s in
                               match o with Some p => (s' :: r, Some p) | None => let '(r', o') := pass r in (s' :: r', o') end) ->
  (forall s, I s -> yields I R (step s)) -> forall l, Forall I l -> yields (Forall I) R (pass l).
Proof.
  intros E0 E1 Hstep. induction 1 as [|s l Is Il IH]; [rewrite E0; apply yields_none; constructor|].
  rewrite E1. destruct (Hstep s Is) as [Is' Ho]. destruct (step s) as [s' [p|]].
  - split; [constructor; assumption|exact Ho].
  - destruct (pass l). apply yields_tail; assumption.
Qed.

(* size a UI / I PDU will have once it is encrypted with an ICV of icv octets *)
Definition esz (icv : Z) (p : pdu) : Z := len (body p) + (if is_ui_i p then icv else 0).
(* the information field collect() may return: the remote MIU; a single encrypted UI / I PDU carries the ICV on top
   ("the receiver must accept them with complete MIU plus ICV size", comment in collect) *)
Definition frame_limit (c : cfg) (f : frame) : Z :=
  send_miu c + match f with FOne p => if is_ui_i p then cfg_icv c else 0 | _ => 0 end.
(* what the theorems assume of the cipher object: encrypt lengthens the data by icv_size octets *)
Definition cipher_ok (c : cfg) : Prop :=
  0 <= cfg_icv c /\ forall k, sec c = Some k -> forall a d, len (encrypt k a d) = len d + icv_size k.

Section Inv.
Variable P : pdu -> Prop.            (* holds of every queued PDU *)
Variable Q : pdu -> Prop.            (* holds of every PDU put into a frame (after encryption) *)
Variable G : skind -> sock -> Prop.
Variable c : cfg.
Hypothesis P_nr : forall s p, G Dlc s -> pt p = PT_I -> P p -> P (set_nr p (rack s)).
Hypothesis P_ack : forall k s, G k s -> P (ack s).
Hypothesis P_snl : forall rs qs, P (snl_pdu rs qs).
Hypothesis G_stable : forall k s s', peer s' = peer s -> addr s' = addr s -> smiu s' = smiu s ->
  (rack s' = rack s \/ rack s' = (rack s + confs s) mod 16) -> G k s -> G k s'.
Hypothesis Hcipher : cipher_ok c.
Hypothesis Q_enc : forall p, P p -> Q (maybe_encrypt c p).
Hypothesis Q_plain : forall p, P p -> is_ui_i p = false -> Q p.

Definition small (p : pdu) : Prop := P p /\ plen p <= 3 /\ is_ui_i p = false.
Definition sock_inv (k : skind) (s : sock) : Prop := Forall P (sq s) /\ G k s /\ (k = Raw -> sq s = []).
Definition sap_inv (a : sap) : Prop := Forall (sock_inv (skd a)) (socks a) /\ Forall small (slist a).
Definition sd_inv (d : sd) : Prop := Forall small (dmpdu d).
Definition obj_inv (o : sapobj) : Prop := match o with SapN a => sap_inv a | SapD d => sd_inv d end.
(* what a dequeue with budget miu and ICV allowance icv may hand out *)
Definition emitted (icv miu : Z) (p : pdu) : Prop := P p /\ (esz icv p <= miu \/ (plen p <= 3 /\ is_ui_i p = false)).

Lemma small_emitted icv miu p : small p -> emitted icv miu p.
Proof. intros [Hp Hs]. split; [exact Hp|right; exact Hs]. Qed.
Lemma ack_small k s : G k s -> small (ack s).
Proof.
  intro Hg. split; [eapply P_ack, Hg|]. unfold ack, plen, hsize, is_ui_i, PT_RNR, PT_RR. cbn [pt body].
  destruct (busy s); split; reflexivity || (cbn; lia).
Qed.

Lemma tco_dequeue_spec m icv q : Forall P q ->
  yields (Forall P) (fun p => P p /\ esz icv p <= m) (tco_dequeue (Some m) icv q).
Proof.
  intro Hq. destruct q as [|p q0]; cbn [tco_dequeue]; [apply yields_none, Hq|].
  inversion Hq as [|? ? Hp Hq0]; subst.
  destruct ((if is_ui_i p then plen p + icv else plen p) - hsize p >? m) eqn:E; [apply yields_none, Hq|].
  apply yields_some; [exact Hq0|]. split; [exact Hp|]. unfold plen in E. unfold esz. destruct (is_ui_i p); lia.
Qed.

Lemma G_ackstate k s : G k s -> G k (ackstate s).
Proof. apply G_stable; cbn; auto. Qed.

Lemma dlc_dequeue_spec miu icv s : sock_inv Dlc s -> yields (sock_inv Dlc) (emitted icv miu) (dlc_dequeue miu icv s).
Proof.
  intros (Hq & Hg & _). unfold dlc_dequeue.
  assert (Hs : forall s', Forall P (sq s') -> G Dlc s' -> sock_inv Dlc s')
    by (intros s' A B; repeat split; [exact A|exact B|discriminate]).
  assert (Hack : forall s', G Dlc s' -> emitted icv miu (ack s')) by (intros s' B; eapply small_emitted, ack_small, B).
  destruct (est s && negb (Bool.eqb (busy_sent s) (busy s))).
  { assert (Hg1 : G Dlc (with_busy_sent s (busy s))) by (revert Hg; apply G_stable; cbn; auto).
    apply yields_some; [apply Hs; assumption|apply Hack, Hg1]. }
  destruct (tco_dequeue_spec miu icv (sq s) Hq) as [Hq' Ho]. destruct (tco_dequeue (Some miu) icv (sq s)) as [q' [p|]]; cbv zeta.
  - destruct (Ho p eq_refl) as (Hp & Hl).
    set (s2 := if pt p =? PT_FRMR then shutdown (with_sq s q') else with_sq s q').
    assert (I2 : Forall P (sq s2) /\ G Dlc s2).
    { unfold s2. destruct (pt p =? PT_FRMR); (split; [|revert Hg; apply G_stable; cbn; auto]); [constructor|exact Hq']. }
    destruct I2 as [A2 B2].
    destruct ((pt p =? PT_I) && est s2) eqn:Ei; [|apply yields_some; [apply Hs; assumption|split; [exact Hp|left; exact Hl]]].
    apply andb_true_iff in Ei. destruct Ei as [Ei _]. apply Z.eqb_eq in Ei.
    set (s3 := if negb (confs s2 =? 0) && negb (rcnt s2 =? rack s2) then ackstate s2 else s2).
    assert (I3 : Forall P (sq s3) /\ G Dlc s3).
    { unfold s3. destruct (negb (confs s2 =? 0) && negb (rcnt s2 =? rack s2)); split; try assumption. apply G_ackstate, B2. }
    destruct I3 as [A3 B3]. apply yields_some; [apply Hs; assumption|]. split; [apply P_nr; assumption|left; exact Hl].
  - destruct (est s && negb (confs s =? 0) && (recv_window_slots s =? 0)).
    + pose proof (G_ackstate _ s Hg) as Hg1. apply yields_some; [apply Hs; assumption|apply Hack, Hg1].
    + apply yields_none, Hs; assumption.
Qed.

Lemma sock_dequeue_spec k miu icv s : sock_inv k s -> yields (sock_inv k) (emitted icv miu) (sock_dequeue k miu icv s).
Proof.
  intro I. destruct k; cbn [sock_dequeue]; [| |apply dlc_dequeue_spec, I]; destruct I as (Hq & Hg & Hr).
  - rewrite (Hr eq_refl). cbn [tco_dequeue]. apply yields_none.
    split; [apply Forall_nil|]. split; [|reflexivity]. revert Hg. apply G_stable; cbn; auto.
  - destruct (tco_dequeue_spec miu icv (sq s) Hq) as [Hq' Ho]. destruct (tco_dequeue (Some miu) icv (sq s)) as [q' o].
    split; [repeat split; [exact Hq'| |discriminate]; revert Hg; apply G_stable; cbn; auto|].
    intros p E. destruct (Ho p E) as [A B]. split; [exact A|left; exact B].
Qed.

Lemma socks_dequeue_spec k miu icv l : Forall (sock_inv k) l ->
  yields (Forall (sock_inv k)) (emitted icv miu) (socks_dequeue k miu icv l).
Proof. apply (first_hit_spec _ _ (sock_dequeue k miu icv)); [reflexivity|reflexivity|apply sock_dequeue_spec]. Qed.

Lemma sap_dequeue_spec miu icv a : sap_inv a -> yields sap_inv (emitted icv miu) (sap_dequeue miu icv a).
Proof.
  intros (Is & Il). unfold sap_dequeue.
  destruct (socks_dequeue_spec (skd a) miu icv (socks a) Is) as [Is' Ho].
  destruct (socks_dequeue (skd a) miu icv (socks a)) as [l' [p|]].
  - split; [split; assumption|exact Ho].
  - inversion Il as [|p r0 Hp Hr]; [apply yields_none; split; [exact Is'|constructor]|].
    apply yields_some; [split; assumption|apply small_emitted, Hp].
Qed.

Definition req_size (l : list (Z * list Z)) : Z := sum (map (fun r => 3 + len (snd r)) l).
Lemma req_size_app a b : req_size (a ++ b) = req_size a + req_size b.
Proof. unfold req_size. rewrite map_app, sum_app. reflexivity. Qed.
Lemma req_size_nonneg l : 0 <= req_size l.
Proof. induction l as [|r l IH]; unfold req_size in *; cbn [map]; [rewrite sum_nil; lia|].
  rewrite sum_cons. pose proof (len_nonneg (snd r)). lia. Qed.

Lemma take_res_spec rs : forall miu,
  let '(t, _, m) := take_res 4 rs miu in m = miu - 4 * len t /\ (t = [] \/ 0 <= m).
Proof.
  induction rs as [|r rs IH]; intro miu; cbn [take_res]; [lnil; split; [lia|auto]|].
  destruct (4 <=? miu) eqn:E; [|lnil; split; [lia|auto]].
  specialize (IH (miu - 4)). destruct (take_res 4 rs (miu - 4)) as [[t0 rest0] m0]. destruct IH as (A & B).
  rewrite len_cons. split; [lia|]. right. destruct B as [->|B]; [lnil; lia|exact B].
Qed.

Lemma req_loop_spec n : forall q taken miu,
  on_ok (fun '(tq, _, m) => m = miu - (req_size tq - req_size taken) /\ (tq = taken \/ 0 <= m)) (req_loop n q taken miu).
Proof.
  induction n as [|n IH]; intros q taken miu; cbn [req_loop]; [split; [lia|auto]|].
  destruct q as [|r rest]; [exact I|].
  destruct (3 + len (snd r) >? miu) eqn:E; [apply IH|].
  specialize (IH rest (taken ++ [r]) (miu - (3 + len (snd r)))).
  destruct (req_loop n rest (taken ++ [r]) (miu - (3 + len (snd r)))) as [[[tq rq] m]| | |]; try exact I.
  destruct IH as (A & B).
  assert (Hr : req_size (taken ++ [r]) = req_size taken + (3 + len (snd r))).
  { rewrite req_size_app. unfold req_size at 2. cbn [map]. rewrite sum_cons, sum_nil. lia. }
  pose proof (len_nonneg (snd r)). split; [lia|]. right. destruct B as [->|B]; lia.
Qed.

Lemma len_concat_res rs : len (concat (map res_tlv rs)) = 4 * len rs.
Proof. induction rs as [|r rs IH]; [reflexivity|]. cbn [map concat]. rewrite len_app, IH, len_cons.
  unfold res_tlv. rewrite !len_cons, len_nil. lia. Qed.
Lemma len_concat_req qs : len (concat (map req_tlv qs)) = req_size qs.
Proof. induction qs as [|r qs IH]; [reflexivity|]. cbn [map concat]. rewrite len_app, IH.
  unfold req_size. cbn [map]. rewrite sum_cons. unfold req_tlv. rewrite len_app, !len_cons, len_nil. lia. Qed.
Lemma snl_body_len rs qs : len (body (snl_pdu rs qs)) = req_size qs + 4 * len rs.
Proof. unfold snl_pdu. cbn [body]. rewrite len_app, len_concat_req, len_concat_res. reflexivity. Qed.

Lemma sd_dequeue_spec icv miu d : sd_inv d -> on_ok (yields sd_inv (emitted icv miu)) (sd_dequeue 4 miu d).
Proof.
  intro Hd. unfold sd_dequeue.
  assert (Hsnl : on_ok (yields sd_inv (emitted icv miu))
    (let '(t, rest, m1) := take_res 4 (sdres d) miu in
     do x <- req_loop (length (sdreq d)) (sdreq d) [] m1;
     let '(tq, restq, _) := x in Ok (mkSd rest restq (dmpdu d), Some (snl_pdu t tq)))).
  { pose proof (take_res_spec (sdres d) miu) as Ht. destruct (take_res 4 (sdres d) miu) as [[t rest] m1]. destruct Ht as (A & B).
    eapply on_ok_bind; [apply req_loop_spec|]. intros [[tq rq] m2] (C & D).
    apply yields_some; [exact Hd|]. split; [apply P_snl|].
    change (req_size []) with 0 in C. unfold esz, plen. rewrite snl_body_len.
    change (is_ui_i (snl_pdu t tq)) with false. change (hsize (snl_pdu t tq)) with 2. cbv iota.
    pose proof (req_size_nonneg tq). pose proof (len_nonneg t).
    destruct D as [->|D].
    - change (req_size []) with 0 in *. destruct B as [->|B]; [right; split; [lnil; lia|reflexivity]|left; lia].
    - left. lia. }
  destruct (sdres d) as [|r0 rs]; [destruct (sdreq d) as [|q0 qs]|]; try exact Hsnl.
  pose proof Hd as H0. unfold sd_inv in H0. destruct (dmpdu d) as [|p r1]; [apply yields_none, Hd|].
  destruct (miu >? 0); [|apply yields_none, Hd]. inversion H0; subst. apply yields_some; [assumption|apply small_emitted; assumption].
Qed.

Lemma obj_dequeue_spec miu icv o : obj_inv o -> on_ok (yields obj_inv (emitted icv miu)) (obj_dequeue 4 miu icv o).
Proof.
  intro I. destruct o as [a|d]; cbn [obj_dequeue].
  - pose proof (sap_dequeue_spec miu icv a I) as H. destruct (sap_dequeue miu icv a). exact H.
  - eapply on_ok_bind; [apply sd_dequeue_spec, I|]. intros [d' r] H. exact H.
Qed.

Lemma dlc_sendack_spec k s : sock_inv k s -> yields (sock_inv k) small (dlc_sendack s).
Proof.
  intros (Hq & Hg & Hr). unfold dlc_sendack.
  destruct (est s && negb (confs s =? 0) && negb (rcnt s =? rack s)); [|apply yields_none; repeat split; assumption].
  pose proof (G_ackstate _ s Hg) as Hg1. apply yields_some; [repeat split; assumption|eapply ack_small, Hg1].
Qed.

Lemma socks_sendack_spec k l : Forall (sock_inv k) l -> yields (Forall (sock_inv k)) small (socks_sendack l).
Proof. apply (first_hit_spec _ _ dlc_sendack); [reflexivity|reflexivity|apply dlc_sendack_spec]. Qed.

Lemma obj_sendack_spec o : obj_inv o -> yields obj_inv small (obj_sendack o).
Proof.
  intro I. destruct o as [a|d]; cbn [obj_sendack]; [|apply yields_none, I].
  destruct I as [Is Il]. destruct (socks_sendack_spec _ _ Is) as [A B]. destruct (socks_sendack (socks a)).
  split; [split; assumption|exact B].
Qed.

Lemma enc_ui_i p : is_ui_i (maybe_encrypt c p) = is_ui_i p.
Proof. unfold maybe_encrypt. destruct (sec c); [|reflexivity]. destruct (is_ui_i p) eqn:E; exact E. Qed.
Lemma enc_hsize p : hsize (maybe_encrypt c p) = hsize p.
Proof. unfold maybe_encrypt. destruct (sec c); [|reflexivity]. destruct (is_ui_i p); reflexivity. Qed.
Lemma enc_body p : len (body (maybe_encrypt c p)) = esz (cfg_icv c) p.
Proof.
  destruct Hcipher as [_ Hl]. unfold maybe_encrypt, esz, cfg_icv. destruct (sec c) as [k|] eqn:Es.
  - destruct (is_ui_i p); cbn [body]; [apply Hl; reflexivity|lia].
  - destruct (is_ui_i p); lia.
Qed.
(* a PDU of the first loop (dequeued with icv_size=0), then encrypted *)
Definition first_ok (miu : Z) (p : pdu) : Prop :=
  Q p /\ len (body p) <= miu + (if is_ui_i p then cfg_icv c else 0).
Lemma enc_first miu p : 1 <= miu -> emitted 0 miu p -> first_ok miu (maybe_encrypt c p).
Proof.
  intros Hm (Hp & H). split; [apply Q_enc, Hp|]. rewrite enc_body, enc_ui_i. unfold esz in *.
  destruct H as [H|[H Hu]].
  - destruct (is_ui_i p); lia.
  - rewrite Hu. unfold plen in H. pose proof (hsize_range p). lia.
Qed.
(* a PDU of the aggregation loop (dequeued with the ICV allowance), then encrypted *)
Lemma enc_agg miu p : emitted (cfg_icv c) miu p ->
  Q (maybe_encrypt c p) /\ (len (body (maybe_encrypt c p)) <= miu \/ plen (maybe_encrypt c p) <= 3).
Proof.
  intros (Hp & H). split; [apply Q_enc, Hp|]. destruct H as [H|[H Hu]].
  - left. rewrite enc_body. exact H.
  - right. unfold plen in *. rewrite enc_hsize, enc_body. unfold esz. rewrite Hu. lia.
Qed.

Lemma first_pass_spec b miu l : 1 <= miu -> Forall obj_inv l ->
  on_ok (yields (Forall obj_inv) (first_ok miu)) (first_pass c 4 b miu l).
Proof.
  intro Hm. induction 1 as [|o l Io Il IH]; cbn [first_pass]; [apply yields_none; constructor|].
  assert (Hgo : forall o', obj_inv o' -> on_ok (yields (Forall obj_inv) (first_ok miu))
                  (do z <- first_pass c 4 b miu l; let '(r', y') := z in Ok (o' :: r', y'))).
  { intros o' Io'. eapply on_ok_bind; [exact IH|]. intros [r' y'] Hz. apply yields_tail; assumption. }
  destruct (Bool.eqb (skind_eqb (obj_mode o) Raw) b); [|apply Hgo, Io].
  eapply on_ok_bind; [apply obj_dequeue_spec, Io|]. intros [o' [p|]] [Io' Hp]; [|apply Hgo, Io'].
  apply yields_some; [constructor; assumption|apply enc_first; auto].
Qed.

Lemma phase1_spec miu l : 1 <= miu -> Forall obj_inv l -> on_ok (yields (Forall obj_inv) (first_ok miu)) (phase1 c 4 miu l).
Proof.
  intros Hm I. unfold phase1. eapply on_ok_bind; [apply first_pass_spec; assumption|].
  intros [l1 [p|]] H; [exact H|]. apply first_pass_spec; [exact Hm|apply H].
Qed.

Lemma ack_pass_spec l : Forall obj_inv l -> yields (Forall obj_inv) small (ack_pass l).
Proof.
  apply (first_hit_spec _ _ (fun o => if skind_eqb (obj_mode o) Dlc then obj_sendack o else (o, None))); [reflexivity| |].
  - intros o r. cbn [ack_pass]. destruct (skind_eqb (obj_mode o) Dlc); reflexivity.
  - intros o Io. destruct (skind_eqb (obj_mode o) Dlc); [apply obj_sendack_spec, Io|apply yields_none, Io].
Qed.

(* the aggregate that began as a0: its PDUs satisfy Q, and once it has grown it fits *)
Definition agg_ok (M : Z) (a0 a : list pdu) : Prop := Forall Q a /\ (a = a0 \/ agf_info a <= M).
(* one more PDU, dequeued while the budget M - len(agf) - 3 was not negative: within the budget, or at most 3 bytes *)
Lemma agg_ok_snoc M a0 a p : agg_ok M a0 a -> 0 <= M - agf_len a - 3 -> Q p ->
  (len (body p) <= M - agf_len a - 3 \/ plen p <= 3) -> agg_ok M a0 (a ++ [p]).
Proof.
  intros [Ha _] Hm Hp H. split; [apply Forall_app; split; [exact Ha|constructor; [exact Hp|constructor]]|right].
  rewrite agf_info_snoc. unfold agf_len in *. pose proof (hsize_range p). destruct H as [H|H]; unfold plen in *; lia.
Qed.

Lemma agg_for_spec M a0 l : forall agf dn, Forall obj_inv l -> agg_ok M a0 agf -> 0 <= M - agf_len agf - 3 ->
  on_ok (fun '(l', agf', miu', _) => Forall obj_inv l' /\ agg_ok M a0 agf' /\ miu' = M - agf_len agf' - 3)
        (agg_for c 4 M (cfg_icv c) l agf (M - agf_len agf - 3) dn).
Proof.
  induction l as [|o l IH]; intros agf dn I Ha H0; cbn [agg_for]; [cbn; auto|].
  inversion I as [|? ? Io Il]; subst.
  eapply on_ok_bind; [apply obj_dequeue_spec, Io|]. intros [o' [p|]] [Io' Hp].
  - destruct (enc_agg _ _ (Hp p eq_refl)) as (Hq & Hsz). set (q := maybe_encrypt c p) in *.
    pose proof (agg_ok_snoc M a0 agf q Ha H0 Hq Hsz) as Ha'.
    destruct (M - agf_len (agf ++ [q]) - 3 <? 0) eqn:Em; [cbn; auto|].
    eapply on_ok_bind; [apply IH; [exact Il|exact Ha'|lia]|]. intros [[[r' a] m] d] (A & B). cbn. auto.
  - eapply on_ok_bind; [apply IH; assumption|]. intros [[[r' a] m] d] (A & B). cbn. auto.
Qed.

Lemma agg_loop_spec M a0 fuel : forall l agf miu, Forall obj_inv l -> agg_ok M a0 agf -> miu = M - agf_len agf - 3 ->
  on_ok (fun '(l', agf', miu') => Forall obj_inv l' /\ agg_ok M a0 agf' /\ miu' = M - agf_len agf' - 3)
        (agg_loop fuel c fixed M (cfg_icv c) l agf miu).
Proof.
  induction fuel as [|f IH]; intros l agf miu Hl Ha Hm; cbn [agg_loop]; [exact I|].
  cbn [agf_guard fixed andb sd_thr]. destruct (miu <? 0) eqn:E0; [cbn; auto|]. subst miu.
  eapply on_ok_bind; [apply agg_for_spec; [exact Hl|exact Ha|lia]|]. intros [[[l1 a1] m1] d1] (A & B & C).
  destruct ((m1 <? 0) || d1); [cbn; auto|]. apply IH; assumption.
Qed.

Lemma ack_for_spec M a0 l : forall agf, Forall obj_inv l -> agg_ok M a0 agf -> 0 <= M - agf_len agf - 3 ->
  let '(l', agf') := ack_for M l agf in Forall obj_inv l' /\ agg_ok M a0 agf'.
Proof.
  induction l as [|o l IH]; intros agf I Ha H0; cbn [ack_for]; [auto|].
  inversion I as [|? ? Io Il]; subst.
  assert (Hgo : forall o', obj_inv o' -> let '(l', agf') := (let '(r', a) := ack_for M l agf in (o' :: r', a)) in
                                        Forall obj_inv l' /\ agg_ok M a0 agf').
  { intros o' Io'. specialize (IH agf Il Ha H0). destruct (ack_for M l agf). destruct IH. auto. }
  destruct (skind_eqb (obj_mode o) Dlc); [|apply Hgo, Io].
  destruct (obj_sendack_spec o Io) as [Io' Hy]. destruct (obj_sendack o) as [o' [p|]]; [|apply Hgo, Io'].
  destruct (Hy p eq_refl) as (Hp & Hl & Hu).
  pose proof (agg_ok_snoc M a0 agf p Ha H0 (Q_plain p Hp Hu) (or_intror Hl)) as Ha'.
  destruct (M - agf_len (agf ++ [p]) - 3 <? 0) eqn:Em; [auto|].
  specialize (IH (agf ++ [p]) Il Ha' ltac:(lia)). destruct (ack_for M l (agf ++ [p])). destruct IH. auto.
Qed.

Definition collect_post (x : list sapobj * frame) : Prop :=
  Forall obj_inv (fst x) /\ Forall Q (frame_pdus (snd x)) /\ frame_info (snd x) <= frame_limit c (snd x).

Lemma post_one l p : Forall obj_inv l -> first_ok (send_miu c) p -> collect_post (l, FOne p).
Proof. intros I [Hp Hl]. split; [exact I|]. split; [constructor; [exact Hp|constructor]|exact Hl]. Qed.

Lemma agg_tail_spec l2 p : Forall obj_inv l2 -> Q p -> len (body p) <= send_miu c ->
  on_ok collect_post (agg_tail fixed c l2 p).
Proof.
  intros I2 Hp Hl. unfold agg_tail. set (M := send_miu c) in *. destruct Hcipher as [Hicv _].
  assert (Hone : forall l, Forall obj_inv l -> collect_post (l, FOne p)).
  { intros l Il. apply post_one; [exact Il|]. split; [exact Hp|]. fold M. destruct (is_ui_i p); lia. }
  destruct (negb (send_agf c)); [apply Hone, I2|].
  assert (H0 : agg_ok M [p] [p]) by (split; [constructor; [exact Hp|constructor]|left; reflexivity]).
  eapply on_ok_bind; [apply (agg_loop_spec M [p]); [exact I2|exact H0|reflexivity]|].
  intros [[l3 agf1] miu1] (I3 & H1 & Hm1).
  assert (Hfin : let '(l4, agf2) := if miu1 >=? 0 then ack_for M l3 agf1 else (l3, agf1) in
                 Forall obj_inv l4 /\ agg_ok M [p] agf2).
  { destruct (miu1 >=? 0) eqn:E; [apply ack_for_spec; [exact I3|exact H1|lia]|auto]. }
  destruct (if miu1 >=? 0 then ack_for M l3 agf1 else (l3, agf1)) as [l4 agf2]. destruct Hfin as (I4 & Hq & Hc).
  destruct agf2 as [|q [|q2 r]]; [exact I| |].
  - destruct Hc as [[= ->]|Hc]; [apply Hone, I4|]. apply post_one; [exact I4|]. inversion Hq; subst. split; [assumption|].
    rewrite agf_info_cons, agf_info_nil in Hc. unfold plen in Hc. pose proof (hsize_range q). fold M. destruct (is_ui_i q); lia.
  - destruct Hc as [[=]|Hc]. split; [exact I4|]. split; [exact Hq|]. unfold frame_limit. cbn [snd frame_info]. fold M. lia.
Qed.

Theorem collect_spec st st' f : 1 <= send_miu c -> Forall obj_inv st -> collect c st = Ok (st', f) ->
  Forall obj_inv st' /\ Forall Q (frame_pdus f) /\ frame_info f <= frame_limit c f.
Proof.
  intros HM I H. change (collect_post (st', f)). change (on_ok collect_post (Ok (st', f))). rewrite <- H. clear H.
  unfold collect. rewrite collect_v_eq. cbn [sd_thr fixed].
  eapply on_ok_bind; [apply phase1_spec; assumption|]. intros [l1 [p|]] [I1 Hy].
  - destruct (Hy p eq_refl) as [Hp Hl]. destruct (plen p - hsize p >=? send_miu c) eqn:Ee; [apply post_one; [exact I1|split; assumption]|].
    apply agg_tail_spec; [exact I1|exact Hp|unfold plen in Ee; lia].
  - destruct (ack_pass_spec l1 I1) as [I2 Hy2]. destruct (ack_pass l1) as [l2 [p|]].
    + destruct (Hy2 p eq_refl) as (Hp & Hl & Hu). apply agg_tail_spec; [exact I2|exact (Q_plain p Hp Hu)|].
      unfold plen in Hl. pose proof (hsize_range p). lia.
    + split; [exact I2|]. split; [constructor|]. unfold frame_limit. cbn [snd frame_info]. lia.
Qed.
End Inv.

Ltac ptc := unfold PT_SYMM, PT_PAX, PT_AGF, PT_UI, PT_CONNECT, PT_DISC, PT_CC, PT_DM, PT_FRMR, PT_SNL, PT_DPS,
                   PT_I, PT_RR, PT_RNR in *.

(* cm dsap ssap = the MIU the peer announced (CONNECT / CC) for the data link connection (dsap, ssap) *)
Definition pay_ok (M : Z) (cm : Z -> Z -> Z) (p : pdu) : Prop :=
  (pt p = PT_UI -> len (body p) <= M) /\ (pt p = PT_I -> len (body p) <= cm (da p) (sa p)).
(* a data link connection never has a larger send MIU than the peer announced *)
Definition conn_ok (cm : Z -> Z -> Z) (k : skind) (s : sock) : Prop := k = Dlc -> smiu s <= cm (peer s) (addr s).

(* queued_ok: every queued UI payload is within the link MIU and every queued I payload within the MIU of its
   connection (ldl_sendto_emsgsize, dlc_send_emsgsize below: this is what sendto()/send() establish); send_list and dmpdu hold only
   3-byte PDUs (they only ever receive DM PDUs); raw access point sockets have nothing queued (the property
   excepts them). *)
Definition queued_ok (M : Z) (cm : Z -> Z -> Z) (st : list sapobj) : Prop :=
  Forall (obj_inv (pay_ok M cm) (conn_ok cm)) st.

Lemma pay_nr M cm s p : conn_ok cm Dlc s -> pt p = PT_I -> pay_ok M cm p -> pay_ok M cm (set_nr p (rack s)).
Proof. intros _ _ H. exact H. Qed.
Lemma pay_ack M cm k s : conn_ok cm k s -> pay_ok M cm (ack s).
Proof. intros _. unfold pay_ok, ack. cbn [pt]. ptc. destruct (busy s); split; intro; discriminate. Qed.
Lemma pay_snl M cm rs qs : pay_ok M cm (snl_pdu rs qs).
Proof. unfold pay_ok, snl_pdu. cbn [pt]. ptc. split; intro; discriminate. Qed.
Lemma conn_stable cm k s s' : peer s' = peer s -> addr s' = addr s -> smiu s' = smiu s ->
  (rack s' = rack s \/ rack s' = (rack s + confs s) mod 16) -> conn_ok cm k s -> conn_ok cm k s'.
Proof. unfold conn_ok. intros -> -> -> _ H. exact H. Qed.

(* the PDUs of a frame: as queued, or - UI / I under secure data transfer - longer by the ICV *)
Definition pay_okx (M x : Z) (cm : Z -> Z -> Z) (p : pdu) : Prop :=
  (pt p = PT_UI -> len (body p) <= M + x) /\ (pt p = PT_I -> len (body p) <= cm (da p) (sa p) + x).
Lemma pay_plain M x cm p : 0 <= x -> pay_ok M cm p -> pay_okx M x cm p.
Proof. intros Hx [A B]. split; intro H; [specialize (A H)|specialize (B H)]; lia. Qed.
Lemma pay_enc M cm c p : cipher_ok c -> pay_ok M cm p -> pay_okx M (cfg_icv c) cm (maybe_encrypt c p).
Proof.
  intros [Hx Hl] Hp. unfold maybe_encrypt, cfg_icv in *. destruct (sec c) as [k|] eqn:Es; [|apply pay_plain; [lia|exact Hp]].
  destruct (is_ui_i p); [|apply pay_plain; assumption].
  destruct Hp as [A B]. unfold pay_okx. cbn [pt da sa body]. rewrite (Hl k eq_refl).
  split; intro H; [specialize (A H)|specialize (B H)]; lia.
Qed.

Theorem collect_bound_ok c cm st st' f : cipher_ok c -> 1 <= send_miu c -> queued_ok (send_miu c) cm st ->
  collect c st = Ok (st', f) ->
  queued_ok (send_miu c) cm st' /\ Forall (pay_okx (send_miu c) (cfg_icv c) cm) (frame_pdus f) /\
  frame_info f <= frame_limit c f.
Proof.
  intros Hc HM I H.
  exact (collect_spec (pay_ok (send_miu c) cm) (pay_okx (send_miu c) (cfg_icv c) cm) (conn_ok cm) c
           (pay_nr _ cm) (pay_ack _ cm) (pay_snl _ cm) (conn_stable cm) Hc
           (fun p Hp => pay_enc _ cm c p Hc Hp) (fun p Hp _ => pay_plain _ _ cm p (proj1 Hc) Hp) st st' f HM I H).
Qed.

(* the structural part alone is enough for the frame bound *)
Definition struct_ok (st : list sapobj) : Prop := Forall (obj_inv (fun _ => True) (fun _ _ => True)) st.
Theorem collect_bound_struct c st st' f : cipher_ok c -> 1 <= send_miu c -> struct_ok st -> collect c st = Ok (st', f) ->
  struct_ok st' /\ frame_info f <= frame_limit c f.
Proof.
  intros Hc HM I0 H.
  destruct (collect_spec (fun _ => True) (fun _ => True) (fun _ _ => True) c (fun _ _ _ _ _ => I) (fun _ _ _ => I) (fun _ _ => I)
              (fun _ _ _ _ _ _ _ _ => I) Hc (fun _ _ => I) (fun _ _ _ => I) st st' f HM I0 H) as (A & _ & B); auto.
Qed.
Lemma cipher_ok_none M a : cipher_ok (mkCfg M a None).
Proof. split; [cbn; lia|intros k [=]]. Qed.
Lemma frame_limit_none M a f : frame_limit (mkCfg M a None) f = M.
Proof. unfold frame_limit, cfg_icv. cbn [send_miu sec]. destruct f as [|p|l]; try destruct (is_ui_i p); lia. Qed.

Lemma ldl_sendto_spec M s msg dest s' : ldl_sendto M s msg dest = Ok s' ->
  len msg <= M /\ sq s' = sq s ++ [mkPdu PT_UI dest (addr s) 0 0 msg] /\ peer s' = peer s /\ addr s' = addr s.
Proof.
  unfold ldl_sendto. cbn [state peer smiu sq addr with_smiu with_sq].
  destruct (state s =? ST_SHUTDOWN); [discriminate|].
  destruct (negb (peer s =? 0) && negb (dest =? peer s)); [discriminate|].
  destruct (len msg >? M) eqn:E; [discriminate|]. intros [= <-]. cbn. repeat split; try reflexivity. lia.
Qed.
Lemma ldl_sendto_emsgsize M s msg dest : M < len msg -> forall s', ldl_sendto M s msg dest <> Ok s'.
Proof. intros H s' E. apply ldl_sendto_spec in E. lia. Qed.

Lemma dlc_send_spec s msg s' : dlc_send s msg = Ok s' ->
  len msg <= smiu s /\ sq s' = sq s ++ [mkPdu PT_I (peer s) (addr s) (scnt s) 0 msg] /\
  peer s' = peer s /\ addr s' = addr s /\ smiu s' = smiu s.
Proof.
  unfold dlc_send. destruct (negb (est s)); [destruct (state s =? ST_CLOSE_WAIT); discriminate|].
  destruct (len msg >? smiu s) eqn:E; [discriminate|].
  destruct (send_window_slots s =? 0); [discriminate|]. intros [= <-]. cbn. repeat split; try reflexivity. lia.
Qed.
Lemma dlc_send_emsgsize s msg : smiu s < len msg -> forall s', dlc_send s msg <> Ok s'.
Proof. intros H s' E. apply dlc_send_spec in E. lia. Qed.

Lemma ldl_sendto_keeps M cm s msg dest s' : sock_inv (pay_ok M cm) (conn_ok cm) Ldl s -> ldl_sendto M s msg dest = Ok s' ->
  sock_inv (pay_ok M cm) (conn_ok cm) Ldl s'.
Proof.
  intros (Hq & _ & _) H. destruct (ldl_sendto_spec _ _ _ _ _ H) as (Hl & Hs & _ & _).
  split; [|split; [intro; discriminate|intro; discriminate]].
  rewrite Hs. apply Forall_app. split; [exact Hq|]. constructor; [|constructor].
  unfold pay_ok. cbn [pt body]. ptc. split; [intros _; exact Hl|intro; discriminate].
Qed.
Lemma dlc_send_keeps M cm s msg s' : sock_inv (pay_ok M cm) (conn_ok cm) Dlc s -> dlc_send s msg = Ok s' ->
  sock_inv (pay_ok M cm) (conn_ok cm) Dlc s'.
Proof.
  intros (Hq & Hg & _) H. destruct (dlc_send_spec _ _ _ H) as (Hl & Hs & Hp & Ha & Hm).
  split; [|split; [|intro; discriminate]].
  - rewrite Hs. apply Forall_app. split; [exact Hq|]. constructor; [|constructor].
    unfold pay_ok. cbn [pt body da sa]. ptc. split; [intro; discriminate|intros _]. specialize (Hg eq_refl). lia.
  - intros _. rewrite Hm, Hp, Ha. apply Hg. reflexivity.
Qed.

(* state level: a successful sendto()/send() on any socket of the controller keeps queued_ok *)
Lemma Forall_mid {A} (I : A -> Prop) a b x y : (I x -> I y) -> Forall I (a ++ x :: b) -> Forall I (a ++ y :: b).
Proof.
  intros Hxy H. apply Forall_app in H. destruct H as [Ha H]. inversion H; subst.
  apply Forall_app. split; [exact Ha|]. constructor; auto.
Qed.
Lemma queued_ok_sock M cm k pre post l1 l2 sl s s' :
  (sock_inv (pay_ok M cm) (conn_ok cm) k s -> sock_inv (pay_ok M cm) (conn_ok cm) k s') ->
  queued_ok M cm (pre ++ SapN (mkSap k (l1 ++ s :: l2) sl) :: post) ->
  queued_ok M cm (pre ++ SapN (mkSap k (l1 ++ s' :: l2) sl) :: post).
Proof. intro H. apply Forall_mid. intros [Is Il]. split; [|exact Il]. revert Is. apply Forall_mid, H. Qed.

Theorem sendto_keeps_queued_ok M cm pre post l1 l2 sl s msg dest s' :
  queued_ok M cm (pre ++ SapN (mkSap Ldl (l1 ++ s :: l2) sl) :: post) -> ldl_sendto M s msg dest = Ok s' ->
  queued_ok M cm (pre ++ SapN (mkSap Ldl (l1 ++ s' :: l2) sl) :: post).
Proof. intros I H. revert I. apply queued_ok_sock. intro Is. eapply ldl_sendto_keeps; eauto. Qed.
Theorem send_keeps_queued_ok M cm pre post l1 l2 sl s msg s' :
  queued_ok M cm (pre ++ SapN (mkSap Dlc (l1 ++ s :: l2) sl) :: post) -> dlc_send s msg = Ok s' ->
  queued_ok M cm (pre ++ SapN (mkSap Dlc (l1 ++ s' :: l2) sl) :: post).
Proof. intros I H. revert I. apply queued_ok_sock. intro Is. eapply dlc_send_keeps; eauto. Qed.
(* llc.connect()/llc.accept(): the send MIU taken from CC/CONNECT (= cm) is clamped to the link MIU *)
Lemma clamp_conn_ok M cm s : smiu s <= cm (peer s) (addr s) -> conn_ok cm Dlc (llc_clamp_miu M s) /\ (smiu (llc_clamp_miu M s) <= M).
Proof. unfold llc_clamp_miu, conn_ok. intro H. destruct (smiu s >? M) eqn:E; cbn [smiu peer addr with_smiu]; (split; [intros _|]); lia. Qed.

(* the pinned code ([orig]) breaks the bound: the two probe witnesses *)
Definition ex_sdres (n : nat) : list (Z * Z) := map (fun i => (Z.of_nat i, 0)) (seq 0 n).
Definition ex_state1 : list sapobj := [SapN (mkSap Raw [] []); SapD (mkSd (ex_sdres 40) [] [])].
Definition ex_ui (n : nat) : pdu := mkPdu PT_UI 16 32 0 0 (repeat 120 n).
Definition ex_ldl (q : list pdu) : sock := mkSock q ST_ESTABLISHED false false 0 0 0 0 0 0 0 128 0 32.
Definition ex_dlc : sock := mkSock [] ST_ESTABLISHED false false 1 1 0 1 0 0 1 128 20 40.
Definition ex_state2 : list sapobj :=
  [SapN (mkSap Raw [] []); SapD (mkSd [] [] []); SapN (mkSap Ldl [ex_ldl [ex_ui 126]] []); SapN (mkSap Dlc [ex_dlc] [])].
Definition info_of (r : res (list sapobj * frame)) : Z := match r with Ok (_, f) => frame_info f | _ => -1 end.

Lemma ex_states_ok : queued_ok 130 (fun _ _ => 128) ex_state1 /\ queued_ok 128 (fun _ _ => 128) ex_state2.
Proof.
  split; unfold queued_ok, ex_state1, ex_state2; repeat constructor; cbn; try discriminate; try lia.
  all: try (intros; discriminate).
Qed.
(* 40 pending SDRES at MIU 130: `while miu_size > 0` packs 33 of them, information field 132 *)
Lemma orig_refuted_sdres : info_of (collect_v orig (mkCfg 130 false None) ex_state1) = 132 /\
                           info_of (collect_v fixed (mkCfg 130 false None) ex_state1) = 128.
Proof. vm_compute. split; reflexivity. Qed.
(* MIU 128, aggregation on: UI with 126 bytes then a "necessary" RR: aggregate of 135 bytes *)
Lemma orig_refuted_agf : info_of (collect_v orig (mkCfg 128 true None) ex_state2) = 135 /\
                         info_of (collect_v fixed (mkCfg 128 true None) ex_state2) = 126.
Proof. vm_compute. split; reflexivity. Qed.
Theorem orig_bound_refuted : exists c cm st st' f, 128 <= send_miu c <= 2175 /\ queued_ok (send_miu c) cm st /\
  collect_v orig c st = Ok (st', f) /\ send_miu c < frame_info f.
Proof.
  destruct (collect_v_total orig (mkCfg 130 false None) ex_state1) as (st' & f & E).
  pose proof (proj1 orig_refuted_sdres) as H. rewrite E in H. cbn [info_of] in H.
  exists (mkCfg 130 false None), (fun _ _ => 128), ex_state1, st', f. cbn [send_miu].
  split; [lia|]. split; [apply ex_states_ok|]. split; [exact E|lia].
Qed.
