(* One protocol step under faults: send_dep_req_recv_dep_res against the Target machine.
   For every script the call either fails (and the target has accepted the request at most
   once) or returns exactly the response the target produced when it accepted the request.

   The retry loops are analysed once (Section Loop), for any request d and any two sets of target states
   I (d may still be pending) and J (d has been accepted, the answer is in the retransmission buffer);
   the information / acknowledge step and the time-out extension handshake are its two instances. *)
From Coq Require Import ZArith List Bool Lia ZifyBool.
From NV Require Import Base.Result Base.Bytes Model.Dep Proofs.DepCodec Proofs.DepTarget Proofs.DepExact.
Import ListNotations.
Open Scope Z_scope.

(* the CommunicationError subclasses that NFC-DEP raises *)
Definition comm (e : err) : Prop := e = TimeoutError \/ e = ProtocolError \/ e = TransmissionError.
Lemma comm_t : comm TimeoutError. Proof. left; reflexivity. Qed.
Lemma comm_p : comm ProtocolError. Proof. right; left; reflexivity. Qed.
Lemma comm_x : comm TransmissionError. Proof. right; right; reflexivity. Qed.
#[export] Hint Resolve comm_t comm_p comm_x : core.

(* fault scripts in which every faulty round is followed by at least two fault free rounds: each lost or
   corrupted frame is the only fault of its protocol step (faulty round, attention round, retransmission) *)
Definition clean (ff : fate * fate) : bool := match ff with (FD, FD) => true | _ => false end.
Fixpoint Sparse (s : list (fate * fate)) : Prop :=
  match s with
  | [] => True
  | ff :: r => if clean ff then Sparse r
               else match r with
                    | f1 :: f2 :: r2 => clean f1 = true /\ clean f2 = true /\ Sparse r2
                    | _ => False
                    end
  end.
Lemma clean_eq ff : clean ff = true -> ff = (FD, FD).
Proof. destruct ff as [[] []]; cbn; congruence. Qed.
Lemma Sparse_tl s : Sparse s -> hd (FD, FD) s = (FD, FD) -> Sparse (tl s).
Proof. destruct s as [|ff r]; [auto|]. cbn. intros H ->. exact H. Qed.
Lemma Sparse_fault s : Sparse s -> clean (hd (FD, FD) s) = false ->
  exists ff r, s = ff :: (FD, FD) :: (FD, FD) :: r /\ Sparse r.
Proof.
  destruct s as [|ff [|f1 [|f2 r]]]; cbn; [discriminate| | |]; intros H E; rewrite E in H; try contradiction.
  destruct H as (C1 & C2 & H). apply clean_eq in C1. apply clean_eq in C2. subst. eauto.
Qed.
(* no response is corrupted (a request that was delivered is never answered by an unreadable frame) *)
Definition NC (s : list (fate * fate)) : Prop := Forall (fun ff => ff <> (FD, FC)) s.
Lemma NC_skipn k s : NC s -> NC (skipn k s).
Proof. unfold NC. revert s. induction k as [|k IH]; intros s H; [exact H|]. destruct s; [constructor|]. inversion H; subst. apply IH. assumption. Qed.

(* scripts on which a time-out extension handshake succeeds: no response is corrupted (an RTOX response to NAK is a
   protocol error) and the time-out covers the largest RTOX value, 59 *)
Definition Calm (timeout : Z) (s : list (fate * fate)) : Prop := NC s /\ ((s = [] /\ 1 <= timeout) \/ 60 <= timeout).
Lemma Calm_skipn timeout k s : Calm timeout s -> Calm timeout (skipn k s).
Proof.
  intros [N T]. split; [apply NC_skipn, N|].
  destruct T as [[-> T]|T]; [left; split; [apply skipn_nil | exact T] | right; exact T].
Qed.

(* what is left of a script is written skipn k of it *)
Lemma skipn_skipn {A} j k (l : list A) : skipn j (skipn k l) = skipn (k + j) l.
Proof. revert l. induction k as [|k IH]; intro l; [reflexivity|]. destruct l; [apply skipn_nil | apply IH]. Qed.

Section Srr.
Variables (ic : icfg) (tc : tcfg).
Hypothesis H106 : ic_106 ic = tc_106 tc.
Hypothesis Hdid : tc_did tc = ic_did ic.
Hypothesis Hmt : 1 <= tc_miu tc /\ tc_miu tc + 3 + b2z (is_some (tc_did tc)) + b2z (is_some (tc_nad tc)) <= 254.
Hypothesis Hmi : 1 <= ic_miu ic /\ ic_miu ic + 3 + b2z (is_some (ic_did ic)) + b2z (is_some (ic_nad ic)) <= 254.

Definition req_ok (d : deppdu) : Prop :=
  dep_wf d /\ did d = ic_did ic /\ nad d = ic_nad ic /\ len (data d) <= ic_miu ic.

Lemma i_dep_ok f p dat : 0 <= f <= 15 -> 0 <= p <= 3 -> len dat <= ic_miu ic -> req_ok (i_dep ic f p dat).
Proof. intros. unfold req_ok, i_dep, dep_wf; cbn. repeat split; try lia; assumption. Qed.

Lemma req_frame d : req_ok d ->
  exists f, encode_frame (ic_106 ic) (enc_pdu (PDepReq d)) = Ok f /\ decode_frame_tgt (ic_106 ic) f = Ok (PDepReq d).
Proof.
  intros (Hw & Hd & Hn & Hl). apply (frame_ok _ (PDepReq d) Hw). cbn [enc_pdu]. rewrite len_enc_dep, Hd, Hn.
  change (len [212; 6]) with 2. lia.
Qed.
Lemma resp_frame r : resp_ok tc r ->
  exists f, encode_frame (tc_106 tc) (enc_pdu (PDepRes r)) = Ok f /\ decode_frame_ini (tc_106 tc) f = Ok (PDepRes r).
Proof.
  intros (Hw & Hd & Hn & Hl). apply (frame_ok _ (PDepRes r) Hw). cbn [enc_pdu]. rewrite len_enc_dep, Hd, Hn.
  change (len [213; 7]) with 2. lia.
Qed.

(* send_req_recv_res for a DEP request q which the target, when the request reaches it, answers with rsp:
   what the call returns and leaves behind, by the fate of the two frames *)
Lemma srr1_dep q timeout w tn rsp : req_ok q -> resp_ok tc rsp ->
  tgt_step tc (w_t w) (PDepReq q) = (tn, Some (PDepRes rsp)) ->
  exists lg,
  srr1 ic tc (PDepReq q) timeout w =
    match hd (FD, FD) (w_script w) with
    | (FD, FD) => (Ok (PDepRes rsp), mkw tn (tl (w_script w)) (w_now w) lg)
    | (FD, FL) => (Err TimeoutError, mkw tn (tl (w_script w)) (w_now w + timeout) lg)
    | (FD, FC) => (Err TransmissionError, mkw tn (tl (w_script w)) (w_now w) lg)
    | _ => (Err TimeoutError, mkw (w_t w) (tl (w_script w)) (w_now w + timeout) lg)
    end.
Proof.
  intros Hq Hr Hs. destruct (req_frame q Hq) as (cmd & Hc & Dc). destruct (resp_frame rsp Hr) as (f & Hf & Df).
  assert (Ha : tgt_absorb tc (w_t w) cmd = (tn, Some f)).
  { unfold tgt_absorb. rewrite <- H106, Dc, Hs, H106, Hf.
    destruct (t_pos (w_t w)) eqn:Epos; try reflexivity.
    unfold tgt_step in Hs. rewrite Epos in Hs. discriminate. }
  unfold srr1, air. rewrite Hc, Ha.
  destruct (hd (FD, FD) (w_script w)) as [[] []]; cbn [fst snd]; try (eexists; reflexivity).
  rewrite H106, Df. eexists; reflexivity.
Qed.

(* ... sorted by the three outcomes the callers branch on *)
Lemma srr1_round q timeout w tn rsp out w1 : req_ok q -> resp_ok tc rsp ->
  tgt_step tc (w_t w) (PDepReq q) = (tn, Some (PDepRes rsp)) ->
  srr1 ic tc (PDepReq q) timeout w = (out, w1) ->
  w_script w1 = tl (w_script w) /\ (w_t w1 = w_t w \/ w_t w1 = tn) /\
  ((out = Ok (PDepRes rsp) /\ w_t w1 = tn /\ w_now w1 = w_now w /\ hd (FD, FD) (w_script w) = (FD, FD)) \/
   (out = Err TransmissionError /\ w_t w1 = tn /\ w_now w1 = w_now w /\ hd (FD, FD) (w_script w) = (FD, FC)) \/
   (out = Err TimeoutError /\ w_now w1 = w_now w + timeout /\ clean (hd (FD, FD) (w_script w)) = false)).
Proof.
  intros Hq Hr Hs H. destruct (srr1_dep q timeout w tn rsp Hq Hr Hs) as (lg & E). rewrite E in H. clear E.
  destruct (hd (FD, FD) (w_script w)) as [[] []]; injection H as <- <-; cbn; auto 10.
Qed.

Lemma srr1_clean q timeout w tn rsp : req_ok q -> resp_ok tc rsp ->
  tgt_step tc (w_t w) (PDepReq q) = (tn, Some (PDepRes rsp)) -> hd (FD, FD) (w_script w) = (FD, FD) ->
  exists w1, srr1 ic tc (PDepReq q) timeout w = (Ok (PDepRes rsp), w1) /\
             w_t w1 = tn /\ w_script w1 = tl (w_script w) /\ w_now w1 = w_now w.
Proof.
  intros Hq Hr Hs Hh. destruct (srr1_dep q timeout w tn rsp Hq Hr Hs) as (lg & E). rewrite E, Hh.
  eexists. repeat split.
Qed.

Definition atn_req : deppdu := i_dep ic F_ATN 0 [].
Definition nak_req (p : Z) : deppdu := i_dep ic F_NAK p [].
Lemma i_dep_nil_ok f p : 0 <= f <= 15 -> 0 <= p <= 3 -> req_ok (i_dep ic f p []).
Proof. intros. apply i_dep_ok; try assumption. change (len (@nil Z)) with 0. lia. Qed.
Lemma atn_req_ok : req_ok atn_req.
Proof. apply i_dep_nil_ok; easy. Qed.
Lemma nak_req_ok p : 0 <= p <= 3 -> req_ok (nak_req p).
Proof. apply i_dep_nil_ok; easy. Qed.

(* the answers request_retransmission accepts for the pending request d *)
Definition nak_ok (r d : deppdu) : Prop := fmt r = F_INF \/ fmt r = F_MORE \/ (fmt r = F_ACK /\ fmt d = F_MORE).

Section Loop.
Variables (I J : tgt -> Prop) (d : deppdu).
Hypothesis Hd : req_ok d.
Hypothesis HJI : forall t, J t -> I t.
Hypothesis HI : forall t, I t -> t_pos t <> TStop /\ I (awake t).
Hypothesis HJ : forall t, J t -> t_pos t <> TListen /\ exists r, t_res t = Some r /\ resp_ok tc r.
Hypothesis Hstep : forall t, I t ->
  exists t' r, tgt_step tc t (PDepReq d) = (t', Some (PDepRes r)) /\ J t' /\ t_res t' = Some r.

Lemma I_req t : I t ->
  exists t' r, tgt_step tc t (PDepReq d) = (t', Some (PDepRes r)) /\ J t' /\ t_res t' = Some r /\ resp_ok tc r.
Proof.
  intro H. destruct (Hstep t H) as (t' & r & Hs & HJ' & Er). destruct (HJ t' HJ') as (_ & r0 & Er0 & Hok).
  rewrite Er in Er0. injection Er0 as <-. eauto 6.
Qed.
Lemma I_atn t : I t -> tgt_step tc t (PDepReq atn_req) = (awake t, Some (PDepRes (atn_res tc))).
Proof. intro H. apply step_atn; [apply HI, H | cbn; symmetry; exact Hdid | reflexivity]. Qed.
Lemma J_nak t r p : J t -> t_res t = Some r -> tgt_step tc t (PDepReq (nak_req p)) = (t, Some (PDepRes r)).
Proof.
  intros H E. rewrite (step_nak tc t (nak_req p)), E; [reflexivity | apply HI, HJI, H | apply HJ, H | cbn; symmetry; exact Hdid | reflexivity].
Qed.

Lemma req_atn_I n : forall rwt deadline w out w', I (w_t w) ->
  req_atn n ic tc rwt deadline w = (out, w') ->
  I (w_t w') /\ w_now w <= w_now w' /\ (out = Ok tt \/ exists e, out = Err e /\ comm e).
Proof.
  induction n as [|n IH]; intros rwt deadline w out w' Hin H; cbn [req_atn] in H.
  - injection H as <- <-. split; [exact Hin|]. split; [lia|]. right; eauto.
  - destruct (Z.min rwt (deadline - w_now w) <=? 0) eqn:Et.
    { injection H as <- <-. split; [exact Hin|]. split; [lia|]. right; eauto. }
    fold atn_req in H. destruct (srr1 ic tc (PDepReq atn_req) (Z.min rwt (deadline - w_now w)) w) as [x w1] eqn:E1.
    destruct (srr1_round _ _ _ _ _ _ _ atn_req_ok (atn_res_ok tc Hmt) (I_atn _ Hin) E1) as (_ & Ht & HC).
    assert (Hin1 : I (w_t w1)) by (destruct Ht as [-> | ->]; [exact Hin | apply HI, Hin]).
    destruct HC as [(-> & _ & En & _)|[(-> & _ & En & _)|(-> & En & _)]].
    1:{ cbn in H. injection H as <- <-. split; [exact Hin1|]. split; [lia|]. left; reflexivity. }
    all: destruct (IH _ _ _ _ _ Hin1 H) as (A & B & C); split; [exact A|]; split; [lia | exact C].
Qed.

(* request_retransmission, entered only after the target has accepted the request *)
Lemma req_nak_J n : forall p ch rwt deadline w out w', J (w_t w) -> 0 <= p <= 3 ->
  req_nak n ic tc p ch rwt deadline w = (out, w') ->
  w_t w' = w_t w /\ w_now w <= w_now w' /\
  ((exists r, out = Ok (PDepRes r) /\ t_res (w_t w) = Some r) \/ exists e, out = Err e /\ comm e).
Proof.
  induction n as [|n IH]; intros p ch rwt deadline w out w' Hin Hp H; cbn [req_nak] in H.
  - injection H as <- <-. split; [reflexivity|]. split; [lia|]. right; eauto.
  - destruct (Z.min rwt (deadline - w_now w) <=? 0) eqn:Et.
    { injection H as <- <-. split; [reflexivity|]. split; [lia|]. right; eauto. }
    destruct (HJ _ Hin) as (_ & r & Er & Hok). fold (nak_req p) in H.
    destruct (srr1 ic tc (PDepReq (nak_req p)) (Z.min rwt (deadline - w_now w)) w) as [x w1] eqn:E1.
    destruct (srr1_round _ _ _ _ _ _ _ (nak_req_ok p Hp) Hok (J_nak _ _ p Hin Er) E1) as (_ & Ht & HC).
    assert (Ht1 : w_t w1 = w_t w) by (destruct Ht; assumption). rewrite <- Ht1 in Hin, Er |- *.
    destruct HC as [(-> & _ & En & _)|[(-> & _ & En & _)|(-> & En & _)]].
    1:{ destruct (fmt r =? F_RTOX); [|destruct (negb ((fmt r =? F_INF) || (fmt r =? F_MORE) || (ch && (fmt r =? F_ACK))))];
          injection H as <- <-; (split; [reflexivity|]; split; [lia|]); [right | right | left]; eauto. }
    all: destruct (IH _ _ _ _ _ _ _ Hin Hp H) as (A & B & C); split; [exact A|]; split; [lia | exact C].
Qed.

Lemma srr_loop_I fuel : forall p rwt deadline w out w', I (w_t w) -> 0 <= p <= 3 -> 1 <= rwt ->
  srr_loop fuel ic tc p (PDepReq d) rwt deadline w = (out, w') ->
  I (w_t w') /\
  ((exists r, out = Ok (PDepRes r) /\ J (w_t w') /\ t_res (w_t w') = Some r) \/ (exists e, out = Err e /\ comm e) \/
   (out = Hang /\ Z.of_nat fuel <= Z.max 0 (deadline - w_now w))).
Proof.
  induction fuel as [|f IH]; intros p rwt deadline w out w' Hin Hp Hrwt H; cbn [srr_loop] in H.
  - injection H as <- <-. split; [exact Hin|]. right; right. split; [reflexivity | lia].
  - destruct (Z.min rwt (deadline - w_now w) <=? 0) eqn:Et.
    { injection H as <- <-. split; [exact Hin|]. right; left; eauto. }
    destruct (I_req _ Hin) as (t' & r & Hs & HJ' & Er & Hok).
    destruct (srr1 ic tc (PDepReq d) (Z.min rwt (deadline - w_now w)) w) as [x w1] eqn:E1.
    destruct (srr1_round _ _ _ _ _ _ _ Hd Hok Hs E1) as (_ & Ht & [(-> & Et1 & _)|[(-> & Et1 & _)|(-> & En & _)]]).
    + injection H as <- <-. rewrite Et1. split; [apply HJI, HJ'|]. left. eauto.
    + rewrite <- Et1 in HJ'. destruct (req_nak_J _ _ _ _ _ _ _ _ HJ' Hp H) as (A & _ & C). rewrite A.
      split; [apply HJI, HJ'|]. destruct C as [(r1 & -> & C)|C]; [left; eauto | right; left; exact C].
    + (* a frame was lost: attention, then the request again *)
      assert (Hin1 : I (w_t w1)) by (destruct Ht as [-> | ->]; [exact Hin | apply HJI, HJ']).
      destruct (req_atn 2 ic tc rwt deadline w1) as [y w2] eqn:Ea.
      destruct (req_atn_I _ _ _ _ _ _ Hin1 Ea) as (A & B & [-> |(e & -> & He)]).
      * destruct (IH _ _ _ _ _ _ A Hp Hrwt H) as (A' & B'). split; [exact A'|].
        destruct B' as [B'|[B'|[B1 B2]]]; [left; exact B' | right; left; exact B' | right; right; split; [exact B1 | lia]].
      * injection H as <- <-. split; [exact A|]. right; left; eauto.
Qed.

Lemma req_atn_clean n rwt deadline w : I (w_t w) -> hd (FD, FD) (w_script w) = (FD, FD) ->
  0 < Z.min rwt (deadline - w_now w) ->
  exists w', req_atn (S n) ic tc rwt deadline w = (Ok tt, w') /\ w_t w' = awake (w_t w) /\
             w_script w' = tl (w_script w) /\ w_now w' = w_now w.
Proof.
  intros Hin Hhd Ht. cbn [req_atn]. replace (Z.min rwt (deadline - w_now w) <=? 0) with false by lia.
  destruct (srr1_clean _ (Z.min rwt (deadline - w_now w)) _ _ _ atn_req_ok (atn_res_ok tc Hmt) (I_atn _ Hin) Hhd) as (w1 & E & A).
  fold atn_req. rewrite E. exists w1. exact (conj eq_refl A).
Qed.

Lemma req_nak_clean n p rwt deadline w r : J (w_t w) -> t_res (w_t w) = Some r -> 0 <= p <= 3 ->
  hd (FD, FD) (w_script w) = (FD, FD) -> 0 < Z.min rwt (deadline - w_now w) -> nak_ok r d ->
  exists w', req_nak (S n) ic tc p (fmt d =? F_MORE) rwt deadline w = (Ok (PDepRes r), w') /\ w_t w' = w_t w /\
             w_script w' = tl (w_script w) /\ w_now w' = w_now w.
Proof.
  intros Hin Er Hp Hhd Ht Hfr. cbn [req_nak]. replace (Z.min rwt (deadline - w_now w) <=? 0) with false by lia.
  destruct (HJ _ Hin) as (_ & r0 & Er0 & Hok). rewrite Er in Er0. injection Er0 as <-.
  destruct (srr1_clean _ (Z.min rwt (deadline - w_now w)) _ _ _ (nak_req_ok p Hp) Hok (J_nak _ _ p Hin Er) Hhd) as (w1 & E & A).
  fold (nak_req p). rewrite E. unfold nak_ok, F_INF, F_MORE, F_ACK in Hfr.
  replace (fmt r =? F_RTOX) with false by (unfold F_RTOX; lia).
  replace ((fmt r =? F_INF) || (fmt r =? F_MORE) || ((fmt d =? F_MORE) && (fmt r =? F_ACK))) with true
    by (unfold F_INF, F_MORE, F_ACK; lia).
  exists w1. exact (conj eq_refl A).
Qed.

Lemma srr_loop_clean fuel p rwt deadline w : I (w_t w) -> hd (FD, FD) (w_script w) = (FD, FD) ->
  0 < Z.min rwt (deadline - w_now w) -> (1 <= fuel)%nat ->
  exists r w', srr_loop fuel ic tc p (PDepReq d) rwt deadline w = (Ok (PDepRes r), w') /\
               J (w_t w') /\ t_res (w_t w') = Some r /\ w_script w' = tl (w_script w) /\ w_now w' = w_now w.
Proof.
  intros Hin Hhd Ht Hf. destruct fuel as [|f]; [lia|]. cbn [srr_loop].
  replace (Z.min rwt (deadline - w_now w) <=? 0) with false by lia.
  destruct (I_req _ Hin) as (t' & r & Hs & HJ' & Er & Hok).
  destruct (srr1_clean _ (Z.min rwt (deadline - w_now w)) _ _ _ Hd Hok Hs Hhd) as (w1 & E & A & B).
  rewrite E. exists r, w1. rewrite A. auto.
Qed.

(* a single fault, followed by two fault free rounds, is recovered: the call returns the response.  A corrupted
   response is recovered only if request_retransmission accepts the retransmitted one (nak_ok) *)
Lemma srr_loop_sparse fuel p rwt deadline w : I (w_t w) -> 0 <= p <= 3 -> Sparse (w_script w) -> 1 <= rwt ->
  (w_script w = [] /\ 1 <= deadline - w_now w) \/ rwt + 1 <= deadline - w_now w -> (2 <= fuel)%nat ->
  (forall t r, J t -> t_res t = Some r -> NC (w_script w) \/ nak_ok r d) ->
  exists r w', srr_loop fuel ic tc p (PDepReq d) rwt deadline w = (Ok (PDepRes r), w') /\ J (w_t w') /\ t_res (w_t w') = Some r /\
               Sparse (w_script w') /\ exists k, w_script w' = skipn k (w_script w).
Proof.
  intros Hin Hp Hsp Hrwt Hdl Hfuel Hfr.
  destruct (clean (hd (FD, FD) (w_script w))) eqn:Ec.
  { apply clean_eq in Ec.
    destruct (srr_loop_clean fuel p rwt deadline w Hin Ec) as (r & w' & E & A & B & C & _); [lia | lia|].
    exists r, w'. rewrite C. repeat split; auto; [apply Sparse_tl; assumption|]. exists 1%nat. destruct (w_script w); reflexivity. }
  destruct (Sparse_fault _ Hsp Ec) as (ff & rest & Esc & Hsp').
  destruct Hdl as [[Hnil _]|Hdl]; [rewrite Hnil in Esc; discriminate|].
  destruct fuel as [|[|f]]; try lia. cbn [srr_loop].
  replace (Z.min rwt (deadline - w_now w) <=? 0) with false by lia.
  destruct (I_req _ Hin) as (t' & r & Hs & HJ' & Er & Hok).
  destruct (srr1 ic tc (PDepReq d) (Z.min rwt (deadline - w_now w)) w) as [x w1] eqn:E1.
  destruct (srr1_round _ _ _ _ _ _ _ Hd Hok Hs E1) as (Es & Ht & [(_ & _ & _ & Eh)|[(-> & Et1 & En & Eh)|(-> & En & _)]]);
    rewrite Esc in Es; cbn [tl] in Es.
  - rewrite Eh in Ec. discriminate.
  - (* the response was corrupted: one retransmission round *)
    rewrite <- Et1 in HJ', Er.
    destruct (Hfr _ _ HJ' Er) as [Hnc|Hk].
    { exfalso. rewrite Esc in Hnc, Eh. inversion Hnc as [|? ? Hh _]. exact (Hh Eh). }
    destruct (req_nak_clean 1 p rwt deadline w1 r HJ' Er Hp) as (w2 & E & A & B & _); [rewrite Es; reflexivity | lia | exact Hk|].
    cbn [is_chained]. exists r, w2. rewrite A, B, Es, Esc. repeat split; auto. exists 2%nat. reflexivity.
  - (* a frame was lost: one attention round, then the request again *)
    assert (Hin1 : I (w_t w1)) by (destruct Ht as [-> | ->]; [exact Hin | apply HJI, HJ']).
    destruct (req_atn_clean 1 rwt deadline w1 Hin1) as (w2 & E & A & B & C); [rewrite Es; reflexivity | lia|].
    rewrite E. assert (Hin2 : I (w_t w2)) by (rewrite A; apply HI, Hin1).
    destruct (srr_loop_clean (S f) p rwt deadline w2 Hin2) as (r2 & w3 & E3 & A3 & B3 & C3 & _); [rewrite B, Es; reflexivity | lia | lia|].
    exists r2, w3. rewrite C3, B, Es, Esc. repeat split; auto. exists 3%nat. reflexivity.
Qed.

(* send_dep_req_recv_dep_res: for every script, and on a script with isolated faults *)
Theorem srr_spec fuel p rwt timeout w out w' : I (w_t w) -> 0 <= p <= 3 -> 1 <= rwt ->
  srr fuel ic tc p d rwt timeout w = (out, w') ->
  I (w_t w') /\
  ((exists r, out = Ok r /\ J (w_t w') /\ t_res (w_t w') = Some r) \/ (exists e, out = Err e /\ comm e) \/
   (out = Hang /\ Z.of_nat fuel <= Z.max 0 timeout)) /\
  (Sparse (w_script w) -> (w_script w = [] /\ 1 <= timeout) \/ rwt + 1 <= timeout -> (2 <= fuel)%nat ->
   (forall t r, J t -> t_res t = Some r -> fmt r <> F_NAK /\ (NC (w_script w) \/ nak_ok r d)) ->
   (exists r, out = Ok r) /\ Sparse (w_script w') /\ exists k, w_script w' = skipn k (w_script w)).
Proof.
  intros Hin Hp Hrwt H. unfold srr in H.
  destruct (srr_loop fuel ic tc p (PDepReq d) rwt (w_now w + timeout) w) as [x w1] eqn:El.
  destruct (srr_loop_I _ _ _ _ _ _ _ Hin Hp Hrwt El) as (A & B).
  split; [|split].
  - destruct B as [(r & -> & _)|[(e & -> & _)|(-> & _)]]; [destruct (fmt r =? F_NAK)| |]; injection H as _ <-; exact A.
  - destruct B as [(r & -> & B1 & B2)|[(e & -> & He)|(-> & B)]]; [destruct (fmt r =? F_NAK)| |]; injection H as <- <-.
    + right; left; eauto.
    + left; eauto.
    + right; left; eauto.
    + right; right. split; [reflexivity | lia].
  - intros Hsp Hto Hfuel Hg. rewrite <- (Z.add_simpl_l (w_now w) timeout) in Hto.
    destruct (srr_loop_sparse fuel p rwt (w_now w + timeout) w Hin Hp Hsp Hrwt Hto Hfuel (fun t r Ht Hr => proj2 (Hg t r Ht Hr)))
      as (r & w2 & E & HJ2 & Er2 & C).
    rewrite E in El. injection El as <- <-. destruct (Hg _ _ HJ2 Er2) as [Hn _].
    replace (fmt r =? F_NAK) with false in H by lia. injection H as <- <-. split; [eauto | exact C].
Qed.
End Loop.

Section Step.
Variables (t0 t1 : tgt) (d r : deppdu).
Hypothesis Hreq : req_ok d.
Hypothesis Hfmt : fmt d = F_INF \/ fmt d = F_MORE \/ fmt d = F_ACK.
Hypothesis HI0 : Tinv tc t0.
Hypothesis Hpos0 : t_pos t0 <> TStop.
Hypothesis Hnew : t_pni t0 <> Some (pni d).
Hypothesis Hfirst : t_pos t0 = TListen \/ t_pos t0 = TFirst -> pni d = 0.
Hypothesis Hacc : t_accept tc t0 d = (t1, Some (PDepRes r)).

Lemma Hdd : did d = tc_did tc. Proof. rewrite Hdid. apply Hreq. Qed.
Lemma Hf3 : fmt d <> F_ATN /\ fmt d <> F_NAK /\ fmt d <> F_RTOX.
Proof. unfold F_INF, F_MORE, F_ACK, F_ATN, F_NAK, F_RTOX in *. lia. Qed.

Lemma t1_facts : resp_ok tc r /\ t_res t1 = Some r /\ t_pni t1 = Some (pni d) /\ t_pos t1 <> TStop /\ t_pos t1 <> TListen.
Proof.
  destruct Hf3 as (_ & _ & H3). exact (accept_emits tc Hmt _ _ _ _ HI0 H3 Hfirst Hacc).
Qed.

(* the states of the target during the step: before the request, after an attention request, after the request *)
Definition InS (t : tgt) : Prop := t = t0 \/ t = awake t0 \/ t = t1.

Lemma InS_I t : InS t -> t_pos t <> TStop /\ InS (awake t).
Proof.
  intros [->|[->| ->]].
  - split; [exact Hpos0 | right; left; reflexivity].
  - rewrite awake_pos_stop, awake_idem. split; [exact Hpos0 | right; left; reflexivity].
  - rewrite awake_not_listen by apply t1_facts. split; [apply t1_facts | right; right; reflexivity].
Qed.
Lemma InS_J t : t1 = t -> t_pos t <> TListen /\ exists r', t_res t = Some r' /\ resp_ok tc r'.
Proof. intros <-. destruct t1_facts as (Hok & Hres & _ & _ & Hl). eauto. Qed.
(* the request is accepted once: a new one by t0 and awake t0, at t1 it is a retransmission *)
Lemma InS_step t : InS t ->
  exists t' r', tgt_step tc t (PDepReq d) = (t', Some (PDepRes r')) /\ t1 = t' /\ t_res t' = Some r'.
Proof.
  destruct Hf3 as (F1 & F2 & F3). destruct t1_facts as (Hok & Hres & Hpni & Hs & Hl).
  intro Hin. exists t1, r. split; [|auto]. destruct Hin as [->|[->| ->]].
  - rewrite (step_new tc t0 d Hpos0 Hdd F1 F2 F3 Hnew). exact Hacc.
  - rewrite (step_new tc (awake t0) d); [rewrite accept_awake; exact Hacc | rewrite awake_pos_stop; exact Hpos0 | exact Hdd | exact F1 | exact F2 | exact F3|].
    unfold awake. destruct (t_pos t0); cbn; exact Hnew.
  - rewrite (step_dup tc t1 d Hs Hdd F1 F2 F3 Hpni), Hres. reflexivity.
Qed.

(* the call fails or returns r, and the target has accepted the request at most once; on a script whose faults
   are isolated it returns r (a corrupted r only if request_retransmission takes its retransmission) *)
Theorem srr_step fuel p rwt timeout w out w' : InS (w_t w) -> 0 <= p <= 3 -> 1 <= rwt ->
  srr fuel ic tc p d rwt timeout w = (out, w') ->
  InS (w_t w') /\
  ((out = Ok r /\ w_t w' = t1) \/ (exists e, out = Err e /\ comm e) \/ (out = Hang /\ Z.of_nat fuel <= Z.max 0 timeout)) /\
  (Sparse (w_script w) -> (w_script w = [] /\ 1 <= timeout) \/ rwt + 1 <= timeout -> (2 <= fuel)%nat ->
   fmt r <> F_NAK -> NC (w_script w) \/ nak_ok r d ->
   out = Ok r /\ Sparse (w_script w') /\ exists k, w_script w' = skipn k (w_script w)).
Proof.
  intros Hin Hp Hrwt H. destruct t1_facts as (_ & Hres & _).
  destruct (srr_spec InS (eq t1) d Hreq (fun t E => or_intror (or_intror (eq_sym E))) InS_I InS_J InS_step
              fuel p rwt timeout w out w' Hin Hp Hrwt H) as (A & B & C).
  assert (B' : (out = Ok r /\ w_t w' = t1) \/ (exists e, out = Err e /\ comm e) \/ (out = Hang /\ Z.of_nat fuel <= Z.max 0 timeout)).
  { destruct B as [(r' & -> & E & Er)|B]; [left | right; exact B]. rewrite <- E, Hres in Er. injection Er as <-. auto. }
  split; [exact A|]. split; [exact B'|]. intros Hsp Hto Hf Hn Hk.
  destruct (C Hsp Hto Hf) as ((r' & E) & C2).
  { intros t r' <- Er. rewrite Hres in Er. injection Er as <-. auto. }
  split; [|exact C2]. destruct B' as [[-> _]|[(e & -> & _)|(-> & _)]]; [reflexivity | discriminate | discriminate].
Qed.

Theorem srr_safe fuel p rwt timeout w out w' : InS (w_t w) -> 0 <= p <= 3 -> 1 <= rwt ->
  srr fuel ic tc p d rwt timeout w = (out, w') ->
  InS (w_t w') /\
  ((out = Ok r /\ w_t w' = t1) \/ (exists e, out = Err e /\ comm e) \/ (out = Hang /\ Z.of_nat fuel <= Z.max 0 timeout)).
Proof.
  intros Hin Hp Hrwt H. destruct (srr_step fuel p rwt timeout w out w' Hin Hp Hrwt H) as (A & B & _). exact (conj A B).
Qed.
End Step.

(* The initiator's side of the phase Rph (Proofs/DepExact.v).  A repeated RTOX request (its answer was lost) is
   taken for the answer to the NEXT pending RTOX response, so one handshake may be skipped; the data are not
   affected. *)
Section Rtox.
Variables (q : Z) (resp : list Z) (rest : list (list Z * list Z)) (out0 : list tres).
Hypothesis Hq : 0 <= q <= 3.
Hypothesis Hresp : resp <> [].

Definition rtox_req (x : Z) : deppdu := i_dep ic F_RTOX 0 [x].
Lemma rtox_req_ok x : req_ok (rtox_req x).
Proof. apply i_dep_ok; unfold F_RTOX; try lia. change (len [x]) with 1. lia. Qed.

(* an RTOX request at a state of the phase: one handshake further (or the response again), never back *)
Lemma Rph_step_rtox m x t : Rph tc q resp rest out0 (S m) t ->
  exists t' r, tgt_step tc t (PDepReq (rtox_req x)) = (t', Some (PDepRes r)) /\ Rph tc q resp rest out0 m t' /\ t_res t' = Some r.
Proof.
  intros [y rt A B C D E F G I|A B C D E F].
  - rewrite (step_rtox tc t (rtox_req x) _ ltac:(rewrite D; discriminate) (eq_sym Hdid) eq_refl E).
    unfold t_accept. rewrite D. cbn [fmt data rtoxres rtox_req i_dep]. change (F_RTOX =? F_RTOX) with true. cbv iota.
    unfold t_app_continue. cbn [t_app t_pni t_pos t_res t_out t_rtx t_act]. rewrite F.
    destruct A as [Ap Ar]. pose proof (Forall_inv_tail G) as G2.
    destruct rt as [|x' rt'].
    + unfold t_start_send. destruct resp as [|b resp'] eqn:Er; [congruence|]. cbn [t_pni]. rewrite B. rewrite <- Er.
      unfold t_emit. cbn [t_pni t_pos t_res t_app t_out t_rtx t_act]. do 2 eexists. split; [reflexivity|]. split; [|reflexivity].
      apply Rph_send; cbn; auto. apply Tinv_mk; [exact Hq | apply (inf_ok tc Hmt q resp Hq)].
    + unfold t_emit. cbn [t_pni t_pos t_res t_app t_out t_rtx t_act]. do 2 eexists. split; [reflexivity|]. split; [|reflexivity].
      apply (Rph_rtox tc q resp rest out0 m _ x' rt'); cbn [t_pni t_pos t_res t_app t_out t_rtx t_act];
        [split; cbn; [exact Ap | intros r0 Hr0; injection Hr0 as <-; apply (rtoxres_ok tc Hmt)]
        | exact B | exact C | reflexivity | reflexivity | reflexivity | exact G2 | cbn [length] in I; lia].
  - exists t, (inf tc q resp). split; [|split; [apply Rph_send; auto | exact E]].
    rewrite (step_rtox tc t (rtox_req x) _ ltac:(rewrite D; discriminate) (eq_sym Hdid) eq_refl E), (proj1 (inf_tests tc q resp)).
    unfold t_resend. rewrite E. reflexivity.
Qed.

(* the RTOX loop of Initiator.exchange with at most n pending handshakes: it fails or returns the response; on a script
   with isolated faults that corrupts no response it returns the response *)
Lemma rtox_loop_spec n : forall fuel p r timeout w out w', Rph tc q resp rest out0 n (w_t w) -> t_res (w_t w) = Some r -> fmt r = F_RTOX ->
  0 <= p <= 3 -> Z.max 0 timeout < Z.of_nat fuel ->
  rtox_loop n fuel ic tc p r timeout w = (out, w') ->
  (((exists e, out = Err e /\ comm e) /\ Rph tc q resp rest out0 n (w_t w')) \/ (out = Ok (inf tc q resp) /\ Rph tc q resp rest out0 0 (w_t w'))) /\
  (Sparse (w_script w) -> Calm timeout (w_script w) ->
   out = Ok (inf tc q resp) /\ Sparse (w_script w') /\ exists k, w_script w' = skipn k (w_script w)).
Proof.
  induction n as [|n IH]; intros fuel p r timeout w out w' HR Er Hf Hp Hfuel H;
    (destruct (Rph_answer tc q resp rest out0 _ _ _ HR Er) as [(x & -> & Hx & Hn)|[-> _]];
       [|exfalso; destruct (inf_fmt tc q resp) as [E|E]; rewrite E in Hf; discriminate]); [lia|].
  cbn [rtox_loop data rtoxres] in H. unfold rt_ok in Hx. replace (negb ((0 <? x) && (x <? 60))) with false in H by lia.
  fold (rtox_req x) in H. destruct (srr fuel ic tc p (rtox_req x) (x * 1) timeout w) as [y w1] eqn:Es.
  destruct (srr_spec (Rph tc q resp rest out0 (S n)) (Rph tc q resp rest out0 n) (rtox_req x) (rtox_req_ok x) (fun t => Rph_mono tc q resp rest out0 n (S n) t (Nat.le_succ_diag_r n))
              (Rph_I tc Hmt q resp rest out0 Hq (S n)) (Rph_J tc Hmt q resp rest out0 Hq n) (Rph_step_rtox n x) fuel p (x * 1) timeout w y w1 HR Hp ltac:(lia) Es) as (A & B & C).
  assert (HG : Sparse (w_script w) -> Calm timeout (w_script w) ->
               (exists r1, y = Ok r1) /\ Sparse (w_script w1) /\ Calm timeout (w_script w1) /\
               exists k, w_script w1 = skipn k (w_script w)).
  { intros Hsp [Hnc Hto]. destruct (C Hsp) as (C1 & C2 & k & C3); [destruct Hto as [Hto|Hto]; [left; exact Hto | right; lia] | lia | |].
    { intros t r1 Ht Hr. destruct (Rph_facts tc Hmt q resp rest out0 Hq _ _ Ht) as (_ & _ & _ & r0 & Er0 & _ & Hnak). rewrite Hr in Er0. injection Er0 as <-. auto. }
    split; [exact C1|]. split; [exact C2|]. split; [rewrite C3; apply Calm_skipn; split; assumption | eauto]. }
  destruct B as [(r1 & -> & B1 & B2)|[(e & -> & He)|(-> & B)]].
  - destruct (fmt r1 =? F_RTOX) eqn:E1.
    + destruct (IH fuel p r1 timeout w1 out w' B1 B2 ltac:(lia) Hp Hfuel H) as (X & Y). split.
      * destruct X as [[X1 X2]|X]; [left; split; [exact X1 | apply (Rph_mono tc q resp rest out0 n); [lia | exact X2]] | right; exact X].
      * intros Hsp Hc. destruct (HG Hsp Hc) as (_ & S1 & C1 & k1 & K1).
        destruct (Y S1 C1) as (Y1 & Y2 & k2 & K2). split; [exact Y1|]. split; [exact Y2|].
        exists (k1 + k2)%nat. rewrite K2, K1. apply skipn_skipn.
    + injection H as <- <-. destruct (Rph_answer tc q resp rest out0 _ _ _ B1 B2) as [(x1 & -> & _)|[-> HR0]]; [discriminate|].
      split; [right; auto|]. intros Hsp Hc. destruct (HG Hsp Hc) as (_ & S1 & _ & K1). auto.
  - injection H as <- <-. split; [left; split; [eauto | exact A]|].
    intros Hsp Hc. destruct (HG Hsp Hc) as ((r1 & E) & _). discriminate.
  - exact (False_ind _ (Z.lt_irrefl _ (Z.lt_le_trans _ _ _ Hfuel B))).
Qed.

(* ... behind any answer of the phase: `if res.pfb.fmt == TimeoutExtension` and the loop of at most three rounds.
   Good scripts: no extension is pending, or a Calm one *)
Lemma after_rtox_spec n fuel p r timeout w out w' : Rph tc q resp rest out0 n (w_t w) -> (n <= 3)%nat -> t_res (w_t w) = Some r ->
  0 <= p <= 3 -> Z.max 0 timeout < Z.of_nat fuel ->
  after_rtox fuel ic tc p r timeout w = (out, w') ->
  (((exists e, out = Err e /\ comm e) /\ Rph tc q resp rest out0 3 (w_t w')) \/ (out = Ok (inf tc q resp) /\ Rph tc q resp rest out0 0 (w_t w'))) /\
  (Sparse (w_script w) -> r = inf tc q resp \/ Calm timeout (w_script w) ->
   out = Ok (inf tc q resp) /\ Sparse (w_script w') /\ exists k, w_script w' = skipn k (w_script w)).
Proof.
  intros HR Hn Er Hp Hfuel H. unfold after_rtox in H.
  destruct (Rph_answer tc q resp rest out0 _ _ _ HR Er) as [(x & -> & _)|[-> HR0]].
  - destruct (rtox_loop_spec 3 fuel p _ timeout w out w' (Rph_mono tc q resp rest out0 n 3 _ Hn HR) Er eq_refl Hp Hfuel H) as (X & Y).
    split; [exact X|]. intros Hsp [E|Hc]; [|exact (Y Hsp Hc)].
    apply (f_equal fmt) in E. destruct (inf_fmt tc q resp) as [E'|E']; rewrite E' in E; discriminate.
  - rewrite (proj1 (inf_tests tc q resp)) in H.
    injection H as <- <-. split; [right; auto|]. intros Hsp _. split; [reflexivity|]. split; [exact Hsp|]. exists 0%nat. reflexivity.
Qed.
End Rtox.
End Srr.
