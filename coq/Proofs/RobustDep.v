(* C07: the NFC-DEP frame decoders are total - for every byte string, role and bit rate decode_frame returns a
   PDU object or raises ProtocolError / TransmissionError; never another exception, never None.
   The unrepaired decoders are refuted by the concrete frames the check found. *)
From Coq Require Import ZArith List Bool Lia ZifyBool.
From NV Require Import Base.Result Base.Bytes Model.DepDecode.
Import ListNotations.
Open Scope Z_scope.

Definition dep_doc {A} (r : res (option A)) : Prop :=
  (exists p, r = Ok (Some p)) \/ r = Err ProtocolError \/ r = Err TransmissionError.

Lemma list4 {A} (l : list A) : len l = 4 -> exists a b c d, l = [a; b; c; d].
Proof.
  unfold len. destruct l as [|a [|b [|c [|d [|e l]]]]]; cbn [length]; intro H; try lia.
  now exists a, b, c, d.
Qed.
Lemma list5 {A} (l : list A) : len l = 5 -> exists a b c d e, l = [a; b; c; d; e].
Proof.
  unfold len. destruct l as [|a [|b [|c [|d [|e [|f l]]]]]]; cbn [length]; intro H; try lia.
  now exists a, b, c, d, e.
Qed.

Lemma starts2_cons a b c0 c1 t : c0 =? a = true -> c1 =? b = true -> starts2 (c0 :: c1 :: t) a b = true.
Proof. intros H1 H2. cbn [starts2]. now rewrite H1, H2. Qed.

Definition is_req (p : dpdu) : bool :=
  match p with
  | AtrReq _ _ _ _ _ _ | PslReq _ _ _ => true
  | DepPdu r _ _ _ _ _ _ _ | DslPdu r _ | RlsPdu r _ => r
  | _ => false
  end.

(* a documented result whose PDU, if there is one, is a request (q = true) or a response *)
Definition dep_dir (q : bool) (r : res (option dpdu)) : Prop :=
  (exists p, r = Ok (Some p) /\ is_req p = q) \/ r = Err ProtocolError \/ r = Err TransmissionError.

Lemma dep_dir_doc q r : dep_dir q r -> dep_doc r.
Proof. intros [(p & H & _) | H]; [left; exists p; exact H | right; exact H]. Qed.

Lemma dec_atr_req_dir d : starts2 d 212 0 = true -> dep_dir true (dec_atr_req d).
Proof.
  intro Hs. unfold dec_atr_req. rewrite Hs. cbn [negb].
  destruct (len d <? 16) eqn:E; [right; left; reflexivity|].
  destruct (list4 (slice d 12 16)) as (a & b & c & e & ->); [apply len_slice; lia|].
  left. eexists. split; reflexivity.
Qed.
Lemma dec_atr_res_dir d : starts2 d 213 1 = true -> dep_dir false (dec_atr_res d).
Proof.
  intro Hs. unfold dec_atr_res. rewrite Hs. cbn [negb].
  destruct (len d <? 17) eqn:E; [right; left; reflexivity|].
  destruct (list5 (slice d 12 17)) as (a & b & c & e & f & ->); [apply len_slice; lia|].
  left. eexists. split; reflexivity.
Qed.
Lemma dec_psl_req_dir d : starts2 d 212 4 = true -> dep_dir true (dec_psl_req d).
Proof.
  intro Hs. unfold dec_psl_req. rewrite Hs. cbn [negb].
  destruct (drop 2 d) as [|a [|b [|c [|e l]]]]; try (right; left; reflexivity). left. eexists. split; reflexivity.
Qed.
Lemma dec_psl_res_dir d : starts2 d 213 5 = true -> dep_dir false (dec_psl_res d).
Proof.
  intro Hs. unfold dec_psl_res. rewrite Hs. cbn [negb].
  destruct (drop 2 d) as [|a [|b l]]; try (right; left; reflexivity). left. eexists. split; reflexivity.
Qed.
Lemma dec_dep_dir (req : bool) (d : list Z) : (if req then starts2 d 212 6 else starts2 d 213 7) = true -> dep_dir req (dec_dep req d).
Proof.
  intro Hs. unfold dec_dep. rewrite Hs. cbn [negb].
  destruct (drop 2 d) as [|p r]; [right; left; reflexivity|].
  destruct (bit p 2); destruct (bit p 3); cbn [bind fst snd];
    repeat match goal with
           | |- dep_dir _ (bind (match ?l with [] => _ | _ :: _ => _ end) _) => destruct l; cbn [bind fst snd]
           | |- dep_dir _ (Err ProtocolError) => right; left; reflexivity
           | |- dep_dir _ (Ok (Some _)) => left; eexists; split; reflexivity
           end.
Qed.
Lemma dec_dsl_dir (rls req : bool) (d : list Z) :
  starts2 d (if req then 212 else 213) (if rls then (if req then 10 else 11) else (if req then 8 else 9)) = true ->
  dep_dir req (dec_dsl rls req d).
Proof.
  intro Hs. unfold dec_dsl. rewrite Hs. cbn [negb].
  assert (G : forall did, dep_dir req (Ok (Some (if rls then RlsPdu req did else DslPdu req did)))).
  { intro did. left. eexists. split; [reflexivity | destruct rls; reflexivity]. }
  destruct (3 <? len d) eqn:E; [right; left; reflexivity|].
  destruct (len d =? 3) eqn:E3; [|apply G].
  destruct d as [|a [|b [|c [|e l]]]]; rewrite ?len_cons, ?(@len_nil Z) in *; try lia.
  - apply G.
  - pose proof (len_nonneg l). lia.
Qed.

Lemma decode_body_dir r f : dep_dir (match r with Tgt => true | Ini => false end) (decode_body false r f).
Proof.
  unfold decode_body. destruct (len f <? 2) eqn:E; [right; right; reflexivity|].
  destruct f as [|c0 [|c1 t]]; try (rewrite ?len_cons, ?(@len_nil Z) in E; lia).
  change (idx (c0 :: c1 :: t) 0) with (Ok c0). change (idx (c0 :: c1 :: t) 1) with (Ok c1). cbn [bind].
  destruct r.
  - destruct (c0 =? 213) eqn:E0; cbn [negb orb]; [|right; left; reflexivity].
    destruct (c1 =? 1) eqn:E1; cbn [negb orb].
    { apply dec_atr_res_dir, starts2_cons; assumption. }
    destruct (c1 =? 5) eqn:E5; cbn [negb orb].
    { apply dec_psl_res_dir, starts2_cons; assumption. }
    destruct (c1 =? 7) eqn:E7; cbn [negb orb].
    { apply (dec_dep_dir false), starts2_cons; assumption. }
    destruct (c1 =? 9) eqn:E9; cbn [negb orb].
    { apply (dec_dsl_dir false false), starts2_cons; assumption. }
    destruct (c1 =? 11) eqn:E11; cbn [negb orb]; [|right; left; reflexivity].
    apply (dec_dsl_dir true false), starts2_cons; assumption.
  - destruct (c0 =? 212) eqn:E0; cbn [negb orb]; [|right; left; reflexivity].
    destruct (c1 =? 0) eqn:E1; cbn [negb orb].
    { apply dec_atr_req_dir, starts2_cons; assumption. }
    destruct (c1 =? 4) eqn:E5; cbn [negb orb].
    { apply dec_psl_req_dir, starts2_cons; assumption. }
    destruct (c1 =? 6) eqn:E7; cbn [negb orb].
    { apply (dec_dep_dir true), starts2_cons; assumption. }
    destruct (c1 =? 8) eqn:E9; cbn [negb orb].
    { apply (dec_dsl_dir false true), starts2_cons; assumption. }
    destruct (c1 =? 10) eqn:E11; cbn [negb orb]; [|right; left; reflexivity].
    apply (dec_dsl_dir true true), starts2_cons; assumption.
Qed.

(* every frame, both roles, with and without the F0 start byte: a target decodes requests only, an initiator responses *)
Lemma dep_decode_dir r b106 frame : dep_dir (match r with Tgt => true | Ini => false end) (decode_frame r b106 frame).
Proof.
  unfold decode_frame. set (q := match r with Tgt => true | Ini => false end).
  assert (H : forall f1, dep_dir q (match f1 with
                                    | [] => Err ProtocolError
                                    | l :: t => if negb (len f1 =? l) then Err ProtocolError else decode_body false r t
                                    end)).
  { intros [|l t]; [right; left; reflexivity|]. destruct (negb _); [right; left; reflexivity | apply decode_body_dir]. }
  destruct b106; cbn [bind]; [|apply H].
  destruct frame as [|x t]; cbn [bind]; [right; left; reflexivity|].
  destruct (negb (x =? 240)); cbn [bind]; [right; left; reflexivity | apply H].
Qed.

Theorem dep_decode_total r b106 frame : dep_doc (decode_frame r b106 frame).
Proof. exact (dep_dir_doc _ _ (dep_decode_dir r b106 frame)). Qed.

(* the start byte and length byte rules, as the specification states them *)
Theorem dep_start_byte r frame x : x <> 240 -> decode_frame r true (x :: frame) = Err ProtocolError.
Proof. intro H. unfold decode_frame. replace (x =? 240) with false by lia. reflexivity. Qed.
Theorem dep_length_byte r l body : l <> 1 + len body -> decode_frame r false (l :: body) = Err ProtocolError.
Proof. intro H. unfold decode_frame. cbn [bind]. rewrite len_cons. replace (1 + len body =? l) with false by lia. reflexivity. Qed.
Theorem dep_short_frame r l body : l = 1 + len body -> len body < 2 -> decode_frame r false (l :: body) = Err TransmissionError.
Proof.
  intros H H2. unfold decode_frame. cbn [bind]. rewrite len_cons. replace (1 + len body =? l) with true by lia.
  cbn [negb]. unfold decode_body. replace (len body <? 2) with true by lia. reflexivity.
Qed.

(* the value byte of a timeout extension *)
Theorem rtox_total d : (exists v, rtox_value d = Ok v /\ 0 < v < 60) \/ rtox_value d = Err ProtocolError.
Proof.
  destruct d as [|v t]; cbn [rtox_value]; [right; reflexivity|].
  destruct ((0 <? v) && (v <? 60)) eqn:E; [left; exists v; split; [reflexivity | lia] | right; reflexivity].
Qed.

(* ---- the code as it was: concrete witnesses (found by the check, harness/prop/c07.py corpus) ---- *)
Lemma orig_empty_frame : decode_frame_orig Ini false [] = Crash IndexErr /\ decode_frame_orig Tgt true [] = Crash IndexErr.
Proof. split; reflexivity. Qed.
Lemma orig_start_byte_only : decode_frame_orig Ini true [240] = Crash IndexErr /\ decode_frame_orig Tgt true [240] = Crash IndexErr.
Proof. split; reflexivity. Qed.
Lemma orig_short_atr_res : decode_frame_orig Ini true [240; 3; 213; 1] = Crash ValueErr.
Proof. vm_compute. reflexivity. Qed.
Lemma orig_short_atr_req : decode_frame_orig Tgt false [3; 212; 0] = Crash ValueErr.
Proof. vm_compute. reflexivity. Qed.
Lemma orig_rtox_no_value : rtox_value_orig [] = Crash IndexErr.
Proof. reflexivity. Qed.
