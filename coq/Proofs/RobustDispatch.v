(* C07: dispatch of a decoded PDU is a total transformer of the controller state: no exception leaves
   LogicalLinkController.dispatch and the link thread never waits (no Hang), for every PDU the decoder can produce and
   every well-formed controller state; well-formedness is preserved, so the statement iterates over a whole link. *)
From Coq Require Import ZArith List Bool Lia ZifyBool.
From NV Require Import Base.Result Base.Bytes Base.PyPrims Model.Pdu Proofs.PduTotal Model.Dispatch.
Import ListNotations.
Open Scope Z_scope.

Definition is_sdp (e : sapent) : bool := match e with SapSdp _ => true | _ => false end.
Definition wf (st : llc) : Prop :=
  length (saps st) = 64%nat /\
  (exists sd, nth_error (saps st) 1 = Some (SapSdp sd)) /\
  (forall k a, name_get k (snl st) = Some a -> 0 <= a < 64).

(* what the decoder can produce: service access point numbers are 6-bit, aggregates are flat *)
Definition flat_ok (q : pdu) : Prop := is_agf q = false /\ 0 <= p_dsap q < 64.
Definition pdu_ok (p : pdu) : Prop :=
  match p with Agf _ _ l => Forall flat_ok l | _ => 0 <= p_dsap p < 64 end.

Lemma dlc_close_not_established s : sstate_eqb (state s) SEstablished = false -> exists s', dlc_close s = Ok s'.
Proof. intro H. unfold dlc_close. rewrite H. cbn [andb]. eexists. reflexivity. Qed.

Lemma dlc_established_ok s p : exists s', dlc_established s p = Ok s'.
Proof.
  unfold dlc_established.
  destruct p; try (eexists; reflexivity).
  (* I *) destruct (len data >? recv_miu s); [eexists; reflexivity|].
  destruct (negb (ns =? recv_cnt s)); eexists; reflexivity.
Qed.

Lemma dlc_enqueue_ok s p : exists s', dlc_enqueue false s p = Ok s'.
Proof.
  unfold dlc_enqueue. destruct (negb (is_dlc_pdu p)).
  - destruct (sstate_eqb (state s) SEstablished) eqn:E; [eexists; reflexivity|].
    destruct (dlc_close_not_established s E) as [s' ->]. cbn [bind]. eexists. reflexivity.
  - destruct (state s); try (eexists; reflexivity).
    + destruct (is_connect p); [|eexists; reflexivity].
      destruct (base_enqueue s p) as [s' ok]. destruct ok; eexists; reflexivity.
    + destruct p; eexists; reflexivity.
    + apply dlc_established_ok.
    + destruct p; eexists; reflexivity.
Qed.

Lemma sock_enqueue_ok s p : exists s', sock_enqueue false s p = Ok s'.
Proof. unfold sock_enqueue. destruct (kind s); try (eexists; reflexivity). apply dlc_enqueue_ok. Qed.

Lemma first_sock_ok test p l : exists r, first_sock test (fun s => sock_enqueue false s p) l = Ok r.
Proof.
  induction l as [|s r IH]; cbn [first_sock]; [eexists; reflexivity|].
  destruct (test s).
  - destruct (sock_enqueue_ok s p) as [s' ->]. cbn [bind]. eexists. reflexivity.
  - destruct IH as [r' ->]. cbn [bind]. eexists. reflexivity.
Qed.

Lemma sap_enqueue_ok socks sl p : exists r, sap_enqueue false socks sl p = Ok r.
Proof.
  unfold sap_enqueue. destruct (is_connect p).
  - destruct (first_sock_ok (fun s => sstate_eqb (state s) SListen) p socks) as [[r|] ->]; cbn [bind]; eexists; reflexivity.
  - destruct (first_sock_ok (peer_matches p) p socks) as [[r|] ->]; cbn [bind]; [eexists; reflexivity|].
    destruct (is_dlc_pdu p); eexists; reflexivity.
Qed.

Lemma set_at_length {A} (x : A) : forall l n, length (set_at n x l) = length l.
Proof. induction l as [|h t IH]; intros [|n]; cbn [set_at length]; try reflexivity. now rewrite IH. Qed.
Lemma set_at_same {A} (x : A) : forall l n, (n < length l)%nat -> nth_error (set_at n x l) n = Some x.
Proof. induction l as [|h t IH]; intros [|n]; cbn [set_at length nth_error]; intro H; try lia; [reflexivity | apply IH; lia]. Qed.
Lemma set_at_other {A} (x : A) : forall l n m, n <> m -> nth_error (set_at n x l) m = nth_error l m.
Proof.
  induction l as [|h t IH]; intros [|n] [|m] H; cbn [set_at nth_error]; try reflexivity; try lia. apply IH. lia.
Qed.

Lemma sap_at_ok st i : length (saps st) = 64%nat -> 0 <= i < 64 -> exists e, sap_at st i = Ok e /\ nth_error (saps st) (Z.to_nat i) = Some e.
Proof.
  intros Hl Hi. unfold sap_at. replace (i <? 0) with false by lia.
  destruct (nth_error (saps st) (Z.to_nat i)) as [e|] eqn:E; [eexists; split; reflexivity|].
  apply nth_error_None in E. lia.
Qed.

Lemma with_sap_wf st i e : wf st -> 0 <= i < 64 ->
  (forall e0, nth_error (saps st) (Z.to_nat i) = Some e0 -> is_sdp e0 = true -> is_sdp e = true) -> wf (with_sap st i e).
Proof.
  intros (Hl & (sd & H1) & Hn) Hi Hsd. unfold wf, with_sap. cbn [saps snl]. split; [|split].
  - rewrite set_at_length. exact Hl.
  - destruct (Nat.eq_dec (Z.to_nat i) 1) as [E|E].
    + rewrite E in *. specialize (Hsd _ H1 eq_refl). destruct e; try discriminate.
      eexists. apply set_at_same. lia.
    + rewrite set_at_other by exact E. eexists. exact H1.
  - exact Hn.
Qed.

Lemma deliver_ok st p : wf st -> 0 <= p_dsap p < 64 -> exists st', deliver false st p = Ok st' /\ wf st'.
Proof.
  intros Hwf Hd. pose proof Hwf as (Hl & _ & _). unfold deliver.
  destruct (sap_at_ok st (p_dsap p) Hl Hd) as (e & -> & He). cbn [bind].
  destruct e as [|sd|socks sl].
  - eexists. split; [reflexivity | exact Hwf].
  - eexists. split; [reflexivity|]. apply with_sap_wf; [exact Hwf | exact Hd | reflexivity].
  - destruct (sap_enqueue_ok socks sl p) as [[socks' sl'] ->]. cbn [bind]. eexists. split; [reflexivity|].
    apply with_sap_wf; [exact Hwf | exact Hd|]. intros e0 H0. rewrite He in H0. inversion H0; subst. discriminate.
Qed.

Lemma connect_by_name_ok st ssap miu rw sn : wf st ->
  exists st', connect_by_name false st ssap miu rw sn = Ok st' /\ wf st'.
Proof.
  intro Hwf. pose proof Hwf as (Hl & (sd & H1) & Hn). unfold connect_by_name.
  set (addr := match sn with Some n => name_get n (snl st) | None => None end).
  assert (Ha : forall a, addr = Some a -> 0 <= a < 64).
  { intros a E. unfold addr in E. destruct sn as [n|]; [|discriminate]. eapply Hn, E. }
  assert (Hs1 : sap_at st 1 = Ok (SapSdp sd)).
  { unfold sap_at. cbn [Z.ltb Z.compare]. change (Z.to_nat 1) with 1%nat. rewrite H1. reflexivity. }
  assert (Hdm : forall reason, exists st', (do e1 <- sap_at st 1;
            match e1 with
            | SapSdp sd0 => Ok (with_sap st 1 (SapSdp (mksdp (sd_snl sd0) (sd_sent sd0) (sd_tids sd0) (sd_sdres sd0)
                                                           (sd_dmpdu sd0 ++ [DM ssap 1 reason]))))
            | _ => Crash AttributeErr end) = Ok st' /\ wf st').
  { intro reason. rewrite Hs1. cbn [bind]. eexists. split; [reflexivity|]. apply with_sap_wf; [exact Hwf | lia | reflexivity]. }
  destruct addr as [a|] eqn:Ea.
  - specialize (Ha a eq_refl). destruct (a =? 0) eqn:E0; cbn [bind negb].
    + apply Hdm.
    + destruct (sap_at_ok st a Hl Ha) as (e & -> & He). cbn [bind].
      destruct e; cbn [negb]; try apply Hdm; apply deliver_ok; cbn [p_dsap]; assumption.
  - cbn [bind negb]. apply Hdm.
Qed.

Lemma dispatch_flat st q : wf st -> flat_ok q -> exists st', dispatch false st q = Ok st' /\ wf st'.
Proof.
  intros Hwf [Ha Hd]. destruct q; cbn [is_agf] in Ha; try discriminate; cbn [dispatch];
    try (apply deliver_ok; assumption).
  - eexists. split; [reflexivity | exact Hwf].
  - destruct (dsap =? 1); [apply connect_by_name_ok; exact Hwf | apply deliver_ok; assumption].
Qed.

Theorem dispatch_total st p : wf st -> pdu_ok p -> exists st', dispatch false st p = Ok st' /\ wf st'.
Proof.
  intros Hwf Hp. destruct p; cbn [pdu_ok] in Hp;
    try (apply dispatch_flat; [exact Hwf | split; [reflexivity | exact Hp]]).
  cbn [dispatch]. destruct ((dsap =? 0) && (ssap =? 0)); [|eexists; split; [reflexivity | exact Hwf]].
  revert st Hwf. induction Hp as [|q r Hq Hr IH]; intros st Hwf.
  - eexists. split; [reflexivity | exact Hwf].
  - destruct (dispatch_flat st q Hwf Hq) as (st1 & -> & Hwf1). cbn [bind]. apply IH, Hwf1.
Qed.

Lemma flat_valid q : validb (norm q) = true -> is_agf q = false -> 0 <= p_dsap q < 64.
Proof.
  destruct q; cbn [is_agf norm validb p_dsap]; try discriminate; unfold sap_ok, in_range; intros H _; lia.
Qed.
Lemma valid_pdu_ok p : valid (norm p) -> pdu_ok p.
Proof.
  unfold valid. destruct p; try (intro H; apply flat_valid; [exact H | reflexivity]).
  cbn [norm validb pdu_ok]. intro H. apply andb_true_iff in H. destruct H as [_ H].
  rewrite forallb_forall in H. apply Forall_forall. intros q Hq.
  specialize (H (norm q) (in_map norm _ _ Hq)). apply andb_true_iff in H. destruct H as [H _].
  apply andb_true_iff in H. destruct H as [Hv Hn]. rewrite is_agf_norm in Hn.
  assert (Ha : is_agf q = false) by (destruct (is_agf q); [discriminate | reflexivity]).
  split; [exact Ha | apply flat_valid; assumption].
Qed.

(* every byte string the peer can send as an LLCP PDU: decoded and dispatched, or an orderly link disruption *)
Theorem receive_total st data : wf st -> bytes_ok data ->
  receive false st data = Ok LinkDisrupted \/ exists st', receive false st data = Ok (Dispatched st') /\ wf st'.
Proof.
  intros Hwf Hb. unfold receive.
  destruct (decode_total data 0 (len data) ltac:(lia) Hb) as [[p Hp] | He].
  - rewrite Hp. right. pose proof (decode_valid data 0 (len data) p ltac:(lia) Hb Hp) as Hv.
    destruct (dispatch_total st p Hwf (valid_pdu_ok p Hv)) as (st' & -> & Hwf'). cbn [bind]. eexists. split; [reflexivity | exact Hwf'].
  - rewrite He. left. reflexivity.
Qed.

Definition ex_sock : sock := mksock KDlc SEstablished (Some 32) (Some 16) [] 1 128 [] 0 0 0 0 0 false.
Definition ex_llc : llc :=
  mkllc ([SapSap [] []; SapSdp (mksdp (Some []) [] [] [] [])] ++ repeat SapNone 30 ++ [SapSap [ex_sock] []] ++ repeat SapNone 31) [].
Lemma ex_llc_wf : wf ex_llc.
Proof. split; [reflexivity|]. split; [eexists; reflexivity|]. intros k a H. discriminate. Qed.
(* a UI PDU for the SAP of an established data link connection: the link thread waits for ever *)
Lemma orig_ui_to_dlc_hangs : dispatch true ex_llc (UI 32 16 [1]) = Hang.
Proof. vm_compute. reflexivity. Qed.
Lemma fixed_ui_to_dlc : exists st', dispatch false ex_llc (UI 32 16 [1]) = Ok st'.
Proof. eexists. vm_compute. reflexivity. Qed.
