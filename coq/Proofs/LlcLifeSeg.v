(* C09 - facts about ONE lock-hold segment of the repaired code (variant Fixed).
   These are the semantic counterparts of the WaitCheck conditions of DESIGN.md 6.2:
   (i)   a wait() is only reached after a guard that is false in the closed state was evaluated
         in the same hold                                              -> seg_wait_open
   (ii)  a segment that moves the socket to SHUTDOWN notifies every condition of the object
                                                                        -> seg_shut_notifies
   (iii) after a wake-up the guard is re-evaluated or the call ends   -> seg_dead_* (no wait when closed) *)
From Coq Require Import ZArith List Bool Arith Lia.
From NV Require Import Base.Result Model.LlcLife.
From NV Require Skel.WaitSyntax.
Import ListNotations.

Definition live (x : sstate) : bool :=
  match x with LISTEN | CONNECT | ESTABLISHED | DISCONNECT | CLOSE_WAIT => true | _ => false end.

(* points that are only reached when the socket is (or has been) in the table *)
Definition ptab (p : point) (k : kind) : bool :=
  match p with
  | PRecv1 | PRecv2 | PPoll1 _ | PPoll2 _ | PSend0b _ | PSend2 | PSend3 | PAcc2 | PConn1 | PConn2 | PLis1
  | PClose3 _ | PRes1 | PRes2 => true
  | PSend1 _ => negb (kind_eqb k DLC)
  | _ => false
  end.

Definition rank (p : point) : nat :=
  match p with
  | PSend0 _ => 4 | PSendBind _ => 3 | PSend0b _ => 2 | PSend1 _ => 1 | PSend2 => 1 | PSend3 => 1
  | PRecv0 => 2 | PRecv1 => 1 | PRecv2 => 1
  | PPoll0 _ => 2 | PPoll1 _ => 1 | PPoll2 _ => 1
  | PAcc1 => 3 | PAcc2 => 3 | PAcc3 _ => 2 | PAcc4 => 1
  | PConn0 => 3 | PConnBind => 2 | PConn1 => 1 | PConn2 => 1
  | PLis0 => 3 | PLisBind => 2 | PLis1 => 1
  | PBind0 => 2 | PBind1 => 1
  | PClose0 => 4 | PClose2 _ => 3 | PClose3 _ => 3 | PClose4 => 1
  | PRes0 => 2 | PRes1 => 1 | PRes2 => 1
  end.

(* case analysis on every test a segment makes, innermost scrutinee first; dme keeps the outcome of each
   test as an equation.  The lemmas below state their conclusion as a predicate applied to the one
   occurrence of [seg ...], so that the analysis does not carry several copies of the body of seg. *)
Ltac dm_with tac :=
  repeat match goal with
         | |- context [match ?x with _ => _ end] =>
             lazymatch x with
             | context [match _ with _ => _ end] => fail
             | _ => tac x
             end
         end.
Ltac dm := dm_with ltac:(fun x => destruct x).
Ltac dme := dm_with ltac:(fun x => destruct x eqn:?).
(* for a statement that mentions [seg ...] under projections *)
Ltac dmo := dm_with ltac:(fun x => destruct x eqn:?; cbn [o_act o_sock o_nall]).

Ltac brk := unfold seg, recv_tail, dlc_recv_item, accept_item, connect_item, close_tail, dlc_send_body, out,
  is_shut, est_or_cw, is_est, eret in *.

(* what no segment does: it never changes the kind or the served flag, never takes a socket out of
   "tabled"; and where it sends the call: a continuation of lower rank, a wait that does not resume at
   PClose4, a result that is not a socket *)
Definition framed (p : point) (s : sock) (r : segout) : Prop :=
  kd (o_sock r) = kd s /\ srv (o_sock r) = srv s /\ (tabled s = true -> tabled (o_sock r) = true) /\
  match o_act r with
  | AGoto q => rank q < rank p
  | AWait _ q => q <> PClose4
  | ARet x => forall c, x <> Ok (VSock c)
  | AAlloc _ => True
  end.

Lemma framed_intro p s s' nall a :
  kd s' = kd s -> srv s' = srv s -> (tabled s = true -> tabled s' = true) ->
  match a with
  | AGoto q => rank q < rank p
  | AWait _ q => q <> PClose4
  | ARet x => forall c, x <> Ok (VSock c)
  | AAlloc _ => True
  end -> framed p s (mkOut s' nall a).
Proof. intros A B C D. exact (conj A (conj B (conj C D))). Qed.

Lemma seg_frame v p s tm orc : framed p s (seg v p s tm orc).
Proof. destruct s as [k x b i tb q n rb sb sl ak sv].
  destruct p; brk; cbn [kd st bound intab tabled rq sq rbuf sbuf slots acks srv]; dm;
    (apply framed_intro; [reflexivity|reflexivity|first [exact (fun e => e) | intros _; reflexivity]|]);
    first [exact I | discriminate | cbn; auto with arith]. Qed.

Lemma seg_kd v p s tm orc : kd (o_sock (seg v p s tm orc)) = kd s.
Proof. apply seg_frame. Qed.
Lemma seg_srv v p s tm orc : srv (o_sock (seg v p s tm orc)) = srv s.
Proof. apply seg_frame. Qed.
Lemma seg_rank v p s tm orc q : o_act (seg v p s tm orc) = AGoto q -> rank q < rank p.
Proof. intro H. pose proof (seg_frame v p s tm orc) as (_ & _ & _ & X). rewrite H in X. exact X. Qed.
Lemma seg_ret_not_sock v p s tm orc c : o_act (seg v p s tm orc) <> ARet (Ok (VSock c)).
Proof. intro H. pose proof (seg_frame v p s tm orc) as (_ & _ & _ & X). rewrite H in X. exact (X c eq_refl). Qed.

(* what a segment of the repaired code guarantees whatever the socket looks like:
   (i) a thread that starts to wait leaves the socket open (the guard was evaluated in the same hold);
   (ii) a segment that shuts the socket down notifies every condition of the object;
   nothing enters the table except under llc.lock and before terminate() has removed llc.sap[1];
   the only object a segment creates is the socket accept() returns, under llc.lock *)
Definition repaired (p : point) (s : sock) (tm : bool) (r : segout) : Prop :=
  (st s <> SHUTDOWN -> st (o_sock r) = SHUTDOWN -> o_nall r = close_conds (kd s))
  /\ (intab (o_sock r) = true -> intab s = true \/ tm = false /\ needs_llc_lock p = true)
  /\ match o_act r with
     | AWait _ _ => st (o_sock r) <> SHUTDOWN
     | AAlloc s' => s' = client_sock /\ needs_llc_lock p = true /\ (intab s = true \/ tm = false)
     | _ => True
     end.

Lemma repaired_same p s tm nall a :
  match a with
  | AWait _ _ => st s <> SHUTDOWN
  | AAlloc s' => s' = client_sock /\ needs_llc_lock p = true /\ (intab s = true \/ tm = false)
  | _ => True
  end -> repaired p s tm (mkOut s nall a).
Proof. intro A. split; [intros N E; destruct (N E)|]. split; [intro E; left; exact E|exact A]. Qed.

Lemma repaired_intro p s tm s' nall a :
  (st s <> SHUTDOWN -> st s' = SHUTDOWN -> nall = close_conds (kd s)) ->
  (intab s' = true -> intab s = true \/ tm = false /\ needs_llc_lock p = true) ->
  match a with
  | AWait _ _ => st s' <> SHUTDOWN
  | AAlloc s0 => s0 = client_sock /\ needs_llc_lock p = true /\ (intab s = true \/ tm = false)
  | _ => True
  end -> repaired p s tm (mkOut s' nall a).
Proof. intros A B C. exact (conj A (conj B C)). Qed.

Lemma seg_repaired p s tm orc : repaired p s tm (seg Fixed p s tm orc).
Proof. destruct s as [k x b i tb q n rb sb sl ak sv].
  destruct p; brk; cbn [kd st bound intab tabled rq sq rbuf sbuf slots acks srv]; dme;
    (* the socket as it was / as the segment leaves it: the state is the old one, a definite one, or SHUTDOWN
       after close(); the table entry is the old one, made by bind() or removed *)
    (first [apply repaired_same
           | apply repaired_intro;
             [first [intros _ _; reflexivity | intros _ E; discriminate E | intros N E; destruct (N E)]
             |first [intro E; left; exact E | intros _; right; split; reflexivity | intro E; discriminate E]
             |]]);
    try exact I.
  (* a wait: the test that preceded it excludes SHUTDOWN *)
  all: try (intro E; cbn in E; first [discriminate E | subst x; discriminate]).
  (* accept(): the access point of the listening socket is alive *)
  split; [reflexivity|split; [reflexivity|]]. destruct i; [left; reflexivity|right].
  destruct tm; [destruct cb; discriminate|reflexivity].
Qed.

(* (i) guard in the same hold: a thread that starts to wait leaves the socket open *)
Lemma seg_wait_open p s tm orc c q :
  o_act (seg Fixed p s tm orc) = AWait c q -> st (o_sock (seg Fixed p s tm orc)) <> SHUTDOWN.
Proof. intro H. pose proof (seg_repaired p s tm orc) as (_ & _ & X). rewrite H in X. exact X. Qed.

(* (ii) a segment that shuts the socket down notifies every condition of the object *)
Lemma seg_shut_notifies p s tm orc :
  st s <> SHUTDOWN -> st (o_sock (seg Fixed p s tm orc)) = SHUTDOWN ->
  o_nall (seg Fixed p s tm orc) = close_conds (kd s).
Proof. apply seg_repaired. Qed.

Lemma seg_alloc p s tm orc s' : o_act (seg Fixed p s tm orc) = AAlloc s' -> s' = client_sock.
Proof. intro H. pose proof (seg_repaired p s tm orc) as (_ & _ & X). rewrite H in X. apply X. Qed.

(* the part of sock_ok (Proofs/LlcLife.v) that speaks of the socket alone *)
Definition sock_inv (s : sock) : Prop :=
  (kd s = DLC -> live (st s) = true -> tabled s = true)
  /\ (tabled s = false -> bound s = false /\ intab s = false /\ rq s = [])
  /\ (kd s = DLC -> st s = SHUTDOWN -> rq s = [])
  /\ (kd s = SDP -> tabled s = true).
(* what thr_ok asks of the socket of a thread that is at point p *)
Definition at_ok (p : point) (s : sock) : Prop :=
  pk p (kd s) = true /\ (ptab p (kd s) = true -> tabled s = true) /\ (p = PClose4 -> st s = SHUTDOWN).
Definition next_ok (s : sock) (a : act) : Prop :=
  match a with
  | AGoto q => at_ok q s
  | AWait c q => pk q (kd s) = true /\ tabled s = true /\ In c (close_conds (kd s))
  | _ => True
  end.

(* sock_inv again, SHUTDOWN is absorbing, a socket known to the table is in it or closed, and the
   continuation fits the socket as the segment leaves it *)
Definition keeps (s : sock) (r : segout) : Prop :=
  sock_inv (o_sock r)
  /\ (st s = SHUTDOWN -> st (o_sock r) = SHUTDOWN)
  /\ ((tabled s = true -> intab s = true \/ st s = SHUTDOWN) ->
      tabled (o_sock r) = true -> intab (o_sock r) = true \/ st (o_sock r) = SHUTDOWN)
  /\ next_ok (o_sock r) (o_act r).

Lemma keeps_intro s s' nall a :
  sock_inv s' -> (st s = SHUTDOWN -> st s' = SHUTDOWN) ->
  ((tabled s = true -> intab s = true \/ st s = SHUTDOWN) -> tabled s' = true -> intab s' = true \/ st s' = SHUTDOWN) ->
  next_ok s' a -> keeps s (mkOut s' nall a).
Proof. intros A B C D. exact (conj A (conj B (conj C D))). Qed.

Lemma keeps_same s nall a : sock_inv s -> next_ok s a -> keeps s (mkOut s nall a).
Proof. intros H A. exact (keeps_intro s s nall a H (fun e => e) (fun e => e) A). Qed.

(* once a socket is known to the table only "closed => queue empty" is left of sock_inv *)
Lemma keeps_tabled s s' nall a :
  tabled s' = true -> (kd s' = DLC -> st s' = SHUTDOWN -> rq s' = []) ->
  (st s = SHUTDOWN -> st s' = SHUTDOWN) ->
  ((tabled s = true -> intab s = true \/ st s = SHUTDOWN) -> intab s' = true \/ st s' = SHUTDOWN) ->
  next_ok s' a -> keeps s (mkOut s' nall a).
Proof. intros T D A R N. apply keeps_intro; [|exact A|intros X _; exact (R X)|exact N].
  split; [intros; exact T|]. split; [intro E; rewrite T in E; discriminate E|]. split; [exact D|intros; exact T]. Qed.

Lemma seg_keeps p s tm orc : sock_inv s -> at_ok p s -> keeps s (seg Fixed p s tm orc).
Proof.
  destruct s as [k x b i tb q n rb sb sl ak sv]. intros Hinv (Hk & Hp & H4). pose proof Hinv as (HB & HC & HD & HE).
  cbn [kd st bound intab tabled rq] in *.
  destruct tb.
  - (* known to the table.  Where the segment changes the socket: the queue of a closed DLC is empty
       (HD), so nothing is taken from it; a state is only set after a test that excludes SHUTDOWN, or it is
       SHUTDOWN itself; the table entry is the old one, made by bind(), or given up at PClose4 (H4) *)
    clear HB HC HE Hp.
    destruct p; brk; cbn [kd st bound intab tabled rq sq rbuf sbuf slots acks srv]; dme;
      lazymatch goal with |- keeps ?s (mkOut ?s' _ _) =>
        first [constr_eq s s'; apply keeps_same; [exact Hinv|]
              | apply keeps_tabled;
                [reflexivity
                |first [exact HD | intros _ _; reflexivity | intros _; discriminate | intros E1 E2; discriminate (HD E1 E2)]
                |first [exact (fun e => e) | intros _; reflexivity | cbn; intros ->; discriminate
                       | intro E; destruct k; try discriminate Hk; discriminate (HD eq_refl E)]
                |first [exact (fun e => e eq_refl) | intros _; right; reflexivity | intros _; left; reflexivity
                       | intros _; right; exact (H4 eq_refl)
                       | intro R; destruct (R eq_refl) as [E|E]; [left; exact E|cbn in E; subst x; discriminate]
                       | intro R; destruct (R eq_refl) as [E|E];
                         [left; exact E|destruct k; try discriminate Hk; discriminate (HD eq_refl E)]]
                |]]
      end;
      try exact I; try discriminate Hk.
    (* the continuation is of the kind of object the call was on (Hk) *)
    all: lazymatch goal with
         | |- next_ok _ (AGoto _) =>
             split; [first [exact Hk | reflexivity | destruct k; try discriminate Hk; reflexivity]
                    |split; [intros _; reflexivity|first [discriminate | intros _; reflexivity]]]
         | |- next_ok _ (AWait _ _) =>
             split; [first [exact Hk | reflexivity | destruct k; try discriminate Hk; reflexivity]
                    |split; [reflexivity
                            |apply WaitSyntax.existsb_cond; first [reflexivity | destruct k; try discriminate Hk; reflexivity]]]
         end.
  - (* never bound: no address, not in the table, nothing queued (HC), not the service discovery object
       (HE), a DLC neither connected nor listening (HB); the call is at a point that does not need the
       table (Hp).  It fails, binds the socket, or closes it *)
    destruct (HC eq_refl) as (-> & -> & ->). clear HC.
    destruct p; try discriminate (Hp eq_refl); brk; cbn [kd st bound intab tabled rq sq rbuf sbuf slots acks srv]; dme; try discriminate (Hp eq_refl); try discriminate Hk; try discriminate;
      try (lazymatch type of HB with DLC = DLC -> _ => idtac end;
           destruct x; try discriminate; discriminate (HB eq_refl eq_refl));
      lazymatch goal with |- keeps _ _ =>
        first [apply keeps_same; [exact Hinv|]
              | apply keeps_tabled;
                [reflexivity | intros _ _; reflexivity | exact (fun e => e) | intros _; left; reflexivity | ]
              | apply keeps_intro;
                [split; [intros _ E; discriminate E
                        |split; [intros _; repeat split; reflexivity|split; [intros _ _; reflexivity|exact HE]]]
                | intros _; reflexivity | intros _ E; discriminate E | ]]
      end;
      try exact I.
    all: split; [first [exact Hk | reflexivity]
                |split; [first [intros _; reflexivity | intro E; discriminate E
                               | destruct k; try discriminate Hk; discriminate (HE eq_refl)]
                        |first [discriminate | intros _; reflexivity]]].
Qed.

(* (iii) a closed socket: no segment waits, every result is a value or nfc.llcp.Error *)
Definition benign (a : act) : Prop :=
  match a with AWait _ _ => False | ARet r => good r = true | _ => True end.

(* calls of the server loops (poll, recv, send, accept) on a closed socket end in nfc.llcp.Error *)
Definition srv_class (p : point) : bool :=
  match p with
  | PPoll0 _ | PPoll1 _ | PRecv0 | PRecv1 | PSend0 _ | PSendBind _ | PSend0b _ | PSend1 _ | PAcc1 | PAcc3 _ => true
  | _ => false
  end.
Definition is_llcp (r : res rv) : bool := match r with Err (LlcpError _) => true | _ => false end.
Definition srv_out (a : act) : Prop :=
  match a with AGoto q => srv_class q = true | ARet r => is_llcp r = true | _ => False end.

Definition dead (p : point) (a : act) : Prop := benign a /\ (srv_class p = true -> srv_out a).

(* after termination no socket is in the table (intab), and one that the table knew is shut down *)
Lemma seg_dead p s orc :
  sock_inv s -> at_ok p s -> intab s = false -> (tabled s = true -> st s = SHUTDOWN) ->
  dead p (o_act (seg Fixed p s true orc)).
Proof.
  destruct s as [k x b i tb q0 n rb sb sl ak sv]. unfold sock_inv, at_ok, dead.
  cbn [kd st bound intab tabled rq].
  intros (HB & HC & HD & HE) (Hk & Hp & _) -> Hs. destruct tb.
  (* seg is unfolded (brk) only after the point and the socket's fields are fixed: each substitution made in its
     body is checked again at Qed *)
  - (* shut down, and the receive queue of a DLC is empty (HD) *)
    pose proof (Hs eq_refl) as ->. assert (Hq : k = DLC -> q0 = []) by auto.
    clear HB HC HD HE Hp Hs. revert Hk.
    destruct p; destruct k; cbn [pk kind_eqb negb orb srv_class]; try discriminate; intros _; brk; cbn [kd st bound intab tabled rq sq rbuf sbuf slots acks srv];
      try (rewrite (Hq eq_refl)); cbn; dmo; cbn; (split; [auto|intro; auto; try discriminate]);
      try (rewrite andb_false_r in *; discriminate).
  - (* never bound, nothing queued (HC); a DLC is neither connected nor listening (HB); the call is at a
       point that does not need the table (Hp) *)
    destruct (HC eq_refl) as (-> & _ & ->).
    assert (Hl : k = DLC -> live x = false).
    { intro K. destruct (live x) eqn:L; [discriminate (HB K eq_refl)|reflexivity]. }
    assert (Hp' : ptab p k = false).
    { destruct (ptab p k); [discriminate (Hp eq_refl)|reflexivity]. }
    clear HB HC HD HE Hp Hs. revert Hp' Hk.
    destruct p; destruct k; cbn [pk kind_eqb negb orb ptab srv_class]; try discriminate; intros _ _; brk; cbn [kd st bound intab tabled rq sq rbuf sbuf slots acks srv];
      try (specialize (Hl eq_refl)); destruct x; cbn in *; try discriminate; dmo; cbn;
      (split; [auto|intro; auto; try discriminate]);
      try (rewrite andb_false_r in *; discriminate).
Qed.

Lemma rank_le4 p : rank p <= 4.
Proof. destruct p; cbn; lia. Qed.
Lemma rank_pos p : 1 <= rank p.
Proof. destruct p; cbn; lia. Qed.

(* the socket is closed, or a data PDU is at the head of its queue and the state admits recv() *)
Definition ready (s : sock) : Prop := st s = SHUTDOWN \/ (est_or_cw s = true /\ exists r, rq s = II :: r).

(* poll('recv') on a DLC answers True only in that situation and does not change the socket *)
Lemma seg_poll_true e s tm orc p :
  (p = PPoll1 e \/ p = PPoll2 e) -> e = PollRecv -> kd s = DLC ->
  o_act (seg Fixed p s tm orc) = ARet (Ok (VBool true)) -> ready (o_sock (seg Fixed p s tm orc)).
Proof. destruct s as [k x b i tb q n rb sb sl ak sv]. cbn [kd].
  intros [-> | ->] -> ->; brk; cbn [kd st bound intab tabled rq sq rbuf sbuf slots acks srv]; dmo; cbn; intro H; try discriminate; right; unfold est_or_cw; cbn;
    (split; [assumption|]); destruct i0; try discriminate; eexists; reflexivity. Qed.

(* the serve thread's poll: where it can be next *)
Lemma seg_poll_shape s tm orc p :
  (p = PPoll0 PollRecv \/ p = PPoll1 PollRecv \/ p = PPoll2 PollRecv) ->
  match o_act (seg Fixed p s tm orc) with
  | AGoto q => q = PPoll1 PollRecv
  | AWait c q => c = RecvReady /\ q = PPoll2 PollRecv
  | ARet _ => True
  | AAlloc _ => False
  end.
Proof. destruct s as [k x b i tb q n rb sb sl ak sv].
  intros [-> | [-> | ->]]; brk; cbn [kd st bound intab tabled rq sq rbuf sbuf slots acks srv]; dmo; cbn; auto. Qed.

(* recv() on a ready DLC returns data or raises nfc.llcp.Error; it neither waits nor returns None *)
Lemma seg_recv_ready s tm orc p :
  (p = PRecv0 \/ p = PRecv1) -> kd s = DLC -> ready s ->
  match o_act (seg Fixed p s tm orc) with
  | AGoto q => q = PRecv1 /\ o_sock (seg Fixed p s tm orc) = s
  | ARet r => r = Ok VData \/ is_llcp r = true
  | _ => False
  end.
Proof. destruct s as [k x b i tb q n rb sb sl ak sv]. unfold ready, est_or_cw. cbn [kd st rq].
  intros [-> | ->] -> [-> | (He & r & ->)]; brk; cbn; dmo; cbn; auto; try (cbn in He; discriminate). Qed.
