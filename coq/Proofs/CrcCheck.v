From Coq Require Import ZArith List Bool Lia ZifyBool.
From NV Require Import Base.Result Base.Bytes Base.PyPrims Model.Crc Proofs.Crc.
Import ListNotations.
Open Scope Z_scope.

Lemma slice0_len (d : list Z) : slice d 0 (len d) = d.
Proof. unfold slice, len. cbn [Z.max]. rewrite Z.max_r by lia. cbn [Z.to_nat skipn].
  rewrite Z.sub_0_r, Z.max_r, Nat2Z.id by lia. apply firstn_all. Qed.

Lemma calculate_crc_all d init : calculate_crc d (len d) init = crc16 init d.
Proof. unfold calculate_crc. rewrite pyslice_0, slice0_len by apply len_nonneg. reflexivity. Qed.

(* the high byte of a 16-bit value needs no mask: the code appends crc >> 8, Annex B (crc >> 8) land 255 *)
Lemma hi_byte c : 0 <= c < 65536 -> Z.land (Z.shiftr c 8) 255 = Z.shiftr c 8.
Proof.
  intro H. apply land255_small. rewrite Z.shiftr_div_pow2 by lia.
  split; [apply Z.div_pos; lia | apply Z.div_lt_upper_bound; lia].
Qed.

Theorem add_crc_a_iso d : bytes_ok d -> add_crc_a d = d ++ iso_crc_a d.
Proof.
  intro Hd. unfold add_crc_a, iso_crc_a. rewrite calculate_crc_all.
  destruct (crc16_agree d 0x6363 ltac:(lia) Hd) as [<- Hr]. rewrite (hi_byte _ Hr). reflexivity.
Qed.

Theorem add_crc_b_iso d : bytes_ok d -> add_crc_b d = d ++ iso_crc_b d.
Proof.
  intro Hd. unfold add_crc_b, iso_crc_b. rewrite calculate_crc_all.
  destruct (crc16_agree d 0xFFFF ltac:(lia) Hd) as [<- _]. rewrite hi_byte by apply land65535_range. reflexivity.
Qed.

Lemma idx_app_len d x y : idx (d ++ [x; y]) (len d) = Ok x /\ idx (d ++ [x; y]) (len d + 1) = Ok y.
Proof.
  unfold idx, len. split.
  - destruct (Z.of_nat (length d) <? 0) eqn:E; [lia|]. rewrite Nat2Z.id, nth_error_app2, Nat.sub_diag by lia. reflexivity.
  - destruct (Z.of_nat (length d) + 1 <? 0) eqn:E; [lia|].
    replace (Z.to_nat (Z.of_nat (length d) + 1)) with (S (length d)) by lia.
    rewrite nth_error_app2 by lia. replace (S (length d) - length d)%nat with 1%nat by lia. reflexivity.
Qed.

Lemma check_with_app final init d x y :
  check_crc_with final init (d ++ [x; y]) =
  Ok ((x =? Z.land (final (crc16 init d)) 255) && (y =? Z.shiftr (final (crc16 init d)) 8)).
Proof.
  unfold check_crc_with. rewrite len_app. change (len [x; y]) with 2.
  replace (len d + 2 - 2) with (len d) by lia. replace (len d + 2 - 1) with (len d + 1) by lia.
  destruct (idx_app_len d x y) as [H1 H2]. rewrite H1, H2. cbn [bind].
  unfold calculate_crc. pose proof (len_nonneg d). rewrite pyslice_0 by lia.
  replace (slice (d ++ [x; y]) 0 (len d)) with d; [reflexivity|].
  unfold slice. cbn [Z.max]. rewrite Z.sub_0_r, Z.max_r by lia. cbn [Z.to_nat skipn].
  symmetry. apply take_len_app.
Qed.

(* a frame is accepted exactly when its last two bytes are the two bytes of the finalised register *)
Lemma check_with_iff final init d x y : 0 <= final (crc16 init d) < 65536 ->
  check_crc_with final init (d ++ [x; y]) = Ok true <->
  [x; y] = [Z.land (final (crc16 init d)) 255; Z.land (Z.shiftr (final (crc16 init d)) 8) 255].
Proof.
  intro Hr. rewrite check_with_app, (hi_byte _ Hr). split.
  - intro H. injection H as H. apply andb_true_iff in H. destruct H as [Hx Hy].
    apply Z.eqb_eq in Hx, Hy. congruence.
  - intro H. injection H as -> ->. rewrite !Z.eqb_refl. reflexivity.
Qed.

Theorem check_crc_a_iff d x y : bytes_ok d ->
  check_crc_a (d ++ [x; y]) = Ok true <-> [x; y] = iso_crc_a d.
Proof.
  intro Hd. unfold iso_crc_a. destruct (crc16_agree d 0x6363 ltac:(lia) Hd) as [<- Hr].
  exact (check_with_iff (fun c => c) 0x6363 d x y Hr).
Qed.

Theorem check_crc_b_iff d x y : bytes_ok d ->
  check_crc_b (d ++ [x; y]) = Ok true <-> [x; y] = iso_crc_b d.
Proof.
  intro Hd. unfold iso_crc_b. destruct (crc16_agree d 0xFFFF ltac:(lia) Hd) as [<- _].
  exact (check_with_iff (fun c => Z.land (Z.lnot c) 0xFFFF) 0xFFFF d x y (land65535_range _)).
Qed.

(* check after add always accepts (non-vacuity of the iff) *)
Corollary check_add_a d : bytes_ok d -> check_crc_a (add_crc_a d) = Ok true.
Proof. intro Hd. rewrite add_crc_a_iso by exact Hd. unfold iso_crc_a. apply check_crc_a_iff; [exact Hd|reflexivity]. Qed.
Corollary check_add_b d : bytes_ok d -> check_crc_b (add_crc_b d) = Ok true.
Proof. intro Hd. rewrite add_crc_b_iso by exact Hd. unfold iso_crc_b. apply check_crc_b_iff; [exact Hd|reflexivity]. Qed.
