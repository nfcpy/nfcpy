(* decode_sound: whatever decode returns is what the independent reading of the frame formats (Model/PduSpec.v)
   assigns to the PDU's own bytes. *)
From Coq Require Import ZArith List Bool Lia ZifyBool.
From NV Require Import Base.Result Base.Bytes Model.Pdu Model.PduSpec
  Proofs.PduBase Proofs.PduWin Proofs.PduTotal Proofs.PduAgf.
Import ListNotations.
Open Scope Z_scope.
Ltac Zify.zify_post_hook ::= Z.to_euclidean_division_equations.

Definition tlv_of (tv : Z * list Z) : tlv :=
  let (T, V) := tv in
  if T =? 1 then TVersion (be8 V) else if T =? 2 then TMiux (be16 V mod 2048) else if T =? 3 then TWks (be16 V)
  else if T =? 4 then TLto (be8 V) else if T =? 5 then TRw (be8 V mod 16) else if T =? 6 then TSn V
  else if T =? 7 then TOpt (be8 V mod 8)
  else if T =? 8 then match V with tid :: sn => TSdreq tid sn | [] => TOther 8 [] end
  else if T =? 9 then match V with [a; b] => TSdres a b | _ => TOther 9 V end
  else if T =? 10 then TEcpk V else if T =? 11 then TRn V else TOther T V.

Lemma tlv_interp_of T L V t : len V = L -> tlv_interp T L V = Ok t -> param_wf (T, V) /\ t = tlv_of (T, V).
Proof.
  intros HL H. revert T L V t H HL.
  apply (tlv_interp_inv (fun T L V t => len V = L -> param_wf (T, V) /\ t = tlv_of (T, V))).
  1-11: intros; rewrite ?land2047, ?land15, ?land7; split; [repeat split; intros; try discriminate; try reflexivity | reflexivity].
  - rewrite len_cons. pose proof (len_nonneg sn). lia.
  - intros T L V HT _. split; [repeat split; intros; lia|]. unfold tlv_of. rewrite !(proj2 (Z.eqb_neq T _)) by lia. reflexivity.
Qed.

Lemma tlvs_w_params step : forall fuel w st p, bytes_ok w -> tlvs_w fuel step w st = Ok p ->
  exists L, params w L /\ Forall param_wf L /\ p = fold_left step (map tlv_of L) st.
Proof.
  induction fuel as [|f IH]; intros w st p Hw H.
  - destruct w as [|T [|L rest]]; cbn [tlvs_w] in H; try discriminate H; injection H as <-.
    + exists []. repeat split; constructor.
    + exists []. repeat split; constructor.
  - destruct w as [|T [|L rest]]; cbn [tlvs_w] in H.
    + injection H as <-. exists []. repeat split; constructor.
    + injection H as <-. exists []. repeat split; constructor.
    + destruct (bytes_ok2_inv _ _ _ Hw) as (_ & HL & Hr).
      pose proof (len_nonneg rest) as Hn.
      destruct (L >? len rest) eqn:E; [discriminate H|].
      assert (Hlt : len (take L rest) = L) by (apply len_take; lia).
      destruct (tlv_interp T L (take L rest)) as [t| | |] eqn:Et; cbn [bind] in H; try discriminate H.
      destruct (tlv_interp_of _ _ _ _ Hlt Et) as [Hwf ->].
      destruct (IH _ _ _ (bytes_ok_drop L _ Hr) H) as (Ls & Hp & Hwfs & ->).
      exists ((T, take L rest) :: Ls). split; [|split].
      * pose proof (params_cons T (take L rest) (drop L rest) Ls Hp) as Hc.
        rewrite Hlt, take_drop in Hc. exact Hc.
      * constructor; assumption.
      * reflexivity.
Qed.

(* a field is the value of the last parameter of its type, or what it was when there is none *)
Definition upd {X} (T : Z) (f : list Z -> X) (L : list (Z * list Z)) (old : X) : X :=
  match last_param T L with Some V => f V | None => old end.

Lemma upd_cons {X} T (f : list Z -> X) T' V r old :
  upd T f ((T', V) :: r) old = upd T f r (if T' =? T then f V else old).
Proof. unfold upd. cbn [last_param]. destruct (last_param T r); [reflexivity|]. destruct (T' =? T); reflexivity. Qed.

(* the twelve shapes of [tlv_of (T, V)], one per tag and one for a tag without a parameter format *)
Lemma tlv_of_cases (P : Z -> tlv -> Prop) V :
  P 1 (TVersion (be8 V)) -> P 2 (TMiux (be16 V mod 2048)) -> P 3 (TWks (be16 V)) -> P 4 (TLto (be8 V)) ->
  P 5 (TRw (be8 V mod 16)) -> P 6 (TSn V) -> P 7 (TOpt (be8 V mod 8)) -> P 8 (tlv_of (8, V)) -> P 9 (tlv_of (9, V)) ->
  P 10 (TEcpk V) -> P 11 (TRn V) -> (forall T, (forall k, 1 <= k <= 11 -> (T =? k) = false) -> P T (TOther T V)) ->
  forall T, P T (tlv_of (T, V)).
Proof.
  intros H1 H2 H3 H4 H5 H6 H7 H8 H9 H10 H11 Ho T. unfold tlv_of.
  repeat match goal with |- context [if T =? ?k then _ else _] => destruct (Z.eqb_spec T k); [subst T; assumption|] end.
  apply Ho. intros k Hk. lia.
Qed.

Lemma pax_fold L : forall d s v m w l o,
  fold_left pax_step (map tlv_of L) (Pax d s v m w l o) =
  Pax d s (upd 1 (fun V => Some (be8 V)) L v) (upd 2 (fun V => Some (be16 V mod 2048)) L m)
          (upd 3 (fun V => Some (be16 V)) L w) (upd 4 (fun V => Some (be8 V)) L l) (upd 7 (fun V => Some (be8 V mod 8)) L o).
Proof.
  induction L as [|[T V] r IH]; intros; [reflexivity|].
  cbn [map fold_left]. rewrite !upd_cons. pattern T, (tlv_of (T, V)). apply tlv_of_cases; try apply IH.
  - destruct V; apply IH.
  - destruct V as [|? [|? [|? ?]]]; apply IH.
  - intros T' HT. rewrite !HT by lia. apply IH.
Qed.

Lemma connect_fold L : forall d s miu rw sn,
  fold_left connect_step (map tlv_of L) (Connect d s miu rw sn) =
  Connect d s (upd 2 (fun V => 128 + be16 V mod 2048) L miu) (upd 5 (fun V => be8 V mod 16) L rw) (upd 6 Some L sn).
Proof.
  induction L as [|[T V] r IH]; intros; [reflexivity|].
  cbn [map fold_left]. rewrite !upd_cons. pattern T, (tlv_of (T, V)). apply tlv_of_cases; try apply IH.
  - destruct V; apply IH.
  - destruct V as [|? [|? [|? ?]]]; apply IH.
  - intros T' HT. rewrite !HT by lia. apply IH.
Qed.

Lemma cc_fold L : forall d s miu rw,
  fold_left cc_step (map tlv_of L) (CC d s miu rw) =
  CC d s (upd 2 (fun V => 128 + be16 V mod 2048) L miu) (upd 5 (fun V => be8 V mod 16) L rw).
Proof.
  induction L as [|[T V] r IH]; intros; [reflexivity|].
  cbn [map fold_left]. rewrite !upd_cons. pattern T, (tlv_of (T, V)). apply tlv_of_cases; try apply IH.
  - destruct V; apply IH.
  - destruct V as [|? [|? [|? ?]]]; apply IH.
  - intros T' HT. rewrite !HT by lia. apply IH.
Qed.

Lemma dps_fold L : forall d s e rn,
  fold_left dps_step (map tlv_of L) (Dps d s e rn) = Dps d s (upd 10 Some L e) (upd 11 Some L rn).
Proof.
  induction L as [|[T V] r IH]; intros; [reflexivity|].
  cbn [map fold_left]. rewrite !upd_cons. pattern T, (tlv_of (T, V)). apply tlv_of_cases; try apply IH.
  - destruct V; apply IH.
  - destruct V as [|? [|? [|? ?]]]; apply IH.
  - intros T' HT. rewrite !HT by lia. apply IH.
Qed.

Lemma snl_fold' L : Forall param_wf L -> forall d s q0 r0,
  fold_left snl_step (map tlv_of L) (Snl d s q0 r0) = Snl d s (q0 ++ sdreqs L) (r0 ++ sdress L).
Proof.
  induction 1 as [|[T V] r Hwf Hr IH]; intros; [cbn; rewrite !app_nil_r; reflexivity|].
  cbn [map fold_left sdreqs sdress]. revert Hwf. pattern T, (tlv_of (T, V)). apply tlv_of_cases; try (intros _; apply IH).
  - (* SDREQ *) intros (_ & _ & _ & _ & _ & _ & H8 & _). specialize (H8 eq_refl). destruct V as [|tid sn]; [cbn in H8; lia|].
    cbn [tlv_of Z.eqb Pos.eqb fold_left snl_step]. rewrite IH, <- app_assoc. reflexivity.
  - (* SDRES *) intros (_ & _ & _ & _ & _ & _ & _ & H9). specialize (H9 eq_refl).
    destruct V as [|a [|b [|c V']]]; rewrite ?len_cons, ?(@len_nil Z) in H9;
      try (pose proof (len_nonneg V')); try lia.
    cbn [tlv_of Z.eqb Pos.eqb fold_left snl_step]. rewrite IH, <- app_assoc. reflexivity.
  - intros T' HT _. rewrite !HT by lia. apply IH.
Qed.

Lemma ptype_arith a b : 0 <= a < 256 -> 0 <= b < 256 ->
  Z.land (Z.shiftr (a * 256 + b) 6) 15 = (a mod 4) * 4 + b / 64.
Proof. intros. rewrite land15, shr6. lia. Qed.

Lemma upd_none T f L : upd T (fun V => Some (f V)) L None = opt_field T f L.
Proof. unfold upd, opt_field. destruct (last_param T L); reflexivity. Qed.
Lemma upd_none_id T L : upd T Some L None = last_param T L.
Proof. unfold upd. destruct (last_param T L); reflexivity. Qed.

Lemma class_w_sound a b info p : 0 <= a < 256 -> 0 <= b < 256 -> bytes_ok info -> a mod 4 * 4 + b / 64 <> 2 ->
  class_w (a mod 4 * 4 + b / 64) (a / 4) (b mod 64) info = Ok p -> denotes1 (a :: b :: info) p.
Proof.
  intros Ha Hb Hi H2 H. unfold class_w in H. cbv zeta in H. unfold denotes1.
  set (d := a / 4) in *. set (s := b mod 64) in *. set (pt := a mod 4 * 4 + b / 64) in *.
  assert (Hpt : 0 <= pt <= 15) by (unfold pt; lia).
  (* only this range of the three header fields is used: without their bodies lia does not redo the divisions at every call *)
  clearbody d s pt. clear Ha Hb.
  pose proof (fun step st => tlvs_w_params step (Z.to_nat (len info)) info st p Hi) as Htlv.
  destruct (pt =? 0) eqn:E0.
  { destruct (negb (d =? 0) || negb (s =? 0)) eqn:Z0; [discriminate H|]. destruct info; [|discriminate H].
    injection H as <-. repeat split; lia. }
  destruct (pt =? 1) eqn:E1.
  { destruct (negb (d =? 0) || negb (s =? 0)) eqn:Z0; [discriminate H|].
    destruct (Htlv _ _ H) as (L & Hp & Hwf & ->). rewrite pax_fold. rewrite !upd_none.
    repeat (split; [lia|]). exists L. repeat split; assumption || reflexivity. }
  destruct (pt =? 3) eqn:E3.
  { injection H as <-. repeat split; lia. }
  destruct (pt =? 4) eqn:E4.
  { destruct (Htlv _ _ H) as (L & Hp & Hwf & ->). rewrite connect_fold. rewrite upd_none_id.
    repeat (split; [lia || reflexivity|]). exists L. repeat split; assumption || reflexivity. }
  destruct (pt =? 5) eqn:E5.
  { injection H as <-. repeat split; lia. }
  destruct (pt =? 6) eqn:E6.
  { destruct (Htlv _ _ H) as (L & Hp & Hwf & ->). rewrite cc_fold.
    repeat (split; [lia || reflexivity|]). exists L. repeat split; assumption || reflexivity. }
  destruct (pt =? 7) eqn:E7.
  { destruct info as [|r [|r2 l]]; try discriminate H. injection H as <-. repeat split; lia. }
  destruct (pt =? 8) eqn:E8.
  { destruct info as [|b0 [|b1 [|b2 [|b3 [|b4 l]]]]]; try discriminate H. injection H as <-.
    destruct (bytes_ok4_inv _ _ _ _ _ Hi) as (B0 & B1 & B2 & B3 & _).
    rewrite !shr4, !land15. repeat (split; [lia || reflexivity|]).
    split; [|lia]. f_equal; [lia|]. f_equal; [lia|]. f_equal; [lia|]. f_equal; lia. }
  destruct (pt =? 9) eqn:E9.
  { destruct (negb (d =? 1) || negb (s =? 1)) eqn:Z1; [discriminate H|].
    destruct (Htlv _ _ H) as (L & Hp & Hwf & ->). rewrite (snl_fold' L Hwf).
    repeat (split; [lia|]). exists L. repeat split; assumption || reflexivity. }
  destruct (pt =? 10) eqn:E10.
  { destruct (negb (d =? 0) || negb (s =? 0)) eqn:Z0; [discriminate H|].
    destruct (Htlv _ _ H) as (L & Hp & Hwf & ->). rewrite dps_fold. rewrite !upd_none_id.
    repeat (split; [lia|]). exists L. repeat split; assumption || reflexivity. }
  destruct (pt =? 12) eqn:E12.
  { destruct info as [|q data]; [discriminate H|]. injection H as <-.
    repeat (split; [lia || reflexivity|]). exists q. rewrite shr4, land15. repeat split; reflexivity. }
  destruct (pt =? 13) eqn:E13.
  { destruct info as [|q data]; [discriminate H|]. injection H as <-.
    repeat (split; [lia || reflexivity|]). exists q, data. rewrite land15. split; reflexivity. }
  destruct (pt =? 14) eqn:E14.
  { destruct info as [|q data]; [discriminate H|]. injection H as <-.
    repeat (split; [lia || reflexivity|]). exists q, data. rewrite land15. split; reflexivity. }
  injection H as <-. split; [reflexivity|]. split; [lia|]. repeat split; reflexivity.
Qed.

Definition wpt (w : list Z) : Z := match w with a :: b :: _ => a mod 4 * 4 + b / 64 | _ => -1 end.
Lemma dec_w_sound agfh w p : bytes_ok w -> dec_w agfh w = Ok p -> denotes1 w p \/ (wpt w = 2 /\ agfh w = Ok p).
Proof.
  intros Hw H. destruct w as [|a [|b info]]; try discriminate H.
  destruct (bytes_ok2_inv _ _ _ Hw) as (Ha & Hb & Hi).
  unfold dec_w in H. cbv zeta in H. rewrite ptype_arith, shr2, land63 in H by assumption.
  destruct (_ =? 2) eqn:E2; [right; split; [cbn [wpt]; lia | exact H]|].
  left. apply class_w_sound; [assumption | assumption | exact Hi | lia | exact H].
Qed.

Lemma sub_w_sound e p : bytes_ok e -> sub_w e = Ok p -> denotes1 e p.
Proof. intros He H. destruct (dec_w_sound _ _ _ He H) as [Hd|[_ Hd]]; [exact Hd | discriminate Hd]. Qed.

Theorem decode_w_sound w p : bytes_ok w -> decode_w w = Ok p -> denotes w p.
Proof.
  intros Hw H. destruct (dec_w_sound _ _ _ Hw H) as [Hd|[Hpt Hd]].
  - destruct p; try exact Hd. destruct w as [|a [|b info]]; contradiction.
  - destruct w as [|a [|b info]]; try discriminate Hd. unfold agfdec_w in Hd.
    destruct (bytes_ok2_inv _ _ _ Hw) as (Ha & Hb & Hinfo).
    destruct (negb (Z.shiftr a 2 =? 0) || negb (Z.land b 63 =? 0)) eqn:Z0; [discriminate Hd|].
    destruct (agf_w (Z.to_nat (len info)) info []) as [l| | |] eqn:El; cbn [bind] in Hd; try discriminate Hd.
    injection Hd as <-.
    destruct (agf_w_members _ _ _ _ Hinfo El) as (subs & ps & Hl & Hi & Hf).
    cbn [app] in Hl. subst l. cbn [denotes].
    cbn [wpt] in Hpt.
    exists a, b, subs. rewrite shr2, land63 in Z0 |- *.
    split; [rewrite Hi; reflexivity|]. repeat (split; [lia|]).
    assert (Hbs : Forall bytes_ok subs) by (apply bytes_ok_frames; rewrite <- Hi; exact Hinfo).
    clear - Hf Hbs. split.
    + revert Hbs. induction Hf as [|e p subs ps [He _] _ IH]; intro Hbs; constructor.
      * apply sub_w_sound; [exact (Forall_inv Hbs) | exact He].
      * apply IH, (Forall_inv_tail Hbs).
    + clear Hbs. induction Hf as [|e p subs ps [_ Hl] _ IH]; [constructor | constructor; assumption].
Qed.

Theorem decode_sound data off size p : 0 <= off -> bytes_ok data ->
  decode data off size = Ok p -> denotes (slice data off (off + size)) p.
Proof. intros Ho Hd E. destruct (decode_ok_w _ _ _ _ Ho Hd E) as [Hs Ew]. exact (decode_w_sound _ _ Hs Ew). Qed.
