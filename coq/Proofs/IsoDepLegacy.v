(* ISO-DEP: what the reader as pinned (without fixes/c12-*.diff) does wrong, as concrete runs of
   the model with the fix flags off, and what remains wrong after the repairs (an exchange
   that follows a failed one).  Witnesses are computed with vm_compute. *)
From Coq Require Import ZArith List Bool Lia ZifyBool.
From NV Require Import Base.Result Base.Bytes Model.IsoDep Proofs.IsoDep Proofs.IsoDepSync.
Import ListNotations.
Open Scope Z_scope.

Definition k_legacy : cfg :=
  {| miu := 13; n_nak := 1; n_ack := 1; fix_wtx_try := false; fix_wtx_chain := false; fix_rack := false |}.
Definition k_repaired : cfg :=
  {| miu := 13; n_nak := 1; n_ack := 1; fix_wtx_try := true; fix_wtx_chain := true; fix_rack := true |}.
Definition kc16 : ccfg := {| cfsc := 16; cmiu := 13 |}.

(* S(WTX) request answered outside the try: the loss of the card's next block escapes as a raw
   nfc.clf.TimeoutError although one lost block is within the retry budget *)
Lemma legacy_wtx_raw_timeout :
  o_res (exchange demo_app 50 k_legacy kc16 [255; 0; 0; 5] 0 (picc_init [[1]]) [(FD, FD); (FD, FL)])
  = Err TimeoutError.
Proof. vm_compute. reflexivity. Qed.
Lemma repaired_wtx_recovers :
  o_res (exchange demo_app 50 k_repaired kc16 [255; 0; 0; 5] 0 (picc_init [[1]]) [(FD, FD); (FD, FL)])
  = Ok (demo_app 0 [255; 0; 0; 5]).
Proof. vm_compute. reflexivity. Qed.

(* S(WTX) while the card chains its response is not honoured: without any fault the exchange fails *)
Lemma legacy_wtx_chaining_fails :
  exists e, o_res (exchange demo_app 50 k_legacy kc16 [255; 0; 0; 30] 0 (picc_init [[]; [3]]) []) = Err (TagCommandError e).
Proof. eexists. vm_compute. reflexivity. Qed.
Lemma repaired_wtx_chaining :
  o_res (exchange demo_app 50 k_repaired kc16 [255; 0; 0; 30] 0 (picc_init [[]; [3]]) []) = Ok (demo_app 0 [255; 0; 0; 30]).
Proof. vm_compute. reflexivity. Qed.

(* a responder that always answers R(ACK) with the other block number keeps the unbudgeted
   reader sending for ever: Hang for EVERY amount of fuel *)
Lemma rack_loop_from k cmd : fix_rack k = false ->
  forall fuel i n, run_stream fuel k cmd (mkp 0 (PSend 0 i (iblock k cmd 0 0))) (fun _ => ARx [163]) n = Hang.
Proof.
  intros Hr fuel. induction fuel as [|f IH]; intros i n; [reflexivity|].
  cbn [run_stream ph mkp].
  change {| pni := 0; ph := PSend 0 i (iblock k cmd 0 0) |} with (mkp 0 (PSend 0 i (iblock k cmd 0 0))).
  change [163] with [Z.lor 162 (flip 0)].
  rewrite (send_rx_rack_other k cmd 0 0 i _ (or_introl eq_refl)), Hr. apply IH.
Qed.

Theorem rack_loop_unbudgeted k cmd : fix_rack k = false -> 0 < miu k -> 0 < len cmd ->
  forall fuel, run_stream fuel k cmd (pcd_start k cmd 0) (fun _ => ARx [163]) 0 = Hang.
Proof.
  intros Hr Hm Hc fuel. rewrite pcd_start_eq by assumption. apply (rack_loop_from k cmd Hr).
Qed.

(* what the repairs do not cure: after an exchange has FAILED (here: the response and the answer to the
   R(NAK) are lost, n_nak = n_ack = 1) reader and card block numbers may be out of step, and the next exchange
   - a single lost block, within the retry limit - makes the card execute the APDU twice *)
Definition after_failure_session : list outcome :=
  session demo_app 50 k_repaired kc16 0 (picc_init [])
    [([255; 1; 0; 5], [(FD, FL); (FD, FL)], []); ([255; 2; 0; 5], [(FD, FL)], [])].

Lemma after_failed_exchange_duplicate :
  map o_res after_failure_session = [Err (TagCommandError E_TIMEOUT); Ok (demo_app 2 [255; 2; 0; 5])] /\
  map (fun o => execs (o_card o)) after_failure_session =
    [[[255; 1; 0; 5]]; [[255; 1; 0; 5]; [255; 2; 0; 5]; [255; 2; 0; 5]]].
Proof. vm_compute. split; reflexivity. Qed.

(* ... or hands the previous command's response to the caller (stale), without executing anything *)
Definition after_failure_stale : list outcome :=
  session demo_app 50 k_repaired kc16 0 (picc_init [])
    [([255; 1; 0; 5], [(FD, FL); (FD, FL)], []); ([255; 2; 0; 5], [(FL, FD)], [])].
Lemma after_failed_exchange_stale :
  map o_res after_failure_stale = [Err (TagCommandError E_TIMEOUT); Ok (demo_app 0 [255; 1; 0; 5])] /\
  map (fun o => execs (o_card o)) after_failure_stale = [[[255; 1; 0; 5]]; [[255; 1; 0; 5]]].
Proof. vm_compute. split; reflexivity. Qed.

Lemma t4_params_fsc fsci fwti max_send max_recv :
  let p := t4_params fsci fwti max_send max_recv in
  a_fsc p <= fsc_of (if fsci >? 8 then 8 else fsci) /\ a_fsc p <= Z.max max_send (a_fsc p) /\
  (a_fsc p <= max_send \/ a_fsc p = fsc_of (if fsci >? 8 then 8 else fsci)) /\ a_miu p = a_fsc p - 3.
Proof.
  cbv zeta. unfold t4_params. cbn [a_fsc a_miu].
  destruct (fsc_of (if fsci >? 8 then 8 else fsci) >? max_send) eqn:E; repeat split; try lia.
Qed.

(* a concrete exchange with chaining both ways, S(WTX) twice and four faulty rounds (non-vacuity) *)
Definition nv_cmd : bytes := [255; 7; 0; 20; 1; 2; 3; 4; 5; 6; 7; 8; 9; 10; 11; 12; 13; 14; 15; 16].
Definition nv_script : list (fate * fate) := [(FL, FD); (FD, FD); (FD, FC); (FD, FD); (FD, FD); (FD, FL); (FC, FD)].
Definition nv_card : picc := picc_init [[]; [7]; [9]].
Definition k_nv : cfg :=
  {| miu := 13; n_nak := 3; n_ack := 3; fix_wtx_try := true; fix_wtx_chain := true; fix_rack := true |}.
Lemma nv_hyps : repaired k_nv /\ params_ok k_nv kc16 /\ in_step 0 nv_card /\ 0 < len nv_cmd /\
  enough_fuel demo_app k_nv nv_cmd nv_card 900.
Proof. unfold repaired, params_ok, in_step, enough_fuel, bit. vm_compute. intuition congruence. Qed.
Lemma nv_run :
  let o := exchange demo_app 900 k_nv kc16 nv_cmd 0 nv_card nv_script in
  o_res o = Ok (demo_app 0 nv_cmd) /\ execs (o_card o) = [nv_cmd] /\ length (o_blocks o) = 10%nat.
Proof. vm_compute. repeat split. Qed.

(* outside C12 (non-conformant responder, recorded for C08): an S(WTX) block without the WTXM byte crashes the
   pinned reader with IndexError (data[1]); with fixes/c08-03 (flags on) it is PROTOCOL_ERROR *)
Lemma short_wtx_crash :
  run_stream 5 k_legacy [0; 164; 0; 0] (pcd_start k_legacy [0; 164; 0; 0] 0) (fun _ => ARx [242]) 0 = Crash IndexErr /\
  run_stream 5 k_repaired [0; 164; 0; 0] (pcd_start k_repaired [0; 164; 0; 0] 0) (fun _ => ARx [242]) 0
    = Err (TagCommandError E_PROTOCOL).
Proof. vm_compute. split; reflexivity. Qed.
