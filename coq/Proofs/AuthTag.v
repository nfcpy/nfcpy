(* C20: the FeliCa Lite reader model talking to the card model over the undisturbed channel. *)
From Coq Require Import ZArith List Bool Lia.
From NV Require Import Base.Result Base.Bytes Base.PyPrims Base.PyAuth Model.Des Model.FelicaMac Proofs.AuthMac.
Import ListNotations.
Open Scope Z_scope.

(* well-formed card: 8-byte IDm, 16-byte blocks *)
Definition ft_wf (tg : ftag) : Prop := length (ft_idm tg) = 8%nat /\ forall b, length (ft_mem tg b) = 16%nat.

Lemma parse_status_ok idm code rest : length idm = 8%nat ->
  parse_rsp idm code true (status_rsp (code + 1) idm 0 0 rest) = Ok rest.
Proof.
  intro H. destruct (list8 idm H) as (a0 & a1 & a2 & a3 & a4 & a5 & a6 & a7 & ->).
  unfold status_rsp, parse_rsp.
  set (body := (code + 1) :: [a0; a1; a2; a3; a4; a5; a6; a7] ++ [0; 0] ++ rest).
  change (idx ((1 + len body) :: body) 0) with (Ok (1 + len body)). cbn [bind].
  replace (1 + len body =? len ((1 + len body) :: body)) with true by (rewrite len_cons; symmetry; apply Z.eqb_refl).
  cbn [negb]. change (idx ((1 + len body) :: body) 1) with (Ok (code + 1)). cbn [bind].
  rewrite Z.eqb_refl. cbn [negb andb].
  change (slice ((1 + len body) :: body) 2 10) with [a0; a1; a2; a3; a4; a5; a6; a7].
  rewrite list_eqb_refl. cbn [negb].
  change (idx ((1 + len body) :: body) 10) with (Ok 0). cbn [bind Z.eqb negb].
  reflexivity.
Qed.

(* what the card checks of a frame before it looks at the command *)
Lemma frame_parts idm code data : length idm = 8%nat ->
  (2 + len idm + len data =? len ((2 + len idm + len data) :: code :: idm ++ data)) = true /\
  firstn 8 (idm ++ data) = idm /\ skipn 8 (idm ++ data) = data.
Proof.
  intro H8. split; [rewrite !len_cons, len_app; apply Z.eqb_eq; lia|].
  split; [apply firstn_len_app, H8 | apply skipn_len_app, H8].
Qed.

Lemma honest_send tg tg' st code data rest :
  length (ft_idm tg) = 8%nat -> 10 + len data <= 255 ->
  ftag_step tg ((2 + len (ft_idm tg) + len data) :: code :: ft_idm tg ++ data)
    = (tg', Some (status_rsp (code + 1) (ft_idm tg) 0 0 rest)) ->
  send_cmd_recv_rsp honest (ft_idm tg) code data true (tg, st) = ((tg', st), Ok rest).
Proof.
  intros H8 Hn HB. unfold send_cmd_recv_rsp. cbn [fst snd].
  assert (Hl : len (ft_idm tg) = 8) by exact (len_length _ 8 H8).
  replace (255 <? 2 + len (ft_idm tg) + len data) with false by lia.
  cbn [exchange_retry]. unfold honest. rewrite HB.
  cbn [bind]. rewrite parse_status_ok by assumption. reflexivity.
Qed.

Definition code2 (b : Z) : list Z := [128; b].

Lemma block_codes_small bl : Forall (fun b => 0 <= b < 256) bl -> block_codes bl = Ok (concat (map code2 bl)).
Proof.
  induction 1 as [|b r Hb _ IH]; [reflexivity|].
  cbn [block_codes map concat]. unfold block_code.
  replace (b <? 0) with false by lia.
  replace (b <? 256) with true by lia.
  cbn [bind]. rewrite IH. reflexivity.
Qed.

Lemma parse_block_list_small bl rest :
  parse_block_list (length bl) (concat (map code2 bl) ++ rest) = Some (bl, rest).
Proof.
  induction bl as [|b r IH]; [reflexivity|].
  cbn [length map concat code2 app]. change (parse_block_list (S (length r)) (128 :: b :: concat (map code2 r) ++ rest))
    with (match parse_block_list (length r) (concat (map code2 r) ++ rest) with Some (bs, r') => Some (b :: bs, r') | None => None end).
  rewrite IH. reflexivity.
Qed.

Lemma len_codes bl : len (concat (map code2 bl)) = 2 * len bl.
Proof. induction bl as [|b r IH]; [reflexivity|]. cbn [map concat code2]. rewrite len_app, IH, len_cons. change (len (code2 b)) with 2. lia. Qed.

Lemma honest_read tg st bl data :
  length (ft_idm tg) = 8%nat -> Forall (fun b => 0 <= b < 256) bl -> 1 <= len bl <= 4 ->
  read_data tg bl [] = Some data -> len data = 16 * len bl ->
  read_blocks honest (ft_idm tg) bl (tg, st) = ((tg, st), Ok data).
Proof.
  intros H8 Hbl Hn HR HL. unfold read_blocks, bindM, lift.
  replace (255 <? len bl) with false by lia.
  rewrite block_codes_small by assumption.
  rewrite (honest_send tg tg st 6 _ (len bl :: data)); try assumption.
  - replace (len (len bl :: data) =? 1 + 16 * len bl) with true by (rewrite len_cons; symmetry; apply Z.eqb_eq; lia).
    reflexivity.
  - rewrite len_app, len_codes. change (len [1; 11; 0; len bl]) with 4. lia.
  - destruct (frame_parts (ft_idm tg) 6 ([1; 11; 0; len bl] ++ concat (map code2 bl)) H8) as (F1 & F2 & F3).
    unfold ftag_step. rewrite F1, F2, F3, list_eqb_refl. cbn [negb Z.eqb app].
    change (Z.to_nat (len bl)) with (Z.to_nat (Z.of_nat (length bl))). rewrite Nat2Z.id.
    rewrite <- (app_nil_r (concat (map code2 bl))), parse_block_list_small.
    replace ((len bl <? 1) || (4 <? len bl)) with false by lia.
    rewrite HR. reflexivity.
Qed.

Lemma honest_write tg st b d :
  length (ft_idm tg) = 8%nat -> 0 <= b < 256 -> len d = 16 ->
  block_exists tg b && plain_writable tg b = true ->
  write_without_mac honest (ft_idm tg) d b (tg, st) = ((do_write tg b d, st), Ok tt).
Proof.
  intros H8 Hb Hd HW. unfold write_without_mac. rewrite Hd. cbn [Z.eqb Pos.eqb negb].
  unfold write_blocks, bindM, lift. change (255 <? len [b]) with false. cbv iota.
  rewrite block_codes_small by (constructor; [lia|constructor]).
  cbn [map concat code2 app].
  rewrite (honest_send tg (do_write tg b d) st 8 _ []); try assumption.
  - reflexivity.
  - rewrite !len_cons, Hd. lia.
  - destruct (frame_parts (ft_idm tg) 8 (1 :: 9 :: 0 :: len [b] :: 128 :: b :: d) H8) as (F1 & F2 & F3).
    unfold ftag_step. rewrite F1, F2, F3, list_eqb_refl. cbn [negb Z.eqb Pos.eqb].
    change (parse_block_list (Z.to_nat (len [b])) (128 :: b :: d)) with (Some ([b], d)). cbv iota.
    rewrite Hd, HW. reflexivity.
Qed.

(* the card does not answer the NFC Forum poll: "self.ndef is not None" is False *)
Lemma honest_ndef_probe tg st : ndef_probe honest (ft_idm tg) (tg, st) = ((tg, st), Ok false).
Proof. reflexivity. Qed.

Lemma felica_key_pw pw : pw_len_bad (Some pw) = false -> felica_key pw = Ok (pw_key pw).
Proof. unfold felica_key, pw_key, pw_len_bad. intros ->. reflexivity. Qed.

Lemma felica_key_length pw key : felica_key pw = Ok key -> length key = 16%nat.
Proof.
  unfold felica_key. destruct ((0 <? len pw) && (len pw <? 16)) eqn:E; [discriminate|].
  intro H. replace key with (if len pw =? 0 then zeros 16 else firstn 16 pw) by congruence.
  destruct (len pw =? 0) eqn:E0; [reflexivity|]. rewrite firstn_length. unfold len in *. lia.
Qed.

Lemma pw_key_length pw : pw_len_bad (Some pw) = false -> length (pw_key pw) = 16%nat.
Proof. intro H. exact (felica_key_length _ _ (felica_key_pw pw H)). Qed.

(* the card after the reader has written the challenge *)
Definition with_rc (tg : ftag) (rc : list Z) : ftag :=
  mkFT (ft_lites tg) (ft_idm tg) (mem_set (ft_mem tg) 128 (rev_halves rc)) false.

Lemma ft_rc_with_rc tg rc : length rc = 16%nat -> ft_rc (with_rc tg rc) = rc.
Proof. exact (rev_halves_invol rc). Qed.

Lemma with_rc_wf tg rc : ft_wf tg -> length rc = 16%nat -> ft_wf (with_rc tg rc).
Proof.
  intros [H8 H16] Hrc. split; [exact H8|]. exact (mem_set_length _ 128 _ _ H16 (rev_halves_length rc Hrc)).
Qed.

Lemma ft_mac_spec tg d : len d mod 8 = 0 -> 8 <= len d -> length (ft_rc tg) = 16%nat ->
  exists m, generate_mac d (ft_sk tg) (firstn 8 (ft_rc tg)) false = Ok m /\ length m = 8%nat /\ ft_mac tg d = m ++ zeros 8.
Proof.
  intros Hd H8 Hrc.
  destruct (generate_mac_ok d (ft_sk tg) (firstn 8 (ft_rc tg)) false Hd) as (m & Hm & Hl).
  - (* unfold first: unification through ft_sk would start unfolding the cipher *)
    unfold ft_sk. apply (len_length _ 16), session_key_length, Hrc.
  - unfold len. rewrite firstn_length, Hrc. reflexivity.
  - exists m. split; [exact Hm|]. specialize (Hl H8). split; [exact Hl|].
    unfold ft_mac. rewrite Hm. unfold pad16. rewrite Hl. reflexivity.
Qed.

Theorem lite_auth_honest tg st pw rc key :
  ft_wf tg -> length rc = 16%nat -> felica_key pw = Ok key ->
  exists mt mr,
    generate_mac (ft_mem tg 130) (session_key (ft_ck tg) rc) (firstn 8 rc) false = Ok mt /\
    generate_mac (ft_mem tg 130) (session_key key rc) (firstn 8 rc) false = Ok mr /\
    lite_authenticate honest (ft_idm tg) pw rc (tg, st) =
      ((with_rc tg rc, if list_eqb mt mr then mkR (Some (session_key key rc)) (Some (firstn 8 rc)) true
                       else mkR (r_sk st) (r_iv st) false), Ok (list_eqb mt mr)).
Proof.
  intros [H8 H16] Hrc Hk.
  set (tg1 := with_rc tg rc).
  pose proof (ft_rc_with_rc tg rc Hrc) as Hrc1. fold tg1 in Hrc1.
  assert (Hidl : len (ft_mem tg 130) = 16) by (apply (len_length _ 16), H16).
  destruct (ft_mac_spec tg1 (ft_mem tg 130)) as (mt & Hmt & Hmtl & Hmac);
    [rewrite Hidl; reflexivity | lia | rewrite Hrc1; exact Hrc|].
  unfold ft_sk in Hmt. rewrite Hrc1 in Hmt. change (ft_ck tg1) with (ft_ck tg) in Hmt.
  destruct (generate_mac_ok (ft_mem tg 130) (session_key key rc) (firstn 8 rc) false) as (mr & Hmr & _).
  { rewrite Hidl. reflexivity. }
  { apply (len_length _ 16), session_key_length, Hrc. }
  { unfold len. rewrite firstn_length, Hrc. reflexivity. }
  exists mt, mr. split; [exact Hmt|]. split; [exact Hmr|].
  set (st1 := mkR (r_sk st) (r_iv st) false).
  apply (lite_authenticate_generic honest (ft_idm tg) pw rc key (tg, st) (tg1, st1) (tg1, st1) (ft_mem tg 130) mt (zeros 8) mr Hk).
  - cbn [fst snd]. rewrite honest_write; [reflexivity | exact H8 | lia | apply (len_length _ 16), rev_halves_length, Hrc | reflexivity].
  - unfold read_without_mac. change (ft_idm tg) with (ft_idm tg1). apply honest_read.
    + exact H8.
    + repeat constructor; lia.
    + cbn; lia.
    + change (read_data tg1 [130; 129] []) with (Some (ft_mem tg 130 ++ ft_mac tg1 (ft_mem tg 130))).
      rewrite Hmac. reflexivity.
    + rewrite !len_app, Hidl. unfold len. rewrite Hmtl. reflexivity.
  - unfold len. rewrite Hmtl. reflexivity.
  - reflexivity.
  - exact Hmr.
Qed.

(* authenticate(pw) is true exactly when the MAC under the key derived from pw equals the MAC the
   card computed under its own key *)
Theorem lite_auth_iff_mac tg st pw rc key :
  ft_wf tg -> length rc = 16%nat -> felica_key pw = Ok key ->
  exists b, snd (lite_authenticate honest (ft_idm tg) pw rc (tg, st)) = Ok b /\
    (b = true <->
     generate_mac (ft_mem tg 130) (session_key key rc) (firstn 8 rc) false =
     generate_mac (ft_mem tg 130) (session_key (ft_ck tg) rc) (firstn 8 rc) false).
Proof.
  intros Hwf Hrc Hk. destruct (lite_auth_honest tg st pw rc key Hwf Hrc Hk) as (mt & mr & Hmt & Hmr & HA).
  exists (list_eqb mt mr). rewrite HA. split; [reflexivity|]. rewrite Hmt, Hmr, list_eqb_eq.
  split; [intros ->; reflexivity | intro H; injection H as ->; reflexivity].
Qed.

(* the card holds the key of the password, up to parity bits *)
Theorem lite_auth_same_key_full tg st pw rc key :
  ft_wf tg -> length rc = 16%nat -> felica_key pw = Ok key -> key_equiv key (ft_ck tg) ->
  lite_authenticate honest (ft_idm tg) pw rc (tg, st) =
    ((with_rc tg rc, mkR (Some (session_key key rc)) (Some (firstn 8 rc)) true), Ok true).
Proof.
  intros Hwf Hrc Hk He. destruct (lite_auth_honest tg st pw rc key Hwf Hrc Hk) as (mt & mr & Hmt & Hmr & HA).
  pose proof (felica_key_length pw key Hk) as Hkl.
  rewrite <- (session_key_equiv key (ft_ck tg) rc) in Hmt by (assumption || lia).
  assert (mt = mr) by congruence. subst mt. rewrite HA, list_eqb_refl. reflexivity.
Qed.

Theorem lite_auth_same_key tg st pw rc key :
  ft_wf tg -> length rc = 16%nat -> felica_key pw = Ok key -> key_equiv key (ft_ck tg) ->
  snd (lite_authenticate honest (ft_idm tg) pw rc (tg, st)) = Ok true /\
  snd (fst (lite_authenticate honest (ft_idm tg) pw rc (tg, st))) = mkR (Some (session_key key rc)) (Some (firstn 8 rc)) true.
Proof. intros Hwf Hrc Hk He. rewrite (lite_auth_same_key_full tg st pw rc key Hwf Hrc Hk He). split; reflexivity. Qed.

Section OtherKey.
  (* the ideal-MAC premise: for this challenge and ID block the MAC determines the card key up to
     parity bits.  A hypothesis of the theorem, not an axiom. *)
  Variable idb rc : list Z.
  Hypothesis mac_injective : forall k1 k2,
    generate_mac idb (session_key k1 rc) (firstn 8 rc) false = generate_mac idb (session_key k2 rc) (firstn 8 rc) false ->
    key_equiv k1 k2.

  (* [_sec]: under the premise [mac_injective] *)
  Theorem lite_auth_other_key_sec tg st pw key :
    ft_wf tg -> length rc = 16%nat -> ft_mem tg 130 = idb -> felica_key pw = Ok key -> ~ key_equiv key (ft_ck tg) ->
    snd (lite_authenticate honest (ft_idm tg) pw rc (tg, st)) = Ok false.
  Proof.
    intros Hwf Hrc Hid Hk Hne. destruct (lite_auth_iff_mac tg st pw rc key Hwf Hrc Hk) as (b & Hb & Hiff).
    rewrite Hb. destruct b; [|reflexivity]. exfalso. apply Hne, mac_injective. rewrite <- Hid. apply Hiff. reflexivity.
  Qed.
End OtherKey.

Lemma idx_nth (l : list Z) (n : nat) : (n < length l)%nat -> idx l (Z.of_nat n) = Ok (nth n l 0).
Proof. intro H. rewrite Bytes.idx_nth by (unfold len; lia). now rewrite Nat2Z.id. Qed.

(* the position is given as a test, so that a caller with a concrete position closes it by evaluation *)
Lemma set_slice_len l a v n : len l = n -> (0 <=? a) && (a + len v <=? n) = true -> len (set_slice l a v) = n.
Proof.
  intros <- Ha. unfold set_slice, take, drop, len in *. rewrite !app_length, firstn_length, skipn_length. lia.
Qed.

Definition with_block (tg : ftag) (b : Z) (d : list Z) : ftag :=
  mkFT (ft_lites tg) (ft_idm tg) (mem_set (ft_mem tg) b d) (ft_ext tg).

Lemma with_block_wf tg b d : ft_wf tg -> length d = 16%nat -> ft_wf (with_block tg b d).
Proof.
  intros [H8 H16] Hd. split; [exact H8|]. exact (mem_set_length _ b d _ H16 Hd).
Qed.

(* reading one block that is neither the MAC nor the STATE block *)
Lemma honest_read1 tg st b :
  ft_wf tg -> 0 <= b < 256 -> block_readable tg b = true -> b <> 129 -> b <> 146 ->
  read_without_mac honest (ft_idm tg) [b] (tg, st) = ((tg, st), Ok (ft_mem tg b)).
Proof.
  intros [H8 H16] Hb Hr H129 H146. apply honest_read; [exact H8 | repeat constructor; lia | cbn; lia | | rewrite (len_length _ 16 (H16 b) : len _ = 16); reflexivity].
  cbn [read_data]. rewrite Hr. apply Z.eqb_neq in H129, H146. rewrite H129, H146. reflexivity.
Qed.

(* writing CKV, CK or MC while the MC block still leaves the system blocks open *)
Lemma honest_write_sys tg st b d :
  ft_wf tg -> mc_sys_open tg = true -> 134 <= b <= 136 -> length d = 16%nat ->
  write_without_mac honest (ft_idm tg) d b (tg, st) = ((with_block tg b d, st), Ok tt).
Proof.
  intros [H8 _] Hs Hb Hd. assert (b = 134 \/ b = 135 \/ b = 136) as [-> | [-> | ->]] by lia;
    (rewrite honest_write; [reflexivity | exact H8 | lia | apply (len_length _ 16), Hd | unfold plain_writable; rewrite Hs; reflexivity]).
Qed.

(* protect(pw) on a card whose system blocks are still writable stores the key derived from pw and
   returns True *)
Theorem lite_protect_honest tg st pw pf :
  ft_wf tg -> nth 2 (ft_mem tg 136) 0 = 255 -> pw_len_bad (Some pw) = false -> 0 <= pf ->
  exists tg', lite_protect honest (ft_idm tg) (Some pw) false pf (tg, st) = ((tg', st), Ok PTrue) /\
    ft_wf tg' /\ ft_idm tg' = ft_idm tg /\ ft_ck tg' = pw_key pw.
Proof.
  intros Hwf Hmc Hpw Hpf. pose proof Hwf as [H8 H16].
  assert (Hs : mc_sys_open tg = true) by (unfold mc_sys_open; rewrite Hmc; reflexivity).
  pose proof (pw_key_length pw Hpw) as Hkl.
  unfold lite_protect. rewrite Hpw.
  replace (pf <? 0) with false by lia. cbv iota.
  unfold bindM at 1. rewrite honest_read1 by (assumption || easy).
  unfold bindM at 1. unfold lift at 1. rewrite (idx_nth _ 2) by (rewrite H16; lia).
  rewrite Hmc. cbn [Z.eqb Pos.eqb negb]. cbv iota.
  unfold bindM at 1. rewrite honest_write_sys by (assumption || lia || apply rev_halves_length, Hkl).
  set (tg1 := with_block tg 135 (rev_halves (pw_key pw))).
  assert (Hwf1 : ft_wf tg1) by (apply with_block_wf; [exact Hwf | apply rev_halves_length, Hkl]).
  set (mc1 := if pf <? 14 then set_slice (ft_mem tg 136) 0 (le16 (Z.lxor 32767 (2 ^ 14 - 2 ^ pf))) else ft_mem tg 136).
  assert (Hmc1 : len mc1 = 16).
  { unfold mc1. destruct (pf <? 14); [|apply (len_length _ 16), H16]. apply set_slice_len; [apply (len_length _ 16), H16 | reflexivity]. }
  assert (Hprobe : (if pf =? 0 then ndef_probe honest (ft_idm tg) else ret false) (tg1, st) = ((tg1, st), Ok false)).
  { destruct (pf =? 0); [apply (honest_ndef_probe tg1 st) | reflexivity]. }
  unfold bindM at 1. rewrite Hprobe. cbv iota.
  assert (Hmc2 : length (set_slice mc1 2 [0]) = 16%nat).
  { apply Nat2Z.inj, (set_slice_len mc1 2 [0] 16); [exact Hmc1 | reflexivity]. }
  unfold bindM. change (ft_idm tg) with (ft_idm tg1).
  rewrite honest_write_sys by (assumption || lia).
  eexists. split; [reflexivity|]. split; [apply with_block_wf; assumption|]. split; [reflexivity|].
  exact (rev_halves_invol _ Hkl).
Qed.

Theorem lite_protect_then_auth tg st pw pf rc :
  ft_wf tg -> nth 2 (ft_mem tg 136) 0 = 255 -> pw_len_bad (Some pw) = false -> 0 <= pf -> length rc = 16%nat ->
  exists s1, lite_protect honest (ft_idm tg) (Some pw) false pf (tg, st) = (s1, Ok PTrue) /\
             snd (lite_authenticate honest (ft_idm tg) pw rc s1) = Ok true.
Proof.
  intros Hwf Hmc Hpw Hpf Hrc.
  destruct (lite_protect_honest tg st pw pf Hwf Hmc Hpw Hpf) as (tg' & HP & Hwf' & Hid & Hck).
  exists (tg', st). split; [exact HP|]. rewrite <- Hid.
  rewrite (lite_auth_same_key_full tg' st pw rc (pw_key pw) Hwf' Hrc (felica_key_pw pw Hpw)); [reflexivity|].
  rewrite Hck. apply key_equiv_refl.
Qed.
