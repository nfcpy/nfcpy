(* C05 -> C06: the data link connection pair (Model/Dlc.v) refines the reliable FIFO message channel
   that the SNEP / handover theorems of C06 are stated over (Model/Snep.v: chan_ops, instance
   list_chan: one list per direction, put appends at the end, get removes the head, messages
   limited by a maximum size).  Abstraction: what is in transit in direction sd =
     receive queue of the receiver ++ data of the I PDUs on the wire ++ data of the I PDUs in the
     sender's send queue.
   Of C06's files only list_chan (with list_chan_ok of Proofs/SnepSched.v), too_big and input are used. *)
From Coq Require Import ZArith List Bool Lia ZifyBool.
From NV Require Import Base.Result Base.Bytes Model.Snep Proofs.SnepSched.
From NV Require Import Model.Dlc Proofs.DlcBase Proofs.Dlc Proofs.DlcCor Proofs.DlcLive.
Import ListNotations.
Open Scope Z_scope.

Definition abs_dir (sd : side) (s : sys) : list msg :=
  rq (get_ep s (other sd)) ++ map snd (Is (get_w s sd)) ++ map snd (Is (sq (get_ep s sd))).

Lemma inv_abs s sd : Inv s -> sent (get_g s sd) = dlv (get_g s sd) ++ abs_dir sd s.
Proof. intro HI. destruct (HI sd) as (HD & _). unfold Dir in HD. dir_intro HD. unfold abs_dir. rewrite <- map_app. exact Hsent. Qed.

(* the one equation behind everything: what recv returned in this step ++ new content = old content ++ what send accepted *)
Lemma abs_step s o sd : Inv s ->
  let e := (o, snd (step_full s o)) in
  returned1 (other sd) e ++ abs_dir sd (step s o) = abs_dir sd s ++ accepted1 sd e.
Proof.
  intros HI e. pose proof (inv_abs s sd HI) as H0. pose proof (inv_abs _ sd (inv_step s o HI)) as H1.
  destruct (ghost_step s o sd) as (Hs & Hd).
  fold e in Hs, Hd. rewrite Hs, Hd, H0, <- !app_assoc in H1. apply app_inv_head in H1. symmetry. exact H1.
Qed.

(* a step that is no event of direction sd leaves its content alone *)
Lemma abs_quiet s o sd : Inv s ->
  accepted1 sd (o, snd (step_full s o)) = [] -> returned1 (other sd) (o, snd (step_full s o)) = [] ->
  abs_dir sd (step s o) = abs_dir sd s.
Proof.
  intros HI Ha Hr. pose proof (abs_step s o sd HI) as H. cbv zeta in H. rewrite Ha, Hr, app_nil_r in H. exact H.
Qed.

Theorem refine_send s sd m : Inv s ->
  match snd (step_full s (Send sd m)) with
  | OSend (Ok _) => abs_dir sd (step s (Send sd m)) = abs_dir sd s ++ [m] /\ len m <= smiu (get_ep s sd)
  | _ => step s (Send sd m) = s
  end /\ abs_dir (other sd) (step s (Send sd m)) = abs_dir (other sd) s.
Proof.
  intro HI. split; [|apply abs_quiet; [exact HI | apply accepted1_other | reflexivity]].
  pose proof (abs_step s (Send sd m) sd HI) as H1. cbv zeta in H1. unfold returned1, accepted1 in H1.
  unfold step, step_full, ep_send in *.
  destruct (negb (est (get_ep s sd))); [reflexivity|].
  destruct (smiu (get_ep s sd) <? len m) eqn:E1; [reflexivity|].
  destruct (send_window_slots (get_ep s sd) =? 0); [reflexivity|].
  cbn [fst snd] in *. rewrite side_eqb_refl in H1. split; [exact H1|lia].
Qed.

Theorem refine_recv s sd : Inv s ->
  match snd (step_full s (Recv sd)) with
  | ORecv (Ok (Some d)) => abs_dir (other sd) s = d :: abs_dir (other sd) (step s (Recv sd))
  | _ => step s (Recv sd) = s
  end /\ abs_dir sd (step s (Recv sd)) = abs_dir sd s.
Proof.
  intro HI. split; [|apply abs_quiet; [exact HI | reflexivity | apply returned1_other]].
  pose proof (abs_step s (Recv sd) (other sd) HI) as H1.
  cbv zeta in H1. unfold returned1, accepted1 in H1. rewrite other_other, app_nil_r in H1.
  apply (inv_view s sd), pair_recv in HI.
  unfold step, step_full in *. destruct (rq (get_ep s sd)) as [|d q].
  - rewrite HI. apply set_ep_same.
  - destruct HI as [HI _]. rewrite HI in *. cbn [fst snd] in *. rewrite side_eqb_refl in H1. symmetry. exact H1.
Qed.

Definition internal (o : op) : Prop := match o with Send _ _ | Recv _ => False | _ => True end.

Theorem refine_internal s o sd : Inv s -> internal o -> abs_dir sd (step s o) = abs_dir sd s.
Proof. intros HI Ho. destruct o; try contradiction; apply abs_quiet; trivial. Qed.

Lemma refine_internal_n ops : forall s sd, Inv s -> Forall internal ops -> abs_dir sd (fold_left step ops s) = abs_dir sd s.
Proof.
  induction ops as [|o ops IH]; intros s sd HI Ho; [reflexivity|]. inversion Ho; subst. cbn [fold_left].
  rewrite IH by (auto using inv_step). apply refine_internal; assumption.
Qed.

(* no endpoint function writes the send MIU *)
Lemma smiu_op : forall x w o, smiu (ep_op x w o) = smiu x.
Proof.
  assert (Hnr : forall x nr, smiu (process_nr x nr) = smiu x).
  { intros. unfold process_nr. destruct ((nr - vsa x) mod 16 =? 0); reflexivity. }
  assert (Hsend : forall x m, smiu (fst (ep_send x m)) = smiu x).
  { intros. unfold ep_send. repeat match goal with |- context [if ?b then _ else _] => destruct b end; reflexivity. }
  pose proof (fun x => proj2 (recv_nb_keeps x)) as Hrecv.
  assert (Hpa : forall x, smiu (fst (ep_poll_acks x)) = smiu x).
  { intros. unfold ep_poll_acks. repeat match goal with |- context [if ?b then _ else _] => destruct b end; reflexivity. }
  assert (Hnec : forall x, smiu (fst (necessary_ack x)) = smiu x).
  { intros. unfold necessary_ack, ack_now. match goal with |- context [if ?b then _ else _] => destruct b end; reflexivity. }
  assert (Hsa : forall x, smiu (fst (ep_sendack x)) = smiu x).
  { intros. unfold ep_sendack, ack_now. match goal with |- context [if ?b then _ else _] => destruct b end; reflexivity. }
  assert (Hdq : forall x a b, smiu (fst (ep_dequeue x a b)) = smiu x).
  { intros. unfold ep_dequeue. destruct (est x && negb (eqb (busy_sent x) (busy x))); [reflexivity|].
    destruct (sq x) as [|p q]; [apply Hnec|]. destruct (a <? pdu_info_size p b); [apply Hnec|].
    destruct p; try reflexivity. destruct (est x); [|reflexivity].
    destruct (negb (confs x =? 0) && negb (vr x =? vra x)); reflexivity. }
  assert (Henq : forall x p, smiu (fst (ep_enqueue x p)) = smiu x).
  { intros. unfold ep_enqueue. destruct (negb (est x)); [reflexivity|]. destruct p; cbn [fst]; sim; rewrite ?Hnr; try reflexivity.
    destruct (rmiu x <? len data); [reflexivity|]. destruct (negb (ns =? vr x)); [reflexivity|].
    match goal with |- context [if ?b then _ else _] => destruct b end; cbn [fst]; sim; apply Hnr. }
  intros x w o. destruct o; cbn [ep_op]; auto.
  - destruct (snd (ep_send x m)); auto.
  - destruct w; auto.
Qed.

Lemma smiu_step s o sd : smiu (get_ep (step s o) sd) = smiu (get_ep s sd).
Proof.
  destruct (step_frame s o) as (H1 & H2 & _).
  assert (sd = op_side o \/ sd = other (op_side o)) as [-> | ->] by (destruct sd, (op_side o); auto).
  - rewrite H1. apply smiu_op.
  - rewrite H2. reflexivity.
Qed.

(* the observable history is a history of the two-list FIFO channel of C06 *)
Definition cq := (Q list_chan * Q list_chan)%type.          (* queue of direction A->B, of direction B->A *)
Definition getq (q : cq) (sd : side) : Q list_chan := match sd with A => fst q | B => snd q end.
Definition setq (q : cq) (sd : side) (x : Q list_chan) : cq := match sd with A => (x, snd q) | B => (fst q, x) end.

(* what an event of the DLC history is at the channel: put / get exactly as C06's gstep uses them *)
Definition chan_event (miu : side -> Z) (e : op * out) (q q' : cq) : Prop :=
  match e with
  | (Send sd m, OSend (Ok _)) =>
      too_big (miu sd) (IMsg m) = false /\ q' = setq q sd (qput list_chan (getq q sd) (IMsg m))
  | (Recv sd, ORecv (Ok (Some d))) =>
      exists rest, qget list_chan (getq q (other sd)) = Some (IMsg d, rest) /\ q' = setq q (other sd) rest
  | _ => q' = q
  end.
Fixpoint chan_hist (miu : side -> Z) (h : list (op * out)) (q q' : cq) : Prop :=
  match h with
  | [] => q' = q
  | e :: r => exists q1, chan_event miu e q q1 /\ chan_hist miu r q1 q'
  end.

Definition absq (s : sys) : cq := (map IMsg (abs_dir A s), map IMsg (abs_dir B s)).
Definition miu_of (s : sys) (sd : side) : Z := smiu (get_ep s sd).

Lemma absq_get s sd : getq (absq s) sd = map IMsg (abs_dir sd s). Proof. destruct sd; reflexivity. Qed.
Lemma absq_set s s' sd : abs_dir (other sd) s' = abs_dir (other sd) s -> absq s' = setq (absq s) sd (map IMsg (abs_dir sd s')).
Proof. unfold absq. destruct sd; cbn [other setq fst snd]; intros ->; reflexivity. Qed.

Lemma refine_event s o lim : Inv s -> (forall sd, lim sd = miu_of s sd) ->
  chan_event lim (o, snd (step_full s o)) (absq s) (absq (step s o)).
Proof.
  intros HI Hm. unfold chan_event.
  assert (Hint : internal o -> absq (step s o) = absq s).
  { intro Ho. unfold absq. rewrite !refine_internal by assumption. reflexivity. }
  destruct o as [sd m|sd|sd b|sd|sd miu icv|sd|sd]; try (apply Hint; exact I).
  - destruct (refine_send s sd m HI) as [H1 H2].
    destruct (snd (step_full s (Send sd m))) as [r| | | | |]; try (rewrite H1; reflexivity).
    destruct r as [a|e| |]; try (rewrite H1; reflexivity).
    destruct H1 as [H1 Hlen]. split.
    + rewrite Hm. unfold too_big, miu_of. lia.
    + rewrite (absq_set s _ sd H2), H1, absq_get, map_app. reflexivity.
  - destruct (refine_recv s sd HI) as [H1 H2].
    destruct (snd (step_full s (Recv sd))) as [|r| | | |]; try (rewrite H1; reflexivity).
    destruct r as [[d|]|e| |]; try (rewrite H1; reflexivity).
    exists (map IMsg (abs_dir (other sd) (step s (Recv sd)))). split.
    + rewrite absq_get, H1. reflexivity.
    + apply absq_set. rewrite other_other. exact H2.
Qed.

Lemma refine_fifo_from ops : forall s miu, Inv s -> (forall sd, miu sd = miu_of s sd) ->
  chan_hist miu (outs s ops) (absq s) (absq (fold_left step ops s)).
Proof.
  induction ops as [|o ops IH]; intros s miu HI Hm; cbn [outs chan_hist fold_left]; [reflexivity|].
  exists (absq (step s o)). split.
  - apply refine_event; assumption.
  - apply IH; [apply inv_step, HI|]. intro sd. rewrite Hm. unfold miu_of. symmetry. apply smiu_step.
Qed.

Definition cfg_miu (c : cfg) (sd : side) : Z := match sd with A => miu_b c | B => miu_a c end.

Theorem refine_fifo c ops : cfg_ok c ->
  chan_hist (cfg_miu c) (outs (init c) ops) (qnew list_chan, qnew list_chan) (absq (run c ops)).
Proof.
  intro Hc. change (qnew list_chan, qnew list_chan) with (absq (init c)).
  apply refine_fifo_from; [apply inv_init, Hc|]. intro sd. destruct sd; reflexivity.
Qed.

(* the abstraction is the qlist of C06's channel laws for list_chan *)
Lemma absq_qlist s sd : qlist list_chan list_chan_ok (getq (absq s) sd) = map IMsg (abs_dir sd s).
Proof. rewrite absq_get. reflexivity. Qed.

(* live under a fair link: the oldest message in transit becomes receivable *)
Lemma recv_head s sd d q : Inv s -> rq (get_ep s sd) = d :: q -> snd (step_full s (Recv sd)) = ORecv (Ok (Some d)).
Proof.
  intros HI Erq. apply (inv_view s sd), pair_recv in HI. rewrite Erq in HI. destruct HI as [HI _].
  unfold step_full. rewrite HI. reflexivity.
Qed.

Theorem channel_live c ops sd m rest : cfg_ok c -> abs_dir sd (run c ops) = m :: rest ->
  exists ops', Forall internal ops' /\
    let s' := fold_left step ops' (run c ops) in
    abs_dir sd s' = m :: rest /\ abs_dir (other sd) s' = abs_dir (other sd) (run c ops) /\
    snd (step_full s' (Recv (other sd))) = ORecv (Ok (Some m)).
Proof.
  intros Hc Habs. pose proof (inv_reachable c ops Hc) as HI. set (s := run c ops) in *.
  destruct (drain_wire s sd HI) as (M & n1 & n2 & D).
  set (ops' := repeat (Deq sd M 0) n1 ++ repeat (Deliver (other sd)) n2) in D.
  set (s2 := fold_left step ops' s) in D. destruct D as (D1 & D2 & _).
  assert (Hint : Forall internal ops') by (apply Forall_app; split; apply Forall_repeat; exact I).
  exists ops'. split; [exact Hint|]. cbv zeta. fold s2.
  pose proof (refine_internal_n _ s sd HI Hint) as K1. pose proof (refine_internal_n _ s (other sd) HI Hint) as K2.
  fold s2 in K1, K2. rewrite Habs in K1. repeat split; [exact K1 | exact K2 |].
  unfold abs_dir in K1. rewrite D1, D2 in K1. cbn [Is map app] in K1. rewrite app_nil_r in K1.
  apply (recv_head s2 (other sd) m rest (inv_run_from _ _ HI) K1).
Qed.
