(* C06 - the two-peer system: reachability over the list channel, bursts of deliveries to one
   side and reassembly of a fragmented message; every interleaving of deliveries ends in the
   same state (diamond property of deliveries on a FIFO pair); the refinement from any channel
   implementation satisfying the FIFO laws to the list channel. *)
From Coq Require Import ZArith List Bool Lia.
From NV Require Import Base.Result Base.Bytes Base.PyPrims Model.Snep.
Import ListNotations.
Open Scope Z_scope.

Section Sched.
  Variables CS SS : Type.
  Variable creact : CS -> input -> CS * list input.
  Variable sreact : SS -> input -> SS * list input.
  Variables miu_cs miu_sc : Z.

  Notation gstL := (gst CS SS list_chan).
  Notation stepL := (gstep CS SS creact sreact list_chan miu_cs miu_sc).
  Notation runL := (run CS SS creact sreact list_chan miu_cs miu_sc).

  Definition mkg (c : CS) (s : SS) (qcs qsc : list input) (e : bool) : gstL :=
    Build_gst CS SS list_chan c s qcs qsc e.

  Lemma push_all_list lim (q : list input) outs : push_all list_chan lim q outs = q ++ outs.
  Proof.
    unfold push_all. revert q. induction outs as [|x outs IH]; intro q; cbn [fold_left].
    - symmetry; apply app_nil_r.
    - rewrite IH. cbn [qput list_chan]. rewrite <- app_assoc. reflexivity.
  Qed.

  Lemma any_too_big_app lim a b : any_too_big lim (a ++ b) = any_too_big lim a || any_too_big lim b.
  Proof. unfold any_too_big. apply existsb_app. Qed.

  Lemma stepL_client c s x qsc qcs e :
    stepL true (mkg c s qcs (x :: qsc) e) =
    Some (mkg (fst (creact c x)) s (qcs ++ snd (creact c x)) qsc (e || any_too_big miu_cs (snd (creact c x)))).
  Proof. unfold gstep, mkg. cbn [g_c g_s g_cs g_sc g_err qget list_chan]. rewrite push_all_list. reflexivity. Qed.
  Lemma stepL_server c s x qsc qcs e :
    stepL false (mkg c s (x :: qcs) qsc e) =
    Some (mkg c (fst (sreact s x)) qcs (qsc ++ snd (sreact s x)) (e || any_too_big miu_sc (snd (sreact s x)))).
  Proof. unfold gstep, mkg. cbn [g_c g_s g_cs g_sc g_err qget list_chan]. rewrite push_all_list. reflexivity. Qed.
  Lemma stepL_client_none c s qcs e : stepL true (mkg c s qcs [] e) = None.
  Proof. reflexivity. Qed.
  Lemma stepL_server_none c s qsc e : stepL false (mkg c s [] qsc e) = None.
  Proof. reflexivity. Qed.
  Lemma gst_eta (g : gstL) : g = mkg (g_c g) (g_s g) (g_cs g) (g_sc g) (g_err g).
  Proof. destruct g; reflexivity. Qed.

  Lemma run_app a b (g : gstL) :
    runL (a ++ b) g = match runL a g with Some g' => runL b g' | None => None end.
  Proof.
    revert g. induction a as [|w a IH]; intro g; cbn [app run]; [reflexivity|].
    destruct (stepL w g); [apply IH | reflexivity].
  Qed.

  Definition reach (g g' : gstL) : Prop := exists sch, runL sch g = Some g'.

  Lemma reach_refl g : reach g g.
  Proof. exists []. reflexivity. Qed.
  Lemma reach_trans g1 g2 g3 : reach g1 g2 -> reach g2 g3 -> reach g1 g3.
  Proof. intros [a Ha] [b Hb]. exists (a ++ b). rewrite run_app, Ha. exact Hb. Qed.
  Lemma reach_client c s x qsc qcs e :
    reach (mkg c s qcs (x :: qsc) e)
          (mkg (fst (creact c x)) s (qcs ++ snd (creact c x)) qsc (e || any_too_big miu_cs (snd (creact c x)))).
  Proof. exists [true]. cbn [run]. rewrite stepL_client. reflexivity. Qed.
  Lemma reach_server c s x qsc qcs e :
    reach (mkg c s (x :: qcs) qsc e)
          (mkg c (fst (sreact s x)) qcs (qsc ++ snd (sreact s x)) (e || any_too_big miu_sc (snd (sreact s x)))).
  Proof. exists [false]. cbn [run]. rewrite stepL_server. reflexivity. Qed.

  Fixpoint feed {S} (react : S -> input -> S * list input) (s : S) (ins : list input) : S * list input :=
    match ins with
    | [] => (s, [])
    | i :: r => let so := react s i in let so' := feed react (fst so) r in (fst so', snd so ++ snd so')
    end.

  (* everything in transit to one side is delivered before the other side moves *)
  Lemma reach_burst_server ins : forall c s qsc e,
    reach (mkg c s ins qsc e)
          (mkg c (fst (feed sreact s ins)) [] (qsc ++ snd (feed sreact s ins))
               (e || any_too_big miu_sc (snd (feed sreact s ins)))).
  Proof.
    induction ins as [|x ins IH]; intros c s qsc e.
    - cbn [feed fst snd]. rewrite app_nil_r, orb_false_r. apply reach_refl.
    - eapply reach_trans; [apply reach_server|]. cbn [feed fst snd].
      rewrite any_too_big_app, app_assoc, orb_assoc. apply IH.
  Qed.
  Lemma reach_burst_client ins : forall c s qcs e,
    reach (mkg c s qcs ins e)
          (mkg (fst (feed creact c ins)) s (qcs ++ snd (feed creact c ins)) []
               (e || any_too_big miu_cs (snd (feed creact c ins)))).
  Proof.
    induction ins as [|x ins IH]; intros c s qcs e.
    - cbn [feed fst snd]. rewrite app_nil_r, orb_false_r. apply reach_refl.
    - eapply reach_trans; [apply reach_client|]. cbn [feed fst snd].
      rewrite any_too_big_app, app_assoc, orb_assoc. apply IH.
  Qed.

  (* Reassembly.  The waiting states [st data] of an automaton are indexed by the octets received so far;
     it only accumulates while a non-empty part of msg is missing, and reacts with fin to the fragment
     that completes msg.  Fed msg in non-empty fragments it ends in fin. *)
  Lemma feed_fragments {S} (react : S -> input -> S * list input) (st : list Z -> S) msg fin :
    (forall data m q, m <> [] -> q <> [] -> msg = data ++ m ++ q ->
       react (st data) (IMsg m) = (st (data ++ m), [])) ->
    (forall data m, m <> [] -> msg = data ++ m -> react (st data) (IMsg m) = fin) ->
    forall fs data, Forall (fun c => c <> []) fs -> fs <> [] -> msg = data ++ concat fs ->
    feed react (st data) (map IMsg fs) = fin.
  Proof.
    intros Hstay Hdone. induction fs as [|f fs IH]; intros data Hne Hnil Hm; [congruence|].
    apply Forall_cons_iff in Hne. destruct Hne as [Hf Hfs]. cbn [map feed concat] in *.
    destruct fs as [|g fs].
    - cbn [concat] in Hm. rewrite app_nil_r in Hm. rewrite (Hdone data f Hf Hm).
      cbn [map feed fst snd]. rewrite app_nil_r. symmetry. apply surjective_pairing.
    - rewrite (Hstay data f (concat (g :: fs)) Hf); [ | | exact Hm].
      + cbn [fst snd app]. rewrite <- surjective_pairing.
        apply IH; [exact Hfs | discriminate | rewrite <- app_assoc; exact Hm].
      + apply Forall_cons_iff in Hfs. cbn [concat]. destruct g; [tauto | discriminate].
  Qed.

  Lemma diamond (g g1 g2 : gstL) :
    stepL true g = Some g1 -> stepL false g = Some g2 ->
    exists g3, stepL false g1 = Some g3 /\ stepL true g2 = Some g3.
  Proof.
    rewrite (gst_eta g). destruct (g_sc g) as [|x qsc]; [rewrite stepL_client_none; discriminate|].
    destruct (g_cs g) as [|y qcs]; [rewrite stepL_server_none; discriminate|].
    rewrite stepL_client, stepL_server. intros H1 H2. inversion H1; inversion H2; subst; clear H1 H2.
    cbn [app]. rewrite stepL_server, stepL_client. eexists. split; [reflexivity|].
    f_equal. unfold mkg. f_equal.
    destruct (g_err g), (any_too_big miu_cs (snd (creact (g_c g) x))),
             (any_too_big miu_sc (snd (sreact (g_s g) y))); reflexivity.
  Qed.

  Definition quiescentL (g : gstL) : Prop := stepL true g = None /\ stepL false g = None.
  Lemma quiescent_empty c s e : quiescentL (mkg c s [] [] e).
  Proof. split; reflexivity. Qed.

  Lemma quiescent_run g : quiescentL g -> forall sch g', runL sch g = Some g' -> sch = [] /\ g' = g.
  Proof.
    intros [Ht Hf] sch g' H. destruct sch as [|w sch]; cbn [run] in H.
    - inversion H; auto.
    - destruct w; [rewrite Ht in H | rewrite Hf in H]; discriminate.
  Qed.

  (* all interleavings are prefixes of complete runs of the same length with the same end *)
  Theorem confluence : forall n sch0 (g gf : gstL), length sch0 = n -> runL sch0 g = Some gf -> quiescentL gf ->
    forall sch g', runL sch g = Some g' ->
    exists sch', (length sch + length sch' = n)%nat /\ runL sch' g' = Some gf.
  Proof.
    induction n as [|m IH]; intros sch0 g gf Hlen Hrun Hq sch g' Hsch.
    - destruct sch0; [|discriminate]. cbn [run] in Hrun. inversion Hrun; subst.
      destruct (quiescent_run _ Hq _ _ Hsch) as [-> ->]. exists []. split; reflexivity.
    - destruct sch0 as [|a sch0]; [discriminate|]. cbn [length] in Hlen. cbn [run] in Hrun.
      destruct (stepL a g) as [ga|] eqn:Ea; [|discriminate].
      destruct sch as [|b sch1].
      + cbn [run] in Hsch. inversion Hsch; subst. exists (a :: sch0). split; [cbn [length]; lia|].
        cbn [run]. rewrite Ea. exact Hrun.
      + cbn [run] in Hsch. destruct (stepL b g) as [gb|] eqn:Eb; [|discriminate].
        destruct (Bool.bool_dec a b) as [->|Hab].
        * rewrite Ea in Eb. inversion Eb; subst.
          destruct (IH sch0 gb gf ltac:(lia) Hrun Hq sch1 g' Hsch) as (sch' & Hl & Hr).
          exists sch'. split; [cbn [length]; lia | exact Hr].
        * assert (exists g3, stepL b ga = Some g3 /\ stepL a gb = Some g3) as (g3 & H3a & H3b).
          { destruct a, b; try congruence.
            - apply (diamond g); assumption.
            - destruct (diamond g gb ga Eb Ea) as (g3 & ? & ?). exists g3; auto. }
          assert (runL [b] ga = Some g3) as Hb by (cbn [run]; rewrite H3a; reflexivity).
          destruct (IH sch0 ga gf ltac:(lia) Hrun Hq [b] g3 Hb) as (sch3 & Hl3 & Hr3).
          assert (runL (a :: sch3) gb = Some gf) as Hgb by (cbn [run]; rewrite H3b; exact Hr3).
          cbn [length] in Hl3.
          destruct (IH (a :: sch3) gb gf ltac:(cbn [length]; lia) Hgb Hq sch1 g' Hsch) as (sch' & Hl & Hr).
          exists sch'. split; [cbn [length]; lia | exact Hr].
  Qed.

  (* the executable client-first schedule is one of them *)
  Lemma run_cp_is_run : forall k (g : gstL),
    exists sch, runL sch g = Some (run_cp CS SS creact sreact list_chan miu_cs miu_sc k g) /\
                (length sch <= k)%nat /\
                ((length sch < k)%nat -> quiescentL (run_cp CS SS creact sreact list_chan miu_cs miu_sc k g)).
  Proof.
    induction k as [|k IH]; intro g.
    - exists []. cbn [run run_cp length]. split; [reflexivity | split; [lia | intro; lia]].
    - cbn [run_cp]. destruct (stepL true g) as [g1|] eqn:E1.
      + destruct (IH g1) as (sch & Hr & Hl & Hq). exists (true :: sch). cbn [run length]. rewrite E1.
        split; [exact Hr | split; [lia | intro; apply Hq; lia]].
      + destruct (stepL false g) as [g2|] eqn:E2.
        * destruct (IH g2) as (sch & Hr & Hl & Hq). exists (false :: sch). cbn [run length]. rewrite E2.
          split; [exact Hr | split; [lia | intro; apply Hq; lia]].
        * exists []. cbn [run length]. split; [reflexivity | split; [lia | intro; split; assumption]].
  Qed.

  Corollary run_cp_ends n sch0 (g gf : gstL) : length sch0 = n -> runL sch0 g = Some gf -> quiescentL gf ->
    forall k, (n <= k)%nat -> run_cp CS SS creact sreact list_chan miu_cs miu_sc k g = gf.
  Proof.
    intros Hl Hr Hq k Hk. destruct (run_cp_is_run k g) as (sch & Hs & Hlen & Hqq).
    destruct (confluence n sch0 g gf Hl Hr Hq sch _ Hs) as (sch' & Hl' & Hr').
    destruct (Nat.eq_dec (length sch) k) as [E|E].
    - assert (sch' = []) by (destruct sch'; [reflexivity | cbn [length] in Hl'; lia]). subst sch'.
      cbn [run] in Hr'. inversion Hr'; reflexivity.
    - destruct (quiescent_run _ (Hqq ltac:(lia)) _ _ Hr') as [_ ->]. reflexivity.
  Qed.

  Section Refine.
    Variable C : chan_ops.
    Variable Cok : chan_ok C.
    Notation stepC := (gstep CS SS creact sreact C miu_cs miu_sc).
    Notation runC := (run CS SS creact sreact C miu_cs miu_sc).

    Definition absg (g : gst CS SS C) : gstL :=
      mkg (g_c g) (g_s g) (qlist C Cok (g_cs g)) (qlist C Cok (g_sc g)) (g_err g).

    Lemma push_all_abs lim q outs : qlist C Cok (push_all C lim q outs) = qlist C Cok q ++ outs.
    Proof.
      unfold push_all. revert q. induction outs as [|x outs IH]; intro q; cbn [fold_left].
      - symmetry; apply app_nil_r.
      - rewrite IH, (qput_spec C Cok), <- app_assoc. reflexivity.
    Qed.

    Lemma step_abs w g : stepL w (absg g) = option_map absg (stepC w g).
    Proof.
      destruct g as [c s qcs qsc e]. unfold absg. cbn [g_c g_s g_cs g_sc g_err].
      destruct w; unfold gstep at 2; cbn [g_c g_s g_cs g_sc g_err].
      - pose proof (qget_spec C Cok qsc) as Hg. destruct (qget C qsc) as [[x q']|].
        + rewrite Hg, stepL_client. cbn [option_map]. unfold absg. cbn [g_c g_s g_cs g_sc g_err].
          rewrite push_all_abs. reflexivity.
        + rewrite Hg. reflexivity.
      - pose proof (qget_spec C Cok qcs) as Hg. destruct (qget C qcs) as [[x q']|].
        + rewrite Hg, stepL_server. cbn [option_map]. unfold absg. cbn [g_c g_s g_cs g_sc g_err].
          rewrite push_all_abs. reflexivity.
        + rewrite Hg. reflexivity.
    Qed.

    Lemma run_abs sch : forall g, runL sch (absg g) = option_map absg (runC sch g).
    Proof.
      induction sch as [|w sch IH]; intro g; cbn [run]; [reflexivity|].
      rewrite step_abs. destruct (stepC w g) as [g'|]; cbn [option_map]; [apply IH | reflexivity].
    Qed.

    Lemma ginit_abs c0 outs0 s0 :
      absg (ginit CS SS C miu_cs c0 outs0 s0) = ginit CS SS list_chan miu_cs c0 outs0 s0.
    Proof.
      unfold absg, ginit, mkg. cbn [g_c g_s g_cs g_sc g_err].
      rewrite push_all_abs, (qnew_spec C Cok), push_all_list. reflexivity.
    Qed.

    (* transfer: what holds of all interleavings over lists holds over C *)
    Theorem refine_always_ends n (g0 : gst CS SS C) (gf : gstL) :
      (forall sch g', runL sch (absg g0) = Some g' ->
         exists sch', (length sch + length sch' = n)%nat /\ runL sch' g' = Some gf) ->
      forall sch g, runC sch g0 = Some g ->
        exists sch' g', (length sch + length sch' = n)%nat /\ runC sch' g = Some g' /\ absg g' = gf.
    Proof.
      intros H sch g Hr. pose proof (run_abs sch g0) as Ha. rewrite Hr in Ha. cbn [option_map] in Ha.
      destruct (H sch _ Ha) as (sch' & Hl & Hr'). pose proof (run_abs sch' g) as Hb. rewrite Hr' in Hb.
      destruct (runC sch' g) as [g'|] eqn:Eg; cbn [option_map] in Hb; [|discriminate].
      exists sch', g'. split; [exact Hl | split; [exact Eg | congruence]].
    Qed.

    (* one complete run over lists that empties both queues decides every run over C *)
    Corollary always_ends_like c0 outs0 s0 c s :
      reach (ginit CS SS list_chan miu_cs c0 outs0 s0) (mkg c s [] [] false) ->
      exists n, forall sch g, runC sch (ginit CS SS C miu_cs c0 outs0 s0) = Some g ->
        exists sch' g', (length sch + length sch' = n)%nat /\ runC sch' g = Some g' /\
          g_c g' = c /\ g_s g' = s /\ qlist C Cok (g_cs g') = [] /\ qlist C Cok (g_sc g') = [] /\
          g_err g' = false.
    Proof.
      intros [sch0 Hr]. exists (length sch0). intros sch g Hg. rewrite <- ginit_abs in Hr.
      destruct (refine_always_ends (length sch0) _ (mkg c s [] [] false)
                  (confluence _ sch0 _ _ eq_refl Hr (quiescent_empty c s false)) sch g Hg)
        as (sch' & g' & Hl & Hr' & Habs).
      exists sch', g'. injection Habs as H1 H2 H3 H4 H5. auto 10.
    Qed.
  End Refine.
End Sched.

(* the list channel satisfies the laws *)
Definition list_chan_ok : chan_ok list_chan.
Proof.
  refine {| qlist := fun q : Q list_chan => (q : list input) |}.
  - reflexivity.
  - intros q x. reflexivity.
  - intro q. destruct q; reflexivity.
Defined.
Lemma list_chan_ok_ex : exists Cok : chan_ok list_chan, forall q, qlist list_chan Cok q = q.
Proof. exists list_chan_ok. intro q. reflexivity. Qed.
