(* Type 3 Tag (passive tag device): write/read round trip, cut safety, write frame. *)
From Coq Require Import ZArith List Bool Lia ZifyBool.
From NV Require Import Base.Result Base.Bytes Base.PyPrims Proofs.Chunks Model.T3T.
Import ListNotations.
Open Scope Z_scope.
Ltac Zify.zify_post_hook ::= Z.to_euclidean_division_equations.

Lemma blk_elems_ok bl : Forall (fun b => 0 <= b < 65536) bl ->
  exists es, blk_elems bl = Ok es /\ len es <= 3 * len bl /\
             (Forall (fun b => b < 256) bl -> len es = 2 * len bl).
Proof.
  induction bl as [|b r IH]; intro H.
  - exists []. cbn. repeat split; auto; intros; unfold len; cbn; lia.
  - inversion H as [|? ? Hb Hr]; subst. destruct (IH Hr) as (er & E & L1 & L2).
    cbn [blk_elems]. unfold blk_elem.
    replace (b <? 0) with false by lia.
    destruct (b <? 256) eqn:E256.
    + cbn [bind]. rewrite E. cbn [bind]. eexists; split; [reflexivity|].
      rewrite len_app, !len_cons, len_nil. split; [lia|]. intro F. inversion F; subst. specialize (L2 H3). lia.
    + replace (b <? 65536) with true by lia. cbn [bind]. rewrite E. cbn [bind]. eexists; split; [reflexivity|].
      rewrite len_app, !len_cons, len_nil. split; [lia|]. intro F. inversion F; subst. lia.
Qed.

Lemma rd_frame_ok idm bl : len idm = 8 -> Forall (fun b => 0 <= b < 65536) bl -> len bl <= 80 ->
  exists f, rd_frame idm bl = Ok f.
Proof.
  intros Hi Hb Hn. destruct (blk_elems_ok bl Hb) as (es & E & L & _).
  unfold rd_frame. rewrite E. cbn [bind]. replace (len bl >? 255) with false by lia.
  unfold t3_frame. rewrite len_app, !len_cons, len_nil.
  replace (2 + len idm + (1 + (1 + (1 + (1 + 0))) + len es) >? 255) with false by lia. eexists; reflexivity.
Qed.

Lemma wr_frame_ok idm bl data : len idm = 8 -> Forall (fun b => 0 <= b < 65536) bl -> len data = 16 * len bl ->
  (len bl <= 12 \/ (len bl <= 13 /\ Forall (fun b => b < 256) bl)) ->
  exists f, wr_frame idm bl data = Ok f.
Proof.
  intros Hi Hb Hd Hn. destruct (blk_elems_ok bl Hb) as (es & E & L & L2).
  unfold wr_frame. rewrite E. cbn [bind]. replace (len bl >? 255) with false by lia.
  unfold t3_frame. rewrite !len_app, !len_cons, len_nil.
  assert (len es + 16 * len bl <= 241).
  { destruct Hn as [Hn|[Hn Hs]]; [lia|]. specialize (L2 Hs). lia. }
  replace (2 + len idm + (1 + (1 + (1 + (1 + 0))) + (len es + len data)) >? 255) with false by lia. eexists; reflexivity.
Qed.

Lemma zrange_len' a b : a <= b -> len (zrange a b) = b - a.
Proof. intro. unfold len. rewrite zrange_len. lia. Qed.
Lemma Forall_zrange (P : Z -> Prop) a b : (forall x, a <= x < b -> P x) -> Forall P (zrange a b).
Proof. intro H. apply Forall_forall. intros x Hx. apply H, in_zrange, Hx. Qed.
Lemma forallb_blk_ok m a b : 0 <= a -> 16 * b <= len m -> forallb (blk_ok m) (zrange a b) = true.
Proof. intros. apply forallb_forall. intros x Hx. apply in_zrange in Hx. unfold blk_ok, nblocks. lia. Qed.

(* consecutive blocks are a slice of the image, when read ... *)
Lemma flat_blk_get_range m b : forall a, 0 <= a <= b -> 16 * b <= len m ->
  flat_map (blk_get m) (zrange a b) = slice m (16 * a) (16 * b).
Proof.
  intros a [Ha Hab] Hm. remember (Z.to_nat (b - a)) as n eqn:E. revert a Ha Hab E.
  induction n as [|n IH]; intros a Ha Hab E.
  - rewrite zrange_nil, slice_nil by lia. reflexivity.
  - rewrite zrange_cons by lia. cbn [flat_map]. rewrite IH by lia. unfold blk_get.
    replace (16 * a + 16) with (16 * (a + 1)) by lia. apply slice_app_adj; lia.
Qed.
(* ... and when written *)
Lemma blks_put_zrange b : forall m a data, 0 <= a <= b -> len data = 16 * (b - a) -> 16 * b <= len m ->
  blks_put m (zrange a b) data = splice m (16 * a) data.
Proof.
  intros m a data [Ha Hab]. remember (Z.to_nat (b - a)) as n eqn:E. revert m a data Ha Hab E.
  induction n as [|n IH]; intros m a data Ha Hab E Hd Hm.
  - rewrite zrange_nil by lia.
    destruct data; [symmetry; apply splice_nil | rewrite len_cons in Hd; pose proof (len_nonneg data); lia].
  - rewrite zrange_cons by lia. cbn [blks_put].
    assert (Ht : len (take 16 data) = 16) by (apply len_take; lia).
    rewrite IH by (rewrite ?len_drop, ?len_splice; lia).
    replace (16 * (a + 1)) with (16 * a + len (take 16 data)) by lia.
    rewrite splice_adj by (rewrite ?len_drop; lia). now rewrite take_drop.
Qed.

Definition apply_cmd (m : list Z) (c : list Z * list Z) : list Z := blks_put m (fst c) (snd c).
Definition apply_cmds (m : list Z) (cs : list (list Z * list Z)) : list Z := fold_left apply_cmd cs m.
Lemma apply_cmds_cons m c cs : apply_cmds m (c :: cs) = apply_cmds (apply_cmd m c) cs.
Proof. reflexivity. Qed.
Lemma apply_cmds_app m cs1 cs2 : apply_cmds m (cs1 ++ cs2) = apply_cmds (apply_cmds m cs1) cs2.
Proof. apply fold_left_app. Qed.

(* a command on blocks lo .. hi-1 of an image of L bytes; such commands change nothing else *)
Definition cmd_shape (L lo hi : Z) (c : list Z * list Z) : Prop :=
  Forall (fun b => lo <= b < hi /\ 16 * (b + 1) <= L) (fst c) /\ len (snd c) = 16 * len (fst c).

Lemma apply_cmd_frame lo hi : 0 <= lo -> forall m c, cmd_shape (len m) lo hi c ->
  frame (16 * lo) (16 * hi) m (apply_cmd m c).
Proof.
  intros Hlo m [bl data]. unfold cmd_shape, apply_cmd. cbn [fst snd]. revert m data.
  induction bl as [|b r IH]; intros m data [Hb Hd]; [apply frame_refl|].
  inversion Hb as [|? ? [H0 H1] Hr]; subst. rewrite len_cons in Hd. pose proof (len_nonneg r). cbn [blks_put].
  assert (Ht : len (take 16 data) = 16) by (apply len_take; lia).
  assert (F : frame (16 * lo) (16 * hi) m (splice m (16 * b) (take 16 data))) by (apply frame_splice; lia).
  apply (frame_trans _ _ _ _ _ F), IH. destruct F as (-> & _). split; [exact Hr | rewrite len_drop; lia].
Qed.
Lemma apply_cmds_frame lo hi : 0 <= lo -> forall cs m, Forall (cmd_shape (len m) lo hi) cs ->
  frame (16 * lo) (16 * hi) m (apply_cmds m cs).
Proof.
  intro Hlo. induction cs as [|c r IH]; intros m H; [apply frame_refl|]. inversion H as [|? ? Hc Hr]; subst.
  pose proof (apply_cmd_frame lo hi Hlo m c Hc) as F. rewrite apply_cmds_cons.
  apply (frame_trans _ _ _ _ _ F), IH. destruct F as (-> & _). exact Hr.
Qed.

(* a write of block 0 alone *)
Lemma apply_attr_cmd (m A : list Z) : len A = 16 -> 16 <= len m -> apply_cmd m ([0], A) = splice m 0 A.
Proof. intros HA Hm. unfold apply_cmd. cbn [fst snd]. change [0] with (zrange 0 1). now rewrite blks_put_zrange by lia. Qed.
(* block 0 (A), then the data blocks (P), then block 0 again (B): block 0 and the data blocks are adjacent, so the
   first two are one write of A ++ P, over which B is written *)
Lemma plan_image (m A B P : list Z) : len A = 16 -> len B = 16 -> 16 + len P <= len m ->
  len (splice m 0 A) = len m /\ 16 <= len (splice (splice m 0 A) 16 P) /\
  splice (splice (splice m 0 A) 16 P) 0 B = B ++ P ++ drop (16 + len P) m.
Proof.
  intros HA HB HP. pose proof (len_nonneg P). assert (L1 : len (splice m 0 A) = len m) by (apply len_splice; lia).
  split; [exact L1|]. split; [rewrite len_splice; lia|].
  replace (splice (splice m 0 A) 16 P) with (splice m 0 (A ++ P)) by (rewrite <- splice_adj by lia; now rewrite HA).
  rewrite splice_over, HB by lia. reflexivity.
Qed.

Definition attrs_ok (a : attrs) : Prop :=
  0 <= a_ver a < 256 /\ 0 <= a_nbr a < 256 /\ 0 <= a_nbw a < 256 /\ 0 <= a_nmaxb a < 65536 /\
  0 <= a_writef a < 256 /\ 0 <= a_rwflag a < 256 /\ 0 <= a_ln a < 16777216.

Lemma attr_build_len a : len (attr_build a) = 16.
Proof. reflexivity. Qed.

Lemma attr_roundtrip a : attrs_ok a -> attr_parse (attr_build a) = Some a.
Proof.
  destruct a as [ver nbr nbw nmaxb wf rw ln]. unfold attrs_ok. cbn [a_ver a_nbr a_nbw a_nmaxb a_writef a_rwflag a_ln].
  intros (H1 & H2 & H3 & H4 & H5 & H6 & H7).
  cbv [attr_parse attr_build attr_body bt nth firstn app sum fold_left a_ver a_nbr a_nbw a_nmaxb a_writef a_rwflag a_ln].
  set (s := 0 + ver + nbr + nbw + nmaxb / 256 + nmaxb mod 256 + 0 + 0 + 0 + 0 + wf + rw + ln / 65536 mod 256 + ln / 256 mod 256 + ln mod 256).
  (* here and below lia runs on a cleared context: it is slow on the ones these proofs build up *)
  clearbody s. replace (s =? s / 256 * 256 + s mod 256) with true by (clear; lia).
  f_equal. f_equal; [clear - H4 | clear - H7]; lia.
Qed.

Lemma attr_parse_ok d a : bytes_ok d -> attr_parse d = Some a -> attrs_ok a.
Proof.
  intros Hb. unfold attr_parse. destruct (_ =? _); [|discriminate]. intro E. inversion E; subst; clear E.
  unfold attrs_ok, bt. cbn [a_ver a_nbr a_nbw a_nmaxb a_writef a_rwflag a_ln].
  pose proof (nth_byte_ok d 0 Hb). pose proof (nth_byte_ok d 1 Hb). pose proof (nth_byte_ok d 2 Hb).
  pose proof (nth_byte_ok d 3 Hb). pose proof (nth_byte_ok d 4 Hb). pose proof (nth_byte_ok d 9 Hb).
  pose proof (nth_byte_ok d 10 Hb). pose proof (nth_byte_ok d 11 Hb). pose proof (nth_byte_ok d 12 Hb).
  pose proof (nth_byte_ok d 13 Hb). lia.
Qed.

Lemma pad16_len d : len (pad16 d) = 16 * ((len d + 15) / 16).
Proof. unfold pad16. rewrite len_app. unfold len at 2. rewrite repeat_length. pose proof (len_nonneg d). lia. Qed.
Lemma batches_nil fuel i nbw : batches fuel i nbw [] = [].
Proof. destruct fuel; reflexivity. Qed.

(* independent of the memory contents: L = memory size, MW = blocks per write command *)
Definition cmd_ok (L MW : Z) (c : list Z * list Z) : Prop :=
  (forall idm, len idm = 8 -> exists f, wr_frame idm (fst c) (snd c) = Ok f) /\ 1 <= len (fst c) <= MW /\
  Forall (fun b => 0 <= b < 65536 /\ 16 * (b + 1) <= L) (fst c) /\ len (snd c) = 16 * len (fst c).
Definition rd_ok (L MR : Z) (bl : list Z) : Prop :=
  1 <= len bl <= MR /\ len bl <= 80 /\ Forall (fun b => 0 <= b < 65536 /\ 16 * (b + 1) <= L) bl.

Lemma cmd_ok_shape L MW c lo hi : cmd_ok L MW c -> Forall (fun b => lo <= b < hi) (fst c) -> cmd_shape L lo hi c.
Proof. intros (_ & _ & Hb & Hd) Hr. split; [|exact Hd].
  rewrite Forall_forall in *. intros x Hx. specialize (Hb x Hx). specialize (Hr x Hx). lia. Qed.
Lemma apply_cmd_len L MW m c : cmd_ok L MW c -> len m = L -> len (apply_cmd m c) = len m.
Proof.
  intros Hc <-. apply (apply_cmd_frame 0 65536); [lia|]. apply (cmd_ok_shape _ MW _ _ _ Hc).
  destruct Hc as (_ & _ & Hb & _). eapply Forall_impl; [|exact Hb]. now intros b [? _].
Qed.

Definition nblk (n : Z) : Z := (n + 15) / 16.
(* the image a complete write leaves: final attribute block, padded message, the rest as it was *)
Definition attr_final (a : attrs) (d : list Z) : list Z := attr_build (set_ln (set_writef a 0) (len d)).
Definition final_mem (a : attrs) (d m : list Z) : list Z :=
  attr_final a d ++ pad16 d ++ drop (16 + len (pad16 d)) m.

(* a write of n blocks from block i on, inside blocks 1 .. H-1 of an image of L bytes *)
Lemma batch_cmd L MW H i n c : 1 <= i -> 1 <= n <= MW -> i + n <= H -> H <= 65536 -> 16 * H <= L ->
  (n <= 12 \/ (n <= 13 /\ H <= 256)) -> len c = 16 * n ->
  cmd_ok L MW (zrange i (i + n), c) /\ Forall (fun b => 1 <= b < H) (zrange i (i + n)) /\
  forall m, len m = L -> apply_cmd m (zrange i (i + n), c) = splice m (16 * i) c.
Proof.
  intros Hi Hn HH H64 HL Hfr Hc.
  assert (Hz : len (zrange i (i + n)) = n) by (rewrite zrange_len'; lia).
  split; [|split; [apply Forall_zrange; lia | intros; apply blks_put_zrange; lia]].
  unfold cmd_ok. cbn [fst snd]. rewrite Hz. split; [|split; [lia | split; [apply Forall_zrange; lia | exact Hc]]].
  intros idm Hidm. apply wr_frame_ok; [exact Hidm | apply Forall_zrange; lia | rewrite Hz; exact Hc | rewrite Hz].
  destruct Hfr as [?|[? ?]]; [left; assumption | right; split; [assumption | apply Forall_zrange; lia]].
Qed.

Lemma batches_spec L MW nbw H : 1 <= nbw <= MW -> H <= 65536 -> 16 * H <= L ->
  (nbw <= 12 \/ (nbw <= 13 /\ H <= 256)) ->
  forall fuel data i q, (length data <= fuel)%nat -> len data = 16 * q -> 1 <= i -> i + q = H ->
    Forall (cmd_ok L MW) (batches fuel i nbw data) /\
    Forall (fun c => Forall (fun b => 1 <= b < H) (fst c)) (batches fuel i nbw data) /\
    (forall m, len m = L -> apply_cmds m (batches fuel i nbw data) = splice m (16 * i) data).
Proof.
  intros Hn H64 Hm Hfr. induction fuel as [|f IH]; intros data i q Hf Hd Hi HH.
  - destruct data; [|cbn in Hf; lia]. cbn. repeat split; auto. intros. now rewrite splice_nil.
  - destruct data as [|x data']; [cbn; repeat split; auto; intros; now rewrite splice_nil|].
    set (data := x :: data') in *. assert (Hq : 1 <= q) by (subst data; rewrite len_cons in Hd; pose proof (len_nonneg data'); lia).
    change (batches (S f) i nbw data)
      with ((zrange i (i + len (take (16 * nbw) data) / 16), take (16 * nbw) data) :: batches f (i + nbw) nbw (drop (16 * nbw) data)).
    destruct (Z.le_gt_cases q nbw) as [Hle|Hgt].
    + (* last batch *)
      rewrite take_all, drop_all, batches_nil, Hd by lia. replace (16 * q / 16) with q by (clear - Hq; lia).
      destruct (batch_cmd L MW H i q data Hi) as (C1 & C2 & C3);
        [lia | lia | exact H64 | exact Hm | destruct Hfr as [?|[? ?]]; [left | right]; lia | lia |].
      repeat split; [constructor; [exact C1 | constructor] | constructor; [exact C2 | constructor] | exact C3].
    + (* a full batch, more to come *)
      assert (Ht : len (take (16 * nbw) data) = 16 * nbw) by (apply len_take; lia).
      rewrite Ht. replace (16 * nbw / 16) with nbw by (clear - Hn; lia).
      destruct (batch_cmd L MW H i nbw (take (16 * nbw) data) Hi Hn) as (C1 & C2 & C3);
        [lia | exact H64 | exact Hm | exact Hfr | lia |]. clear Hfr.
      assert (Hr : len (drop (16 * nbw) data) = 16 * (q - nbw)) by (rewrite len_drop; lia).
      destruct (IH (drop (16 * nbw) data) (i + nbw) (q - nbw)) as (I1 & I2 & I3); [|exact Hr | lia | lia |].
      { unfold drop. rewrite skipn_length. subst data. cbn [length] in *. lia. }
      clear IH. repeat split; [constructor; assumption | constructor; assumption |].
      intros m Hlm. rewrite apply_cmds_cons, C3, I3 by (rewrite ?len_splice; lia).
      replace (16 * (i + nbw)) with (16 * i + len (take (16 * nbw) data)) by lia.
      rewrite splice_adj by lia. now rewrite take_drop.
Qed.

(* ============================================================ any device that serves block reads and writes *)
Section Dev.
Variable S : Type.
Variable rd : S -> list Z -> res (list Z) * S.
Variable wr : S -> list Z -> list Z -> res unit * S.
Variable mem : S -> list Z.            (* the memory image behind the device *)
Variable bud : S -> Z.                 (* state-changing commands left before the power cut; < 0 = no cut *)
Variable inv : S -> Prop.              (* configuration of the device, preserved by commands *)
Variable MR MW : Z.                    (* blocks per read / write command the device serves *)
Variable fresh_of : list Z -> S.       (* a new activation on a memory image *)

Hypothesis H_rd : forall s bl, inv s -> bud s <> 0 -> rd_ok (len (mem s)) MR bl ->
  rd s bl = (Ok (flat_map (blk_get (mem s)) bl), s).
Hypothesis H_rd_dead : forall s, inv s -> bud s = 0 -> rd s [0] = (Err (TagCommandError 0), s).
Hypothesis H_wr : forall s c, inv s -> bud s <> 0 -> cmd_ok (len (mem s)) MW c ->
  exists s', wr s (fst c) (snd c) = (Ok tt, s') /\ inv s' /\ mem s' = apply_cmd (mem s) c /\
             bud s' = (if bud s <? 0 then bud s else bud s - 1).
Hypothesis H_wr_dead : forall s c, inv s -> bud s = 0 -> cmd_ok (len (mem s)) MW c ->
  wr s (fst c) (snd c) = (Err (TagCommandError 0), s).
Hypothesis H_fresh : forall m, inv (fresh_of m) /\ mem (fresh_of m) = m /\ bud (fresh_of m) = -1.

Definition dev_fresh (m : list Z) : res fresh := fst (read_ndef S rd (fresh_of m)).

Lemma rd_range s a b : inv s -> bud s <> 0 ->
  0 <= a < b /\ b - a <= MR /\ b - a <= 80 /\ b <= 65536 /\ 16 * b <= len (mem s) ->
  rd s (zrange a b) = (Ok (slice (mem s) (16 * a) (16 * b)), s).
Proof.
  intros Hi Hb A. rewrite H_rd; [now rewrite flat_blk_get_range by lia | assumption ..|]. clear Hb.
  unfold rd_ok. rewrite zrange_len' by lia. split; [lia|]. split; [lia|]. apply Forall_zrange. intros; lia.
Qed.
Lemma rd_block0 s : inv s -> bud s <> 0 -> 1 <= MR -> 16 <= len (mem s) -> rd s [0] = (Ok (take 16 (mem s)), s).
Proof.
  intros Hi Hb H1 H16. change [0] with (zrange 0 1). rewrite (rd_range s 0 1 Hi Hb) by (clear Hb; lia).
  change (16 * 0) with 0. change (16 * 1) with 16. now rewrite slice_0.
Qed.

(* the writer's command list under a power-cut budget: the memory is that of the executed prefix *)
Lemma run_cmds_cut cs s : inv s -> Forall (cmd_ok (len (mem s)) MW) cs ->
  exists s', run_cmds S wr s cs =
               (if (bud s <? 0) || (Z.of_nat (length cs) <=? bud s) then Ok tt else Err (TagCommandError 0), s') /\
             inv s' /\ mem s' = apply_cmds (mem s) (cut (bud s) cs).
Proof.
  revert cs s. apply (run_budget S _ unit _ (fun s c => wr s (fst c) (snd c)) (run_cmds S wr) inv
                        (fun s => cmd_ok (len (mem s)) MW) bud mem apply_cmd).
  - reflexivity.
  - intros s [bl d] r x s1 E. cbn [run_cmds fst snd] in *. now rewrite E.
  - intros s [bl d] r e s1 E. cbn [run_cmds fst snd] in *. now rewrite E.
  - intros s c Hi Hb Hc. destruct (H_wr s c Hi Hb Hc) as (s1 & Hw & Hi1 & Hm & Hb1).
    exists tt, s1. do 4 (split; [assumption|]). now rewrite Hm, (apply_cmd_len _ _ _ _ Hc eq_refl).
  - exact H_wr_dead.
Qed.

Lemma rd_loop_dev s last nbr : inv s -> bud s <> 0 ->
  1 <= nbr <= MR /\ nbr <= 80 /\ last <= 65536 /\ 16 * last <= len (mem s) ->
  forall fuel i acc, 1 <= i -> last - i <= Z.of_nat fuel ->
    rd_loop S rd fuel s i last nbr acc = (Ok (Some (acc ++ slice (mem s) (16 * i) (16 * last))), s).
Proof.
  intros Hi0 Hb A. induction fuel as [|f IH]; intros i acc Hi Hf; cbn [rd_loop]; destruct (i <? last) eqn:E.
  2, 4: now rewrite slice_nil, app_nil_r by lia.
  - lia.
  - (* blocks i .. j-1 are read; when the batch is cut short at block last, nothing is left for the next round *)
    set (j := Z.min (i + nbr) last).
    assert (B : (0 <= i < j /\ j - i <= MR /\ j - i <= 80 /\ j <= 65536 /\ 16 * j <= len (mem s)) /\
                j <= last /\ (j = i + nbr \/ j = last /\ last <= i + nbr)) by (clear Hb IH; lia).
    rewrite (rd_range s i j Hi0 Hb (proj1 B)), IH by (clear Hb IH; lia).
    rewrite <- app_assoc. do 4 f_equal. clearbody j. clear Hb IH.
    destruct B as (B & Hj & [-> | (-> & Hl)]); [apply slice_app_adj; lia | rewrite (slice_nil _ (16 * (i + nbr))) by lia; apply app_nil_r].
Qed.

(* a live device whose block 0 parses to a usable attribute block is read as NDEF tag: Ln bytes from block 1 on *)
Lemma read_ndef_dev s a : inv s -> bud s <> 0 -> attr_parse (take 16 (mem s)) = Some a ->
  a_ver a / 16 = 1 -> 1 <= a_nbr a <= MR -> a_nbr a <= 80 ->
  0 <= a_ln a <= a_nmaxb a * 16 /\ a_nmaxb a < 65536 /\ 16 * (a_nmaxb a + 1) <= len (mem s) ->
  read_ndef S rd s = (Ok (Ndef (attr_readable a) (attr_writeable a) (a_nmaxb a * 16)
                            (take (a_ln a) (drop 16 (mem s)))), s).
Proof.
  intros Hi Hb Ha Hv Hn H80 A. unfold read_ndef, read_attr.
  rewrite (rd_block0 s Hi Hb) by (clear Hb Hv; lia). rewrite Ha.
  replace (negb (a_ver a / 16 =? 1)) with false by (clear - Hv; lia). clear Hv.
  replace (a_nbr a =? 0) with false by (clear - Hn; lia). replace (a_ln a >? a_nmaxb a * 16) with false by (clear - A; lia).
  set (last := 1 + (a_ln a + 15) / 16).
  assert (Hlast : (1 <= Z.min (a_nbr a) 15 <= MR /\ Z.min (a_nbr a) 15 <= 80 /\ last <= 65536 /\ 16 * last <= len (mem s)) /\
                  last - 1 <= Z.of_nat (Z.to_nat last) /\ 0 <= a_ln a <= 16 * last - 16) by (clear Hb; unfold last; lia).
  clearbody last.
  rewrite (rd_loop_dev s last _ Hi Hb (proj1 Hlast)) by (apply Z.le_refl || apply Hlast).
  cbn [app]. rewrite slice_take_drop, take_take by (clear - Hlast; lia). reflexivity.
Qed.

Record t3_wf (s : S) (a : attrs) : Prop := mk_wf {
  wf_inv : inv s;
  wf_attr : attr_parse (take 16 (mem s)) = Some a;         (* block 0 is a valid attribute block *)
  wf_aok : attrs_ok a;                                     (* (follows from the memory being bytes) *)
  wf_ver : a_ver a / 16 = 1;                               (* mapping version 1.x *)
  wf_nbr : 1 <= a_nbr a <= MR;                             (* the device serves the Nbr blocks per read it declares *)
  wf_nbr80 : a_nbr a <= 80;                                (* a read command frame holds at most 80 block list elements *)
  wf_nbw : 1 <= a_nbw a;
  wf_maxw : Z.min (a_nbw a) 13 <= MW;                      (* ... and min(Nbw, 13) blocks per write *)
  wf_writef : a_writef a = 0;
  wf_rwflag : a_rwflag a <> 0;
  wf_blocks : 16 * (a_nmaxb a + 1) <= len (mem s);         (* the Nmaxb data blocks exist *)
  wf_ln : a_ln a <= 16 * a_nmaxb a
}.

Lemma wf_basic s a : t3_wf s a -> 1 <= MR /\ 16 <= len (mem s) /\ 0 <= a_nmaxb a < 65536 /\ 0 <= a_ln a.
Proof. intro W. destruct (wf_aok s a W) as (? & ? & ? & ? & ? & ? & ?). destruct W. lia. Qed.

Lemma t3_initial_read s a : t3_wf s a -> bud s <> 0 ->
  read_ndef S rd s = (Ok (Ndef true true (a_nmaxb a * 16) (take (a_ln a) (drop 16 (mem s)))), s).
Proof.
  intros W Hb. destruct (wf_basic s a W) as (_ & _ & B3 & B4). destruct W as [Hinv Hattr ? Hver Hnbr Hnbr80 ? ? ? ? ? ?].
  rewrite (read_ndef_dev s a Hinv Hb Hattr Hver Hnbr Hnbr80) by (clear Hb Hver; lia). clear Hb Hver.
  unfold attr_readable, attr_writeable.
  replace ((a_writef a =? 0) && (0 <? a_nbr a)) with true by lia.
  replace (negb (a_rwflag a =? 0) && (0 <? a_nbw a)) with true by lia. reflexivity.
Qed.

(* a new activation on an image of the same size whose block 0 is the tag's attribute block with WriteF = w, Ln = n *)
Lemma fresh_attr s a w n m : t3_wf s a -> len m = len (mem s) -> 0 <= w < 256 -> 0 <= n <= 16 * a_nmaxb a ->
  take 16 m = attr_build (set_ln (set_writef a w) n) ->
  dev_fresh m = Ok (Ndef (w =? 0) true (a_nmaxb a * 16) (take n (drop 16 m))).
Proof.
  intros W HL Hw Hn HT. destruct (wf_basic s a W) as (_ & _ & B3 & _). destruct W as [_ _ Haok Hver Hnbr Hnbr80 ? ? ? ? ? ?].
  unfold dev_fresh. destruct (H_fresh m) as (F1 & F2 & F3).
  assert (Ha : attr_parse (take 16 (mem (fresh_of m))) = Some (set_ln (set_writef a w) n)).
  { rewrite F2, HT. apply attr_roundtrip. destruct Haok as (? & ? & ? & ? & ? & ? & ?). clear Hver.
    unfold attrs_ok. cbn [a_ver a_nbr a_nbw a_nmaxb a_writef a_rwflag a_ln set_ln set_writef]. lia. }
  assert (A : 0 <= n <= a_nmaxb a * 16 /\ a_nmaxb a < 65536 /\ 16 * (a_nmaxb a + 1) <= len (mem (fresh_of m)))
    by (rewrite F2, HL; clear Hver; lia).
  rewrite (read_ndef_dev _ _ F1 ltac:(rewrite F3; discriminate) Ha Hver Hnbr Hnbr80 A), F2. clear Hver.
  unfold attr_readable, attr_writeable. cbn [fst a_nmaxb a_ln a_writef a_nbr a_rwflag a_nbw set_ln set_writef].
  replace (0 <? a_nbr a) with true by lia. replace (negb (a_rwflag a =? 0) && (0 <? a_nbw a)) with true by lia.
  now rewrite andb_true_r.
Qed.

Lemma attr_cmd_ok s a A : t3_wf s a -> len A = 16 -> cmd_ok (len (mem s)) MW ([0], A).
Proof.
  intros W HA. destruct (wf_basic s a W) as (B1 & B2 & B3 & B4). pose proof (wf_maxw s a W). pose proof (wf_nbw s a W).
  unfold cmd_ok. cbn [fst snd]. repeat split.
  - intros idm Hidm. apply wr_frame_ok; [exact Hidm | constructor; [lia | constructor] | exact HA | left; cbn; lia].
  - cbn; lia.
  - cbn. lia.
  - constructor; [lia | constructor].
  - exact HA.
Qed.

Lemma wr_batch_bounds s a n : t3_wf s a -> 0 <= n ->
  1 <= wr_batch a n <= MW /\ (wr_batch a n <= 12 \/ (wr_batch a n <= 13 /\ 1 + nblk n <= 256)).
Proof. intros W Hn. destruct W. unfold wr_batch, nblk. destruct (1 + (n + 15) / 16 <=? 256) eqn:E; lia. Qed.

Lemma plan_data_ok s a d : t3_wf s a -> len d <= 16 * a_nmaxb a ->
  Forall (cmd_ok (len (mem s)) MW) (plan_data a d) /\
  Forall (fun c => Forall (fun b => 1 <= b < 1 + nblk (len d)) (fst c)) (plan_data a d) /\
  (forall m, len m = len (mem s) -> apply_cmds m (plan_data a d) = splice m 16 (pad16 d)).
Proof.
  intros W Hd. pose proof (len_nonneg d) as H0. destruct (wr_batch_bounds s a (len d) W H0) as (Hb & Hfr).
  destruct (wf_basic s a W) as (B1 & B2 & B3 & B4). pose proof (wf_blocks s a W).
  unfold plan_data.
  assert (Hq : nblk (len d) <= a_nmaxb a) by (unfold nblk; lia).
  apply (batches_spec (len (mem s)) MW (wr_batch a (len d)) (1 + nblk (len d))) with (q := nblk (len d)); try lia.
  rewrite pad16_len. reflexivity.
Qed.

(* the plan: WriteF := 0Fh, the data batches, then Ln and WriteF := 00h *)
Lemma t3_plan_ok s a d : t3_wf s a -> len d <= 16 * a_nmaxb a ->
  Forall (cmd_ok (len (mem s)) MW) (t3_plan a d) /\
  Forall (fun c => Forall (fun b => 0 <= b < 1 + nblk (len d)) (fst c)) (t3_plan a d) /\
  apply_cmds (mem s) (t3_plan a d) = final_mem a d (mem s).
Proof.
  intros W Hd. destruct (plan_data_ok s a d W Hd) as (D1 & D2 & D3).
  pose proof (attr_cmd_ok s a (attr_build (set_writef a 15)) W (attr_build_len _)) as Hh.
  pose proof (attr_cmd_ok s a (attr_final a d) W (attr_build_len _)) as Ht.
  pose proof (len_nonneg d) as H0. assert (Hq : 0 <= nblk (len d) <= a_nmaxb a) by (unfold nblk; lia).
  pose proof (wf_blocks s a W) as Hbl. destruct (wf_basic s a W) as (B1 & B2 & B3 & B4).
  unfold t3_plan. repeat split.
  - constructor; [exact Hh|]. apply Forall_app. split; [exact D1 | constructor; [exact Ht | constructor]].
  - constructor; [unfold plan_head; cbn [fst]; constructor; [lia | constructor]|]. apply Forall_app. split.
    + eapply Forall_impl; [|exact D2]. cbn. intros c Hc. eapply Forall_impl; [|exact Hc]. cbn. intros; lia.
    + constructor; [unfold plan_tail; cbn [fst]; constructor; [lia | constructor] | constructor].
  - destruct (plan_image (mem s) (attr_build (set_writef a 15)) (attr_final a d) (pad16 d) eq_refl eq_refl) as (L1 & L2 & E);
      [rewrite pad16_len; fold (nblk (len d)); lia|].
    rewrite apply_cmds_cons, apply_cmds_app. change (apply_cmds ?x [plan_tail a d]) with (apply_cmd x (plan_tail a d)).
    unfold plan_head, plan_tail. fold (attr_final a d).
    rewrite (apply_attr_cmd (mem s)), D3, apply_attr_cmd by (reflexivity || assumption). exact E.
Qed.

Lemma set_octets_fits r cap old s d : len d <= cap ->
  set_octets S rd wr (Ndef r true cap old) s d = write_ndef S rd wr s d.
Proof. intro. unfold set_octets. cbn [negb]. now replace (len d >? cap) with false by lia. Qed.

Lemma write_ndef_run s a d : t3_wf s a -> len d <= 16 * a_nmaxb a -> bud s <> 0 ->
  exists s', write_ndef S rd wr s d =
      (if (bud s <? 0) || (Z.of_nat (length (t3_plan a d)) <=? bud s) then Ok tt else Err (TagCommandError 0), s') /\
    inv s' /\ mem s' = apply_cmds (mem s) (cut (bud s) (t3_plan a d)).
Proof.
  intros W Hd Hb. destruct (wf_basic s a W) as (B1 & B2 & B3 & B4).
  destruct (t3_plan_ok s a d W Hd) as (P1 & _).
  pose proof (len_nonneg d) as H0. destruct (wr_batch_bounds s a (len d) W H0) as (Hwb & _).
  unfold write_ndef, read_attr_w. rewrite rd_block0 by (try apply (wf_inv s a W); lia). rewrite (wf_attr s a W).
  replace (wr_batch a (len d) =? 0) with false by lia.
  apply run_cmds_cut; [apply (wf_inv s a W) | exact P1].
Qed.

Lemma write_ndef_dead s a d : t3_wf s a -> bud s = 0 -> write_ndef S rd wr s d = (Err (TagCommandError 0), s).
Proof. intros W Hb. unfold write_ndef, read_attr_w. now rewrite H_rd_dead by (try apply (wf_inv s a W); auto). Qed.

Lemma fresh_after_write s a d : t3_wf s a -> len d <= 16 * a_nmaxb a ->
  dev_fresh (final_mem a d (mem s)) = Ok (Ndef true true (a_nmaxb a * 16) d).
Proof.
  intros W Hd. destruct (wf_basic s a W) as (B1 & B2 & B3 & B4). pose proof (wf_blocks s a W).
  pose proof (len_nonneg d) as H0. pose proof (pad16_len d) as HP.
  rewrite (fresh_attr s a 0 (len d)); try (exact W || lia).
  - unfold final_mem. change 16 with (len (attr_final a d)). rewrite drop_len_app.
    unfold pad16. now rewrite <- app_assoc, take_len_app.
  - unfold final_mem. rewrite !len_app, len_drop; change (len (attr_final a d)) with 16; lia.
  - apply (take_len_app (attr_final a d)).
Qed.

Theorem t3_write_read_dev s a d : t3_wf s a -> bud s < 0 -> len d <= a_nmaxb a * 16 ->
  exists old s',
    read_ndef S rd s = (Ok (Ndef true true (a_nmaxb a * 16) old), s) /\
    set_octets S rd wr (Ndef true true (a_nmaxb a * 16) old) s d = (Ok tt, s') /\
    dev_fresh (mem s') = Ok (Ndef true true (a_nmaxb a * 16) d).
Proof.
  intros W Hb Hd. destruct (write_ndef_run s a d W) as (s' & Hw & _ & Hm); [lia | lia |].
  destruct (t3_plan_ok s a d W) as (_ & _ & P3); [lia|].
  replace (bud s <? 0) with true in Hw by lia. rewrite cut_all, P3 in Hm by lia.
  eexists _, s'. split; [apply t3_initial_read; [exact W | lia]|].
  rewrite set_octets_fits, Hm by lia. split; [exact Hw | apply fresh_after_write; [exact W | lia]].
Qed.

Theorem t3_capacity_sound_dev s a : t3_wf s a -> 16 + a_nmaxb a * 16 <= len (mem s).
Proof. intro W. pose proof (wf_blocks s a W). lia. Qed.

Theorem t3_oversize_rejected_dev s r cap old d : len d > cap ->
  set_octets S rd wr (Ndef r true cap old) s d = (Err ValueError, s).
Proof. intro H. unfold set_octets. cbn [negb]. now replace (len d >? cap) with true by lia. Qed.

(* power cut after the k-th command *)
Lemma plan_length a d : length (t3_plan a d) = Datatypes.S (length (plan_data a d) + 1).
Proof. unfold t3_plan. cbn [length]. now rewrite app_length. Qed.

(* strictly inside the plan block 0 is the attribute block with WriteF = 0Fh: the data batches do not touch it *)
Lemma mid_mem s a d j : t3_wf s a -> len d <= 16 * a_nmaxb a -> (1 <= j < length (t3_plan a d))%nat ->
  let mk := apply_cmds (mem s) (firstn j (t3_plan a d)) in
  len mk = len (mem s) /\ take 16 mk = attr_build (set_writef a 15).
Proof.
  intros W Hd Hj mk. rewrite plan_length in Hj. destruct (wf_basic s a W) as (B1 & B2 & B3 & B4).
  destruct (plan_data_ok s a d W Hd) as (D1 & D2 & _).
  subst mk. unfold t3_plan. destruct j as [|j]; [lia|]. cbn [firstn].
  rewrite firstn_app. replace (j - length (plan_data a d))%nat with 0%nat by lia. cbn [firstn]. rewrite app_nil_r.
  rewrite apply_cmds_cons.
  unfold plan_head. rewrite apply_attr_cmd by (reflexivity || exact B2).
  assert (L1 : len (splice (mem s) 0 (attr_build (set_writef a 15))) = len (mem s))
    by (apply len_splice; rewrite ?attr_build_len; lia).
  destruct (apply_cmds_frame 1 (1 + nblk (len d)) ltac:(lia) (firstn j (plan_data a d))
              (splice (mem s) 0 (attr_build (set_writef a 15)))) as (A & B & _).
  { apply Forall_firstn. rewrite L1. rewrite Forall_forall in *. intros c Hc. eapply cmd_ok_shape; auto. }
  split; [lia|]. change (16 * 1) with 16 in B. rewrite B. apply (take_len_app (attr_build (set_writef a 15))).
Qed.

Theorem t3_cut_safe_dev s a d old : t3_wf s a -> len d <= a_nmaxb a * 16 -> 0 <= bud s ->
  let k := bud s in
  let n := Z.of_nat (length (t3_plan a d)) in
  exists r s', set_octets S rd wr (Ndef true true (a_nmaxb a * 16) old) s d = (r, s') /\ inv s' /\
    (k = 0 -> mem s' = mem s) /\
    (0 < k < n -> exists w c x, dev_fresh (mem s') = Ok (Ndef false w c x)) /\
    (n <= k -> dev_fresh (mem s') = Ok (Ndef true true (a_nmaxb a * 16) d)).
Proof.
  intros W Hd Hk k n. subst k n. rewrite set_octets_fits by lia. destruct (Z.eq_dec (bud s) 0) as [Hk0|Hk0].
  - exists (Err (TagCommandError 0)), s. rewrite (write_ndef_dead s a d W Hk0), plan_length.
    repeat split; auto; [apply (wf_inv s a W) | lia ..].
  - destruct (write_ndef_run s a d W) as (s' & Hw & Hi & Hm); [lia | exact Hk0 |].
    eexists _, s'. split; [exact Hw|]. split; [exact Hi|]. rewrite Hm. split; [lia|]. split; intro Hkn.
    + unfold cut. replace (bud s <? 0) with false by lia.
      destruct (mid_mem s a d (Z.to_nat (bud s)) W) as (L & T); [lia | lia |].
      destruct (wf_basic s a W) as (_ & _ & _ & B4). pose proof (wf_ln s a W).
      rewrite (fresh_attr s a 15 (a_ln a)); try (exact W || exact L || exact T || lia). eauto.
    + destruct (t3_plan_ok s a d W) as (_ & _ & P3); [lia|].
      rewrite cut_all, P3 by lia. apply fresh_after_write; [exact W | lia].
Qed.

Theorem t3_write_frame_dev s a d old : t3_wf s a -> len d <= a_nmaxb a * 16 ->
  let hi := 1 + nblk (len d) in
  hi <= 1 + a_nmaxb a /\
  (* every command of the plan addresses only block 0 and blocks 1 .. ceil(len/16) *)
  Forall (fun c => Forall (fun b => 0 <= b < hi) (fst c)) (t3_plan a d) /\
  (* whatever the cut point, the effect on the memory is that of a prefix of the plan and nothing at or beyond block hi changes *)
  exists r s', set_octets S rd wr (Ndef true true (a_nmaxb a * 16) old) s d = (r, s') /\
    (exists j, mem s' = apply_cmds (mem s) (firstn j (t3_plan a d))) /\
    len (mem s') = len (mem s) /\ drop (16 * hi) (mem s') = drop (16 * hi) (mem s).
Proof.
  intros W Hd hi. pose proof (len_nonneg d) as H0.
  destruct (t3_plan_ok s a d W) as (P1 & P2 & _); [lia|].
  split; [unfold hi, nblk; lia|]. split; [exact P2|]. rewrite set_octets_fits by lia.
  assert (exists r s' j, write_ndef S rd wr s d = (r, s') /\ mem s' = apply_cmds (mem s) (firstn j (t3_plan a d)))
    as (r & s' & j & Hw & Hm).
  { destruct (Z.eq_dec (bud s) 0) as [Hk0|Hk0].
    - exists (Err (TagCommandError 0)), s, 0%nat. now rewrite (write_ndef_dead s a d W Hk0).
    - destruct (write_ndef_run s a d W) as (s' & Hw & _ & Hm); [lia | exact Hk0 |].
      destruct (cut_firstn (bud s) (t3_plan a d)) as (j & Hj). rewrite Hj in Hm. eauto. }
  exists r, s'. split; [exact Hw|]. split; [eauto|]. rewrite Hm.
  destruct (apply_cmds_frame 0 hi ltac:(lia) (firstn j (t3_plan a d)) (mem s)) as (L & _ & D); [|auto].
  apply Forall_firstn. rewrite Forall_forall in *. intros c Hc. eapply cmd_ok_shape; auto.
Qed.
End Dev.

(* ============================================================ instance: the passive tag *)
Definition pt_inv (MR MW : Z) (t : ptag) : Prop := p_maxr t = MR /\ p_maxw t = MW /\ p_rw t = true.
Definition pt_fresh_of (MR MW : Z) (m : list Z) : ptag := mkPtag m MR MW true (-1) [].

Lemma blks_served m bl : Forall (fun b => 0 <= b < 65536 /\ 16 * (b + 1) <= len m) bl -> forallb (blk_ok m) bl = true.
Proof. intro H. apply forallb_forall. rewrite Forall_forall in H. intros x Hx. specialize (H x Hx). unfold blk_ok, nblocks. lia. Qed.
Lemma p_read_ok MR MW t bl : pt_inv MR MW t -> p_budget t <> 0 -> rd_ok (len (p_mem t)) MR bl ->
  p_read t bl = (Ok (flat_map (blk_get (p_mem t)) bl), t).
Proof.
  intros (I1 & I2 & I3) Hb (Hn & H80 & Hf). unfold p_read.
  destruct (rd_frame_ok p_idm bl) as (f & ->); [reflexivity | eapply Forall_impl; [|exact Hf]; cbn; intros; lia | lia |].
  unfold p_dead. replace (p_budget t =? 0) with false by lia.
  rewrite (blks_served _ _ Hf), I1. replace ((1 <=? len bl) && (len bl <=? MR) && true) with true by lia. reflexivity.
Qed.
Lemma p_read_dead MR MW t : pt_inv MR MW t -> p_budget t = 0 -> p_read t [0] = (Err (TagCommandError 0), t).
Proof.
  intros _ Hb. unfold p_read.
  destruct (rd_frame_ok p_idm [0]) as (f & ->); [reflexivity | constructor; [lia | constructor] | cbn; lia |].
  unfold p_dead. now replace (p_budget t =? 0) with true by lia.
Qed.
Lemma p_write_ok MR MW t c : pt_inv MR MW t -> p_budget t <> 0 -> cmd_ok (len (p_mem t)) MW c ->
  exists t', p_write t (fst c) (snd c) = (Ok tt, t') /\ pt_inv MR MW t' /\ p_mem t' = apply_cmd (p_mem t) c /\
             p_budget t' = (if p_budget t <? 0 then p_budget t else p_budget t - 1).
Proof.
  destruct c as [bl d]. intros (I1 & I2 & I3) Hbud (Hf & Hn & Hb & Hd). cbn [fst snd] in *. unfold p_write.
  destruct (Hf p_idm eq_refl) as (f & ->).
  unfold p_dead. replace (p_budget t =? 0) with false by lia. rewrite I3.
  rewrite (blks_served _ _ Hb), I2. replace (true && (1 <=? len bl) && (len bl <=? MW) && true && (len d =? 16 * len bl)) with true by lia.
  eexists. split; [reflexivity|]. cbn. unfold pt_inv. cbn. auto.
Qed.
Lemma p_write_dead MR MW t c : pt_inv MR MW t -> p_budget t = 0 -> cmd_ok (len (p_mem t)) MW c ->
  p_write t (fst c) (snd c) = (Err (TagCommandError 0), t).
Proof.
  intros _ Hb (Hf & _). unfold p_write. destruct (Hf p_idm eq_refl) as (f & ->).
  unfold p_dead. now replace (p_budget t =? 0) with true by lia.
Qed.
Lemma pt_fresh_ok MR MW m : pt_inv MR MW (pt_fresh_of MR MW m) /\ p_mem (pt_fresh_of MR MW m) = m /\ p_budget (pt_fresh_of MR MW m) = -1.
Proof. unfold pt_inv, pt_fresh_of. cbn. auto. Qed.

Definition pt_wf (t : ptag) (a : attrs) : Prop :=
  t3_wf ptag p_mem (pt_inv (p_maxr t) (p_maxw t)) (p_maxr t) (p_maxw t) t a.

Lemma pt_fresh_dev MR MW m : dev_fresh ptag p_read (pt_fresh_of MR MW) m = pt_fresh m MR MW true.
Proof. reflexivity. Qed.

Theorem t3_write_read_pt t a d : pt_wf t a -> p_budget t < 0 -> len d <= a_nmaxb a * 16 ->
  exists old t',
    pt_read_ndef t = (Ok (Ndef true true (a_nmaxb a * 16) old), t) /\
    pt_set_octets (Ndef true true (a_nmaxb a * 16) old) t d = (Ok tt, t') /\
    pt_fresh (p_mem t') (p_maxr t) (p_maxw t) true = Ok (Ndef true true (a_nmaxb a * 16) d).
Proof.
  intros W Hb Hd.
  eapply (t3_write_read_dev ptag p_read p_write p_mem p_budget (pt_inv (p_maxr t) (p_maxw t)) (p_maxr t) (p_maxw t)
            (pt_fresh_of (p_maxr t) (p_maxw t))); eauto using p_read_ok, p_read_dead, p_write_ok, p_write_dead, pt_fresh_ok.
Qed.
Theorem t3_capacity_sound_pt t a : pt_wf t a -> 16 + a_nmaxb a * 16 <= len (p_mem t).
Proof. intro W. pose proof (wf_blocks ptag p_mem _ _ _ t a W). lia. Qed.
Theorem t3_oversize_rejected_pt t r cap old d : len d > cap -> pt_set_octets (Ndef r true cap old) t d = (Err ValueError, t).
Proof. intro H. unfold pt_set_octets, set_octets. cbn [negb]. now replace (len d >? cap) with true by lia. Qed.
Theorem t3_cut_safe_pt t a d old : pt_wf t a -> len d <= a_nmaxb a * 16 -> 0 <= p_budget t ->
  let k := p_budget t in
  let n := Z.of_nat (length (t3_plan a d)) in
  exists r t', pt_set_octets (Ndef true true (a_nmaxb a * 16) old) t d = (r, t') /\ pt_inv (p_maxr t) (p_maxw t) t' /\
    (k = 0 -> p_mem t' = p_mem t) /\
    (0 < k < n -> exists w c x, pt_fresh (p_mem t') (p_maxr t) (p_maxw t) true = Ok (Ndef false w c x)) /\
    (n <= k -> pt_fresh (p_mem t') (p_maxr t) (p_maxw t) true = Ok (Ndef true true (a_nmaxb a * 16) d)).
Proof.
  intros W Hd Hk.
  eapply (t3_cut_safe_dev ptag p_read p_write p_mem p_budget (pt_inv (p_maxr t) (p_maxw t)) (p_maxr t) (p_maxw t)
            (pt_fresh_of (p_maxr t) (p_maxw t))); eauto using p_read_ok, p_read_dead, p_write_ok, p_write_dead, pt_fresh_ok.
Qed.
Theorem t3_write_frame_pt t a d old : pt_wf t a -> len d <= a_nmaxb a * 16 ->
  let hi := 1 + nblk (len d) in
  hi <= 1 + a_nmaxb a /\
  Forall (fun c => Forall (fun b => 0 <= b < hi) (fst c)) (t3_plan a d) /\
  exists r t', pt_set_octets (Ndef true true (a_nmaxb a * 16) old) t d = (r, t') /\
    (exists j, p_mem t' = apply_cmds (p_mem t) (firstn j (t3_plan a d))) /\
    len (p_mem t') = len (p_mem t) /\ drop (16 * hi) (p_mem t') = drop (16 * hi) (p_mem t).
Proof.
  intros W Hd.
  eapply (t3_write_frame_dev ptag p_read p_write p_mem p_budget (pt_inv (p_maxr t) (p_maxw t)) (p_maxr t) (p_maxw t));
    eauto using p_read_ok, p_read_dead, p_write_ok, p_write_dead, pt_fresh_ok.
Qed.
