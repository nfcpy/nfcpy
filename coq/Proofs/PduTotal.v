(* decode_total: decode never crashes or hangs (for offset >= 0): it returns a PDU or DecodeError.
   decode_reencode: a decoded PDU has valid field values, so it can be encoded and its encoding decodes to an equal PDU. *)
From Coq Require Import ZArith List Bool Lia ZifyBool.
From NV Require Import Base.Result Base.Bytes Model.Pdu Proofs.PduBase Proofs.PduWin Proofs.PduLen Proofs.PduRt.
Import ListNotations.
Open Scope Z_scope.
Ltac Zify.zify_post_hook ::= Z.to_euclidean_division_equations.

Definition okerr {A} (r : res A) : Prop := match r with Ok _ | Err DecodeError => True | _ => False end.

(* [r] is a value with property P, or DecodeError: no other exception, no hang *)
Definition dec_post {A} (P : A -> Prop) (r : res A) : Prop :=
  match r with Ok a => P a | Err DecodeError => True | _ => False end.
Lemma dec_post_bind {A B} (P : A -> Prop) (Q : B -> Prop) r (f : A -> res B) :
  dec_post P r -> (forall a, P a -> dec_post Q (f a)) -> dec_post Q (bind r f).
Proof. destruct r as [a|[]|c|]; cbn; auto. Qed.
Lemma dec_post_mono {A} (P Q : A -> Prop) r : dec_post P r -> (forall a, P a -> Q a) -> dec_post Q r.
Proof. destruct r as [a|[]|c|]; cbn; auto. Qed.

(* what Parameter.decode can return *)
Definition tlv_dec_ok (t : tlv) : Prop :=
  match t with TOther _ b => bytes_ok b /\ len b <= 255 | _ => tlv_ok t end.

Lemma len_not1 {A} (V : list A) : match V with [_] => True | _ => len V <> 1 end.
Proof. destruct V as [|a [|b V]]; [discriminate | exact I | rewrite !len_cons; pose proof (len_nonneg V); lia]. Qed.
Lemma len_not2 {A} (V : list A) : match V with [_; _] => True | _ => len V <> 2 end.
Proof.
  destruct V as [|a [|b [|c V]]]; [discriminate | discriminate | exact I | rewrite !len_cons; pose proof (len_nonneg V); lia].
Qed.

(* Parameter.decode tag by tag: the shape of the value each tag accepts and what it returns; DecodeError is the only
   exception, and struct.error can only come from a value whose length is not L *)
Section TlvInterp.
Variable P : Z -> Z -> list Z -> tlv -> Prop.
Hypothesis H1 : forall v, P 1 1 [v] (TVersion v).
Hypothesis H2 : forall a b, P 2 2 [a; b] (TMiux (Z.land (a * 256 + b) 2047)).
Hypothesis H3 : forall a b, P 3 2 [a; b] (TWks (a * 256 + b)).
Hypothesis H4 : forall v, P 4 1 [v] (TLto v).
Hypothesis H5 : forall v, P 5 1 [v] (TRw (Z.land v 15)).
Hypothesis H6 : forall L V, P 6 L V (TSn V).
Hypothesis H7 : forall v, P 7 1 [v] (TOpt (Z.land v 7)).
Hypothesis H8 : forall L tid sn, L <> 0 -> P 8 L (tid :: sn) (TSdreq tid sn).
Hypothesis H9 : forall a b, P 9 2 [a; b] (TSdres a b).
Hypothesis H10 : forall L V, P 10 L V (TEcpk V).
Hypothesis H11 : forall L V, P 11 L V (TRn V).
Hypothesis Ho : forall T L V, ~ 1 <= T <= 11 -> P T L V (TOther T V).

Lemma tlv_interp_cases T L V :
  match tlv_interp T L V with Ok t => P T L V t | Err e => e = DecodeError | Crash _ => len V <> L | Hang => False end.
Proof.
  unfold tlv_interp.
  destruct (Z.eqb_spec T 1) as [->|].
  { destruct (Z.eqb_spec L 1) as [->|]; [|reflexivity]. pose proof (len_not1 V) as HV. destruct V as [|v [|]]; [exact HV | exact (H1 v) | exact HV]. }
  destruct (Z.eqb_spec T 2) as [->|].
  { destruct (Z.eqb_spec L 2) as [->|]; [|reflexivity]. pose proof (len_not2 V) as HV.
    destruct V as [|a [|b [|]]]; [exact HV | exact HV | exact (H2 a b) | exact HV]. }
  destruct (Z.eqb_spec T 3) as [->|].
  { destruct (Z.eqb_spec L 2) as [->|]; [|reflexivity]. pose proof (len_not2 V) as HV.
    destruct V as [|a [|b [|]]]; [exact HV | exact HV | exact (H3 a b) | exact HV]. }
  destruct (Z.eqb_spec T 4) as [->|].
  { destruct (Z.eqb_spec L 1) as [->|]; [|reflexivity]. pose proof (len_not1 V) as HV. destruct V as [|v [|]]; [exact HV | exact (H4 v) | exact HV]. }
  destruct (Z.eqb_spec T 5) as [->|].
  { destruct (Z.eqb_spec L 1) as [->|]; [|reflexivity]. pose proof (len_not1 V) as HV. destruct V as [|v [|]]; [exact HV | exact (H5 v) | exact HV]. }
  destruct (Z.eqb_spec T 6) as [->|]; [apply H6|].
  destruct (Z.eqb_spec T 7) as [->|].
  { destruct (Z.eqb_spec L 1) as [->|]; [|reflexivity]. pose proof (len_not1 V) as HV. destruct V as [|v [|]]; [exact HV | exact (H7 v) | exact HV]. }
  destruct (Z.eqb_spec T 8) as [->|].
  { destruct (Z.eqb_spec L 0) as [|N]; [reflexivity|]. destruct V as [|tid sn]; [intro E; apply N; symmetry; exact E | exact (H8 L tid sn N)]. }
  destruct (Z.eqb_spec T 9) as [->|].
  { destruct (Z.eqb_spec L 2) as [->|]; [|reflexivity]. pose proof (len_not2 V) as HV.
    destruct V as [|a [|b [|]]]; [exact HV | exact HV | exact (H9 a b) | exact HV]. }
  destruct (Z.eqb_spec T 10) as [->|]; [apply H10|].
  destruct (Z.eqb_spec T 11) as [->|]; [apply H11|].
  apply Ho. lia.
Qed.

Lemma tlv_interp_inv T L V t : tlv_interp T L V = Ok t -> P T L V t.
Proof. intro H. generalize (tlv_interp_cases T L V). rewrite H. trivial. Qed.
End TlvInterp.

Lemma tlv_interp_spec T L V : bytes_ok V -> len V = L -> L <= 255 ->
  dec_post (fun t => tlv_dec_ok t /\ len (tlv_V t) = L) (tlv_interp T L V).
Proof.
  intros Hb HL H255.
  refine (_ (tlv_interp_cases (fun T L V t => bytes_ok V -> len V = L -> L <= 255 -> tlv_dec_ok t /\ len (tlv_V t) = L)
               _ _ _ _ _ _ _ _ _ _ _ _ T L V)).
  { destruct (tlv_interp T L V) as [t|e|c|]; cbn [dec_post]; [auto | intros ->; exact I | intro N; exact (N HL) | trivial]. }
  all: clear; cbn [tlv_dec_ok tlv_ok tlv_V].
  (* VERSION, LTO *) 1, 4: intros v B%byte_of _ _; split; [lia | reflexivity].
  (* WKS, SDRES *) 2, 7: intros a b Hb _ _; pose proof (byte_of _ _ Hb); pose proof (byte_of _ _ (bytes_tl _ _ Hb)); split; [lia | reflexivity].
  (* SN, ECPK, RN *) 3, 6, 7: intros L V Hb HL H255; split; [split; [exact Hb | lia] | exact HL].
  - intros a b Hb _ _. pose proof (byte_of _ _ Hb). pose proof (byte_of _ _ (bytes_tl _ _ Hb)). rewrite land2047. split; [lia | reflexivity].
  - intros v B%byte_of _ _. rewrite land15. split; [lia | reflexivity].
  - intros v B%byte_of _ _. rewrite land7. split; [lia | reflexivity].
  - intros L tid sn _ Hb HL H255. pose proof (byte_of _ _ Hb). rewrite len_cons in HL.
    split; [split; [lia | split; [exact (bytes_tl _ _ Hb) | lia]] | rewrite len_cons; exact HL].
  - intros T L V _ Hb HL H255. split; [split; [exact Hb | lia] | exact HL].
Qed.

Definition Inv (st : pdu) : Prop := valid (norm st) /\ is_agf st = false.

(* [step] keeps the invariant, and the PDU grows by no more than the bytes of the parameter *)
Definition step_ok (step : pdu -> tlv -> pdu) : Prop := forall st t, Inv st -> tlv_dec_ok t ->
  Inv (step st t) /\ pdu_len (norm (step st t)) <= pdu_len (norm st) + 2 + len (tlv_V t).

Lemma some1_le {A} (o : option A) n : 0 <= n -> 0 <= some1 o n <= n.
Proof. destruct o; cbn; lia. Qed.
Lemma ite_le (c : bool) n : 0 <= n -> 0 <= (if c then n else 0) <= n.
Proof. destruct c; lia. Qed.

(* a step that leaves the PDU as it is *)
Lemma step_same st t : Inv st -> Inv st /\ pdu_len (norm st) <= pdu_len (norm st) + 2 + len (tlv_V t).
Proof. intro H. pose proof (len_nonneg (tlv_V t)). split; [exact H | lia]. Qed.

Lemma pax_step_inv : step_ok pax_step.
Proof.
  intros st t Hi Ht. pose proof (step_same st t Hi) as Hsame.
  destruct st; try exact Hsame. destruct t; try exact Hsame.
  (* one of the five optional fields is set: its value is in range by Ht, the other fields are in range by Hv;
     the parameter's three or four bytes pay for the field whether it was present before or not *)
  all: destruct Hi as [Hv _]; cbn [norm] in Hv; vsplit Hv; cbn [tlv_dec_ok tlv_ok] in Ht.
  all: cbn [pax_step]; split; [split; [|reflexivity]|].
  1,3,5,7,9: unfold valid; cbn [norm validb optZ_ok]; unfold in_range; repeat (apply andb_true_intro; split); try assumption; lia.
  all: pose proof (some1_le version 3); pose proof (some1_le miux 4); pose proof (some1_le wks 4);
    pose proof (some1_le lto 3); pose proof (some1_le opt 3).
  all: cbn [norm pdu_len tlv_V some1]; rewrite ?len_cons, ?(@len_nil Z); lia.
Qed.

Lemma optb_ok_norm b : bytes_ok b /\ len b <= 255 -> optb_ok (norm_optb (Some b)) = true.
Proof.
  intros [Hb Hl]. destruct b as [|x b]; [reflexivity|]. cbn [norm_optb optb_ok].
  apply andb_true_iff. split; [apply bytes_okb_spec, Hb|]. unfold in_range. rewrite len_cons in *. pose proof (len_nonneg b). lia.
Qed.
Lemma optb_len_norm b : 0 <= optb_len (norm_optb (Some b)) <= 2 + len b.
Proof. pose proof (len_nonneg b). destruct b as [|x b]; cbn [norm_optb optb_len]; lia. Qed.
Lemma optb_len_nonneg o : 0 <= optb_len o.
Proof. destruct o as [[|x b]|]; cbn [optb_len]; try lia. pose proof (len_nonneg (x :: b)). lia. Qed.

Lemma connect_step_inv : step_ok connect_step.
Proof.
  intros st t Hi Ht. pose proof (step_same st t Hi) as Hsame.
  destruct st; try exact Hsame. destruct t; try exact Hsame.
  all: destruct Hi as [Hv _]; cbn [norm] in Hv; vsplit Hv; cbn [tlv_dec_ok tlv_ok] in Ht.
  all: cbn [connect_step]; split; [split; [|reflexivity]|].
  1,3,5: unfold valid; cbn [norm validb]; unfold sap_ok, in_range; repeat (apply andb_true_intro; split);
    try assumption; try lia; apply optb_ok_norm, Ht.
  all: pose proof (ite_le (miu >? 128) 4); pose proof (ite_le (negb (rw =? 1)) 3); pose proof (optb_len_nonneg (norm_optb sn)).
  - pose proof (ite_le (128 + v >? 128) 4). cbn [norm pdu_len tlv_V]. rewrite !len_cons, (@len_nil Z). lia.
  - pose proof (ite_le (negb (v =? 1)) 3). cbn [norm pdu_len tlv_V]. rewrite !len_cons, (@len_nil Z). lia.
  - pose proof (optb_len_norm b). cbn [norm pdu_len tlv_V]. lia.
Qed.

Lemma cc_step_inv : step_ok cc_step.
Proof.
  intros st t Hi Ht. pose proof (step_same st t Hi) as Hsame.
  destruct st; try exact Hsame. destruct t; try exact Hsame.
  all: destruct Hi as [Hv _]; cbn [norm] in Hv; vsplit Hv; cbn [tlv_dec_ok tlv_ok] in Ht.
  all: cbn [cc_step]; split; [split; [|reflexivity]|].
  1,3: unfold valid; cbn [norm validb]; unfold sap_ok, in_range; repeat (apply andb_true_intro; split); try assumption; lia.
  all: pose proof (ite_le (miu >? 128) 4); pose proof (ite_le (negb (rw =? 1)) 3).
  - pose proof (ite_le (128 + v >? 128) 4). cbn [norm pdu_len tlv_V]. rewrite !len_cons, (@len_nil Z). lia.
  - pose proof (ite_le (negb (v =? 1)) 3). cbn [norm pdu_len tlv_V]. rewrite !len_cons, (@len_nil Z). lia.
Qed.

Lemma zsum_app a b : zsum (a ++ b) = zsum a + zsum b.
Proof. induction a as [|x a IH]; [reflexivity|]. cbn [app]. rewrite !zsum_cons, IH. lia. Qed.

Lemma snl_step_inv : step_ok snl_step.
Proof.
  intros st t Hi Ht. pose proof (step_same st t Hi) as Hsame.
  destruct st; try exact Hsame. destruct t; try exact Hsame.
  all: destruct Hi as [Hv _]; cbn [norm] in Hv; vsplit Hv; cbn [tlv_dec_ok tlv_ok] in Ht.
  all: cbn [snl_step]; split; [split; [|reflexivity]|].
  1,3: unfold valid; cbn [norm validb]; rewrite ?forallb_app; cbn [forallb fst snd]; unfold in_range;
    repeat (apply andb_true_intro; split); try assumption; try lia; apply bytes_okb_spec, Ht.
  all: cbn [norm pdu_len tlv_V]; rewrite ?map_app, ?zsum_app, ?len_app; cbn [map snd zsum fold_right]; rewrite ?len_cons; change (len (@nil ?A)) with 0; lia.
Qed.

Lemma dps_step_inv : step_ok dps_step.
Proof.
  intros st t Hi Ht. pose proof (step_same st t Hi) as Hsame.
  destruct st; try exact Hsame. destruct t; try exact Hsame.
  all: destruct Hi as [Hv _]; cbn [norm] in Hv; vsplit Hv; cbn [tlv_dec_ok tlv_ok] in Ht.
  all: cbn [dps_step]; split; [split; [|reflexivity]|].
  1,3: unfold valid; cbn [norm validb]; repeat (apply andb_true_intro; split); try assumption; apply optb_ok_norm, Ht.
  all: pose proof (optb_len_nonneg (norm_optb ecpk)); pose proof (optb_len_nonneg (norm_optb rn)); pose proof (optb_len_norm b);
    cbn [norm pdu_len tlv_V]; lia.
Qed.

Lemma tlvs_w_spec step (Hstep : step_ok step) : forall fuel w st, bytes_ok w -> len w <= Z.of_nat fuel -> Inv st ->
  dec_post (fun p => Inv p /\ pdu_len (norm p) <= pdu_len (norm st) + len w) (tlvs_w fuel step w st).
Proof.
  induction fuel as [|f IH]; intros w st Hw Hf Hi; pose proof (len_nonneg w);
    (destruct w as [|T [|L rest]]; [split; [exact Hi | lia] | split; [exact Hi | lia] |]).
  - rewrite len2 in Hf. pose proof (len_nonneg rest). lia.
  - destruct (bytes_ok2_inv _ _ _ Hw) as (_ & HL & Hr).
    rewrite len2 in *. pose proof (len_nonneg rest) as Hn. cbn [tlvs_w].
    destruct (L >? len rest) eqn:E; [exact I|].
    apply dec_post_bind with (P := fun t => tlv_dec_ok t /\ len (tlv_V t) = L).
    { apply tlv_interp_spec; [apply bytes_ok_take, Hr | apply len_take; lia | lia]. }
    intros t [Ht Hlt]. destruct (Hstep st t Hi Ht) as [Hi' Hl'].
    eapply dec_post_mono; [apply IH; [apply bytes_ok_drop, Hr | rewrite len_drop by lia; lia | exact Hi']|].
    rewrite len_drop by lia. intros p [Hp Hlp]. split; [exact Hp | lia].
Qed.

Lemma byte_shr2 a : 0 <= a < 256 -> 0 <= Z.shiftr a 2 <= 63. Proof. rewrite shr2. lia. Qed.
Lemma byte_land63 b : 0 <= b < 256 -> 0 <= Z.land b 63 <= 63. Proof. rewrite land63. lia. Qed.
Lemma byte_shr4 a : 0 <= a < 256 -> 0 <= Z.shiftr a 4 <= 15. Proof. rewrite shr4. lia. Qed.
Lemma byte_land15 b : 0 <= Z.land b 15 <= 15. Proof. rewrite land15. lia. Qed.

Lemma class_w_spec pt d s info : 0 <= pt <= 15 -> pt <> 2 -> 0 <= d <= 63 -> 0 <= s <= 63 -> bytes_ok info ->
  dec_post (fun p => Inv p /\ pdu_len (norm p) <= 2 + len info) (class_w pt d s info).
Proof.
  intros Hpt H2 Hd Hs Hi. pose proof (len_nonneg info) as Hn. unfold class_w. cbv zeta.
  assert (Htlv : forall step st, step_ok step -> Inv st -> pdu_len (norm st) = 2 ->
    dec_post (fun p => Inv p /\ pdu_len (norm p) <= 2 + len info) (tlvs_w (Z.to_nat (len info)) step info st)).
  { intros step st Hstep Hst Hl. eapply dec_post_mono; [apply (tlvs_w_spec step Hstep); [exact Hi | lia | exact Hst]|].
    intros p [Hp Hlp]. split; [exact Hp | lia]. }
  assert (Hsap : sap_ok d && sap_ok s = true) by (unfold sap_ok, in_range; lia).
  destruct (pt =? 0) eqn:E0.
  { destruct (negb (d =? 0) || negb (s =? 0)) eqn:Z0; [exact I|].
    destruct info; [|exact I]. split; [|cbn; lia]. split; [|reflexivity].
    unfold valid. cbn [norm validb]. lia. }
  destruct (pt =? 1) eqn:E1.
  { destruct (negb (d =? 0) || negb (s =? 0)) eqn:Z0; [exact I|].
    apply Htlv; [exact pax_step_inv | | reflexivity]. split; [|reflexivity]. unfold valid. cbn [norm validb optZ_ok]. lia. }
  destruct (pt =? 3) eqn:E3.
  { split; [|cbn [norm pdu_len]; lia]. split; [|reflexivity]. unfold valid. cbn [norm validb].
    rewrite Hsap. apply bytes_okb_spec, Hi. }
  destruct (pt =? 4) eqn:E4.
  { apply Htlv; [exact connect_step_inv | | reflexivity]. split; [|reflexivity]. unfold valid. cbn [norm norm_optb validb optb_ok].
    rewrite Hsap. reflexivity. }
  destruct (pt =? 5) eqn:E5.
  { split; [|cbn [norm pdu_len]; lia]. split; [|reflexivity]. unfold valid. cbn [norm validb]. exact Hsap. }
  destruct (pt =? 6) eqn:E6.
  { apply Htlv; [exact cc_step_inv | | reflexivity]. split; [|reflexivity]. unfold valid. cbn [norm validb].
    rewrite Hsap. reflexivity. }
  destruct (pt =? 7) eqn:E7.
  { destruct info as [|r [|r2 l]]; try exact I.
    pose proof (byte_of _ _ Hi). split; [|cbn; lia]. split; [|reflexivity]. unfold valid. cbn [norm validb].
    rewrite Hsap. unfold in_range. lia. }
  destruct (pt =? 8) eqn:E8.
  { destruct info as [|b0 [|b1 [|b2 [|b3 [|b4 l]]]]]; try exact I.
    destruct (bytes_ok4_inv _ _ _ _ _ Hi) as (B0 & B1 & B2 & B3 & _).
    split; [|cbn; lia]. split; [|reflexivity]. unfold valid. cbn [norm validb]. rewrite Hsap.
    pose proof (byte_shr4 b0 B0). pose proof (byte_shr4 b1 B1). pose proof (byte_shr4 b2 B2). pose proof (byte_shr4 b3 B3).
    pose proof (byte_land15 b0). pose proof (byte_land15 b1). pose proof (byte_land15 b2). pose proof (byte_land15 b3).
    unfold in_range. lia. }
  destruct (pt =? 9) eqn:E9.
  { destruct (negb (d =? 1) || negb (s =? 1)) eqn:Z1; [exact I|].
    apply Htlv; [exact snl_step_inv | | reflexivity]. split; [|reflexivity]. unfold valid. cbn [norm validb forallb]. lia. }
  destruct (pt =? 10) eqn:E10.
  { destruct (negb (d =? 0) || negb (s =? 0)) eqn:Z0; [exact I|].
    apply Htlv; [exact dps_step_inv | | reflexivity]. split; [|reflexivity]. unfold valid. cbn [norm norm_optb validb optb_ok]. lia. }
  destruct (pt =? 12) eqn:E12.
  { destruct info as [|q data]; [exact I|]. pose proof (byte_of _ _ Hi) as Q.
    pose proof (byte_shr4 q Q). pose proof (byte_land15 q).
    split; [|cbn [norm pdu_len]; rewrite len_cons; lia]. split; [|reflexivity]. unfold valid. cbn [norm validb].
    rewrite Hsap. replace (in_range 0 15 (Z.shiftr q 4)) with true by (unfold in_range; lia).
    replace (in_range 0 15 (Z.land q 15)) with true by (unfold in_range; lia). apply bytes_okb_spec, (bytes_tl _ _ Hi). }
  destruct (pt =? 13) eqn:E13.
  { destruct info as [|q data]; [exact I|]. pose proof (byte_land15 q).
    split; [|cbn [norm pdu_len]; rewrite len_cons; pose proof (len_nonneg data); lia]. split; [|reflexivity].
    unfold valid. cbn [norm validb]. rewrite Hsap. unfold in_range. lia. }
  destruct (pt =? 14) eqn:E14.
  { destruct info as [|q data]; [exact I|]. pose proof (byte_land15 q).
    split; [|cbn [norm pdu_len]; rewrite len_cons; pose proof (len_nonneg data); lia]. split; [|reflexivity].
    unfold valid. cbn [norm validb]. rewrite Hsap. unfold in_range. lia. }
  split; [|cbn [norm pdu_len]; lia]. split; [|reflexivity]. unfold valid. cbn [norm validb].
  replace ((pt =? 11) || (pt =? 15)) with true by lia. cbn [andb]. rewrite Hsap. apply bytes_okb_spec, Hi.
Qed.

(* dec_w hands PTYPE 0010 to [agfh]; everything else it decodes itself *)
Lemma dec_w_split agfh w : bytes_ok w ->
  dec_w agfh w = agfh w \/ dec_post (fun p => Inv p /\ pdu_len (norm p) <= len w) (dec_w agfh w).
Proof.
  intro Hw. destruct w as [|a [|b info]]; [right; exact I | right; exact I |].
  destruct (bytes_ok2_inv _ _ _ Hw) as (Ha & Hb & Hi).
  unfold dec_w. cbv zeta. destruct (_ =? 2) eqn:E2; [left; reflexivity | right]. rewrite len2.
  apply class_w_spec; [rewrite land15; lia | lia | apply byte_shr2, Ha | apply byte_land63, Hb | exact Hi].
Qed.

Definition member_ok (q : pdu) : Prop := Inv q /\ pdu_len (norm q) <= 65535.

Lemma sub_w_spec w : bytes_ok w -> dec_post (fun p => Inv p /\ pdu_len (norm p) <= len w) (sub_w w).
Proof. intro Hw. unfold sub_w. destruct (dec_w_split (fun _ => Err DecodeError) w Hw) as [-> | H]; [exact I | exact H]. Qed.

Lemma agf_w_spec : forall fuel w acc, bytes_ok w -> len w <= Z.of_nat fuel -> Forall member_ok acc ->
  dec_post (Forall member_ok) (agf_w fuel w acc).
Proof.
  induction fuel as [|f IH]; intros w acc Hw Hf Hacc.
  - destruct w as [|h r]; [exact Hacc|]. rewrite len_cons in Hf. pose proof (len_nonneg r). lia.
  - destruct w as [|h [|l rest]]; cbn [agf_w]; [exact Hacc | exact I |].
    destruct (bytes_ok2_inv _ _ _ Hw) as (Hh & Hl & Hr). rewrite len2 in Hf. pose proof (len_nonneg rest) as Hn.
    set (n := h * 256 + l). assert (Hn0 : 0 <= n <= 65535) by (unfold n; lia).
    destruct (n >? len rest) eqn:E; [exact I|].
    eapply dec_post_bind; [apply sub_w_spec, bytes_ok_take, Hr|]. rewrite len_take by lia. intros p [Hp Hlp].
    apply IH; [apply bytes_ok_drop, Hr | rewrite len_drop by lia; lia |].
    apply Forall_app. split; [exact Hacc|]. constructor; [|constructor]. split; [assumption | lia].
Qed.

Lemma is_agf_norm q : is_agf (norm q) = is_agf q. Proof. destruct q; reflexivity. Qed.

Theorem decode_w_spec w : bytes_ok w -> dec_post (fun p => valid (norm p)) (decode_w w).
Proof.
  intro Hw. unfold decode_w. destruct (dec_w_split agfdec_w w Hw) as [-> | H].
  2:{ eapply dec_post_mono; [exact H|]. now intros p [[Hv _] _]. }
  destruct w as [|a [|b info]]; [exact I | exact I |]. unfold agfdec_w.
  destruct (negb (Z.shiftr a 2 =? 0) || negb (Z.land b 63 =? 0)) eqn:Z0; [exact I|].
  pose proof (len_nonneg info). eapply dec_post_bind.
  { apply agf_w_spec; [apply (bytes_ok2_inv _ _ _ Hw) | lia | constructor]. }
  intros l Ha. unfold dec_post, valid. cbn [norm validb].
  replace ((Z.shiftr a 2 =? 0) && (Z.land b 63 =? 0)) with true by lia. cbn [andb].
  apply forallb_forall. intros q Hq. apply in_map_iff in Hq. destruct Hq as (q0 & <- & Hq0).
  rewrite Forall_forall in Ha. destruct (Ha q0 Hq0) as [[Hv Hna] Hl].
  unfold valid in Hv. rewrite Hv, is_agf_norm, Hna. cbn [negb andb]. lia.
Qed.

Theorem decode_total data off size : 0 <= off -> bytes_ok data ->
  (exists p, decode data off size = Ok p) \/ decode data off size = Err DecodeError.
Proof.
  intros Ho Hd. rewrite decode_char by assumption.
  destruct ((off + size >? len data) || (size <? 2)); [right; reflexivity|].
  pose proof (decode_w_spec _ (bytes_ok_slice data off (off + size) Hd)) as H.
  destruct (decode_w (slice data off (off + size))) as [p|[]|c|]; try contradiction; [left; exists p|right]; reflexivity.
Qed.

Theorem decode_valid data off size p : 0 <= off -> bytes_ok data -> decode data off size = Ok p -> valid (norm p).
Proof.
  intros Ho Hd E. destruct (decode_ok_w _ _ _ _ Ho Hd E) as [Hs Ew].
  pose proof (decode_w_spec _ Hs) as H. rewrite Ew in H. exact H.
Qed.

Lemma emapM_ext {A B} (f g : A -> eres B) l : (forall x, In x l -> f x = g x) -> emapM f l = emapM g l.
Proof. induction l as [|x r IH]; intro H; [reflexivity|]. rewrite !emapM_cons, (H x (or_introl eq_refl)).
  rewrite IH by (intros; apply H; right; assumption). reflexivity. Qed.
Lemma emapM_map {A B C} (f : B -> eres C) (g : A -> B) l : emapM f (map g l) = emapM (fun x => f (g x)) l.
Proof. induction l as [|x r IH]; [reflexivity|]. cbn [map]. rewrite !emapM_cons, IH. reflexivity. Qed.

Lemma optb_tlv_norm o mk : optb_tlv (norm_optb o) mk = optb_tlv o mk.
Proof. destruct o as [[|x b]|]; reflexivity. Qed.
Lemma optb_len_norm_eq o : optb_len (norm_optb o) = optb_len o.
Proof. destruct o as [[|x b]|]; reflexivity. Qed.

Theorem encode_norm : forall p, encode (norm p) = encode p.
Proof.
  induction p as [d s ps IH | p Hp] using pdu_ind'.
  - cbn [norm encode]. rewrite emapM_map. rewrite (emapM_ext (fun x => encode (norm x)) encode).
    + reflexivity.
    + rewrite Forall_forall in IH. exact IH.
  - destruct p; try discriminate Hp; cbn [norm encode]; rewrite ?optb_tlv_norm; reflexivity.
Qed.

Theorem norm_idem : forall p, norm (norm p) = norm p.
Proof.
  induction p as [d s ps IH | p Hp] using pdu_ind'.
  - cbn [norm]. f_equal. rewrite map_map. apply map_ext_in. rewrite Forall_forall in IH. exact IH.
  - destruct p; try discriminate Hp; cbn [norm]; try reflexivity.
    + destruct sn as [[|x b]|]; reflexivity.
    + destruct ecpk as [[|x b]|]; destruct rn as [[|y c]|]; reflexivity.
Qed.

(* a decoded PDU re-encodes, the encoding has the reported length, and it decodes to an equal PDU
   (equal up to norm: an empty service name / ECPK / RN is not encoded and reads back as absent) *)
Theorem decode_reencode data off size p : 0 <= off -> bytes_ok data -> decode data off size = Ok p ->
  exists b', encode p = EOk b' /\ pdu_len p = len b' /\ decode b' 0 (len b') = Ok (norm p).
Proof.
  intros Ho Hd E. pose proof (decode_valid data off size p Ho Hd E) as Hv.
  destruct (decode_encode (norm p) Hv) as (b' & He & Hdec).
  rewrite encode_norm in He. exists b'. split; [exact He|]. split; [apply len_encode, He | exact Hdec].
Qed.

(* in terms of Python's == on PDUs (equality of the encodings): re-encoding the re-decoded PDU gives the same bytes *)
Corollary decode_reencode_eq data off size p : 0 <= off -> bytes_ok data -> decode data off size = Ok p ->
  exists b' p', encode p = EOk b' /\ decode b' 0 (len b') = Ok p' /\ encode p' = encode p.
Proof.
  intros Ho Hd E. destruct (decode_reencode data off size p Ho Hd E) as (b' & He & _ & Hdec).
  exists b', (norm p). split; [exact He|]. split; [exact Hdec | apply encode_norm].
Qed.
