(* C10 - aggregation is transparent: what the receiver's pdu.decode + llc.dispatch hand to the SAP layer is
   exactly the list of PDUs the sender's collect() put into the frame, in order. *)
From Coq Require Import ZArith List Bool Lia ZifyBool.
From NV Require Import Base.Result Base.Bytes Model.Collect Proofs.Collect.
Import ListNotations.
Open Scope Z_scope.
Ltac Zify.zify_post_hook ::= Z.to_euclidean_division_equations.

(* header fields a PDU object must have for encode() not to raise, plus what the per-class decode checks;
   SYMM and AGF never sit in a send queue of a non-raw socket *)
Definition hdr_ok (p : pdu) : Prop :=
  0 <= da p < 64 /\ 0 <= sa p < 64 /\ 0 < pt p < 16 /\ pt p <> PT_AGF /\
  (if numbered (pt p) then 0 <= ns p < 16 /\ 0 <= nr p < 16 else ns p = 0 /\ nr p = 0) /\
  (pt p = PT_DM -> len (body p) = 1) /\ (pt p = PT_FRMR -> len (body p) = 4) /\
  (pt p = PT_SNL -> da p = 1 /\ sa p = 1) /\ (pt p = PT_PAX \/ pt p = PT_DPS -> da p = 0 /\ sa p = 0).
Definition sock_rng (k : skind) (s : sock) : Prop := 0 <= peer s < 64 /\ 0 <= addr s < 64 /\ 0 <= rack s < 16.
Definition wire_ok (st : list sapobj) : Prop := Forall (obj_inv hdr_ok sock_rng) st.

Lemma hdr_nr s p : sock_rng Dlc s -> pt p = PT_I -> hdr_ok p -> hdr_ok (set_nr p (rack s)).
Proof.
  intros (_ & _ & Hr) Hp (A & B & C & D & F & R). unfold hdr_ok. cbn [set_nr da sa pt ns nr body].
  refine (conj A (conj B (conj C (conj D (conj _ R))))). rewrite Hp in F |- *. exact (conj (proj1 F) Hr).
Qed.
Lemma hdr_ack k s : sock_rng k s -> hdr_ok (ack s).
Proof.
  intros (Hp & Ha & Hr). unfold hdr_ok, ack. cbn [da sa pt ns nr body].
  destruct (busy s); [change (numbered PT_RNR) with true|change (numbered PT_RR) with true]; ptc;
    repeat split; try lia; intros; lia.
Qed.
Lemma hdr_snl rs qs : hdr_ok (snl_pdu rs qs).
Proof. unfold hdr_ok, snl_pdu. cbn [da sa pt ns nr body]. change (numbered PT_SNL) with false. ptc.
  repeat split; try lia; intros; lia. Qed.
Lemma rng_stable k s s' : peer s' = peer s -> addr s' = addr s -> smiu s' = smiu s ->
  (rack s' = rack s \/ rack s' = (rack s + confs s) mod 16) -> sock_rng k s -> sock_rng k s'.
Proof. unfold sock_rng. intros -> -> _ Hr (A & B & C). repeat split; try lia; destruct Hr as [->| ->]; lia. Qed.

(* encryption replaces the information field of a UI / I PDU only *)
Lemma hdr_enc c p : hdr_ok p -> hdr_ok (maybe_encrypt c p).
Proof.
  intro H. unfold maybe_encrypt. destruct (sec c) as [k|]; [|exact H]. destruct (is_ui_i p) eqn:E; [|exact H].
  assert (Hu : pt p = PT_UI \/ pt p = PT_I) by (unfold is_ui_i in E; ptc; lia).
  destruct H as (A & B & C & D & F & _ & _ & R). unfold hdr_ok. cbn [da sa pt ns nr body].
  refine (conj A (conj B (conj C (conj D (conj F (conj _ (conj _ R))))))); intro Ht; exfalso; ptc; lia.
Qed.

Lemma collect_wire c st st' f : cipher_ok c -> 1 <= send_miu c -> wire_ok st -> collect c st = Ok (st', f) ->
  wire_ok st' /\ Forall hdr_ok (frame_pdus f) /\ frame_info f <= frame_limit c f.
Proof.
  intros Hc HM I H.
  exact (collect_spec hdr_ok hdr_ok sock_rng c hdr_nr hdr_ack hdr_snl rng_stable Hc (fun p Hp => hdr_enc c p Hp)
           (fun p Hp _ => Hp) st st' f HM I H).
Qed.

Lemma len_enc_hdr p : len (enc_hdr p) = hsize p.
Proof. unfold enc_hdr, hsize. destruct (numbered (pt p)); reflexivity. Qed.
Lemma len_enc_pdu p : len (enc_pdu p) = plen p.
Proof. unfold enc_pdu, plen. rewrite len_app, len_enc_hdr. reflexivity. Qed.

Lemma pack_divmod a m b : 0 <= b < m -> (a * m + b) / m = a /\ (a * m + b) mod m = b.
Proof.
  intro H. split; [rewrite Z.div_add_l, Z.div_small by lia; lia|].
  rewrite Z.add_comm, Z.mod_add, Z.mod_small by lia. reflexivity.
Qed.
Lemma hdr_fields d t s : 0 <= d < 64 -> 0 <= s < 64 -> 0 <= t < 16 ->
  (((d * 4 + t / 4) * 256 + ((t mod 4) * 64 + s)) / 64) mod 16 = t /\ (d * 4 + t / 4) / 4 = d /\ ((t mod 4) * 64 + s) mod 64 = s.
Proof. intros. repeat split; lia. Qed.

Lemma decode_leaf_plain t d s b0 b1 b : numbered t = false -> t <> PT_SYMM ->
  (t = PT_PAX \/ t = PT_DPS -> d = 0 /\ s = 0) -> (t = PT_DM -> len b = 1) -> (t = PT_FRMR -> len b = 4) ->
  (t = PT_SNL -> d = 1 /\ s = 1) ->
  decode_leaf t d s (b0 :: b1 :: b) = Ok [mkPdu t d s 0 0 b].
Proof.
  intros Hn H0 Hpax Hdm Hfr Hsnl. unfold decode_leaf. rewrite Hn. change (drop 2 (b0 :: b1 :: b)) with b.
  rewrite !len_cons.
  destruct (t =? PT_SYMM) eqn:E0; [apply Z.eqb_eq in E0; contradiction|].
  destruct ((t =? PT_PAX) || (t =? PT_DPS)) eqn:E1.
  { destruct Hpax as [-> ->]; [|reflexivity]. apply orb_true_iff in E1. rewrite !Z.eqb_eq in E1. exact E1. }
  destruct (t =? PT_DM) eqn:E2.
  { rewrite Hdm by (apply Z.eqb_eq, E2). reflexivity. }
  destruct (t =? PT_FRMR) eqn:E3.
  { rewrite Hfr by (apply Z.eqb_eq, E3). reflexivity. }
  destruct (t =? PT_SNL) eqn:E4; [|reflexivity].
  destruct Hsnl as [-> ->]; [apply Z.eqb_eq, E4|reflexivity].
Qed.

Lemma rx_leaf p f : hdr_ok p -> rx_dispatch (S f) (enc_pdu p) = Ok [p].
Proof.
  destruct p as [t d s n r b]. unfold hdr_ok. cbn [da sa pt ns nr body].
  intros (Hd & Hs & Ht & Hagf & Hn & Hdm & Hfr & Hsnl & Hpax).
  unfold enc_pdu, enc_hdr. cbn [pt da sa ns nr body app rx_dispatch].
  destruct (hdr_fields d t s Hd Hs ltac:(lia)) as (E1 & E2 & E3). rewrite E1, E2, E3.
  rewrite (proj2 (Z.eqb_neq t PT_AGF) Hagf).
  destruct (numbered t) eqn:En.
  - unfold decode_leaf. rewrite En. cbn [app]. destruct (pack_divmod n 16 r (proj2 Hn)) as [-> ->]. reflexivity.
  - cbn [app]. destruct Hn as [-> ->]. apply decode_leaf_plain; auto. ptc. lia.
Qed.

Lemma length_chunks l : (length l <= length (concat (map enc_sub l)))%nat.
Proof. induction l as [|p l IH]; [apply le_n|]. cbn [map concat]. rewrite app_length. unfold enc_sub at 1.
  cbn [app length]. lia. Qed.

Lemma agf_chunks_enc l : forall fuel, (length l <= fuel)%nat -> Forall (fun p => plen p < 65536) l ->
  agf_chunks fuel (concat (map enc_sub l)) = Ok (map enc_pdu l).
Proof.
  induction l as [|p l IH]; intros fuel Hf Hl.
  - destruct fuel; reflexivity.
  - destruct fuel as [|f]; [cbn in Hf; lia|]. inversion Hl as [|? ? Hp Hl']; subst.
    cbn [map concat]. unfold enc_sub at 1. rewrite <- !app_assoc. cbn [app agf_chunks].
    pose proof (plen_ge2 p) as H2.
    replace (plen p / 256 * 256 + plen p mod 256) with (len (enc_pdu p)) by (rewrite len_enc_pdu; lia).
    rewrite len_app.
    replace ((len (enc_pdu p) >? len (enc_pdu p) + len (concat (map enc_sub l))) || (len (enc_pdu p) <? 2)) with false
      by (rewrite len_enc_pdu; pose proof (len_nonneg (concat (map enc_sub l))); lia).
    rewrite drop_len_app, take_len_app, IH; [reflexivity| |assumption]. cbn [length] in Hf. lia.
Qed.

Lemma rx_agf f l : Forall hdr_ok l -> Forall (fun p => plen p < 65536) l ->
  rx_dispatch (S (S f)) ([0; 128] ++ concat (map enc_sub l)) = Ok l.
Proof.
  intros Hh Hl. cbn [app]. remember (S f) as f1. cbn [rx_dispatch].
  change (((0 * 256 + 128) / 64) mod 16) with 2. change (0 / 4) with 0. change (128 mod 64) with 0.
  change (2 =? PT_AGF) with true. change (negb (0 =? 0) || negb (0 =? 0)) with false. cbv iota.
  rewrite agf_chunks_enc; [|apply length_chunks|exact Hl]. cbn [bind].
  clear Hl. induction l as [|p l IH]; [reflexivity|]. inversion Hh as [|? ? Hp Hh']; subst.
  cbn [map]. rewrite rx_leaf by exact Hp. cbn [bind]. rewrite (IH Hh'). reflexivity.
Qed.

Theorem agf_transparent_wire c st st' f : cipher_ok c -> 1 <= send_miu c <= 65000 -> wire_ok st -> collect c st = Ok (st', f) ->
  f <> FNone -> receive (enc_frame f) = Ok (frame_pdus f).
Proof.
  intros Hc HM I H Hf. destruct (collect_wire c st st' f Hc ltac:(lia) I H) as (_ & Hh & Hb).
  destruct f as [|p|l]; [congruence| |]; unfold receive; cbn [enc_frame frame_pdus] in *.
  - inversion Hh; subst. apply rx_leaf. assumption.
  - cbn [app length]. apply (rx_agf _ l Hh). apply Forall_forall. intros p Hp.
    pose proof (agf_info_in p l Hp). unfold frame_limit in Hb. cbn [frame_info] in Hb. lia.
Qed.

(* the information field measured on the abstract frame is the one of the encoded bytes *)
Definition frame_hdr (f : frame) : Z := match f with FNone => 0 | FOne p => hsize p | FAgf _ => 2 end.
Lemma len_concat_sub l : len (concat (map enc_sub l)) = agf_info l.
Proof.
  induction l as [|p l IH]; [reflexivity|]. cbn [map concat]. rewrite len_app, IH, agf_info_cons.
  unfold enc_sub. rewrite len_app, len_enc_pdu. change (len [plen p / 256; plen p mod 256]) with 2. lia.
Qed.
Theorem enc_frame_len f : len (enc_frame f) = frame_hdr f + frame_info f.
Proof.
  destruct f as [|p|l]; cbn [enc_frame frame_hdr frame_info].
  - reflexivity.
  - rewrite len_enc_pdu. reflexivity.
  - rewrite len_app, len_concat_sub. reflexivity.
Qed.
