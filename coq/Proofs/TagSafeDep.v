(* C08, ISO-DEP layer below the Type 4 reader: with the repair fixes/c08-03-isodep-wtx-without-wtxm.diff
   (Model/TagReadAnyB.v pcd_absorb_any) IsoDepInitiator.exchange against ANY responder returns a response or
   raises Type4TagCommandError - never another exception - and stops within the bound of C12's theorem. *)
From Coq Require Import ZArith List Bool Lia ZifyBool.
From NV Require Import Base.Result Base.Bytes Model.IsoDep Model.TagAct Model.TagReadAnyB Proofs.IsoDep Proofs.IsoDepStream.
Import ListNotations.
Open Scope Z_scope.

Definition goodr (r : res bytes) : Prop :=
  match r with Ok _ => True | Err (TagCommandError _) => True | _ => False end.
Definition goodph (p : pcd) : Prop :=
  match ph p with PSend _ _ _ => True | PRecv _ _ _ => True | PDone r => goodr r | PWtx _ _ => False end.

Section Dep.
Variable k : cfg.
Variable cmd : bytes.
Hypothesis Hf1 : fix_wtx_try k = true.
Hypothesis Hf2 : fix_wtx_chain k = true.

Lemma kind_good a f f' pn : step_kind k cmd a f f' -> goodph (mkp pn f').
Proof. destruct 1; exact I. Qed.

Lemma absorb_good p a : goodph p -> goodph (pcd_absorb k cmd p a).
Proof.
  destruct p as [pn f]. unfold goodph at 1. cbn [ph]. change {| pni := pn; ph := f |} with (mkp pn f). intro Hg.
  destruct f as [off i d | off d | i d rsp | r]; try contradiction.
  - pose proof (absorb_send_kind k cmd Hf1 pn off i d a) as Hk.
    destruct (pcd_absorb k cmd (mkp pn (PSend off i d)) a) as [pn' f']. exact (kind_good _ _ _ pn' Hk).
  - pose proof (absorb_recv_kind k cmd Hf2 pn i d rsp a) as Hk.
    destruct (pcd_absorb k cmd (mkp pn (PRecv i d rsp)) a) as [pn' f']. exact (kind_good _ _ _ pn' Hk).
  - exact Hg.
Qed.

(* a stream in which every S(WTX) block without WTXM byte is replaced by a protocol error *)
Definition fixa (a : aresult) : aresult := match a with ARx d => if short_wtx d then AProto else a | _ => a end.
Definition fixs (s : nat -> aresult) : nat -> aresult := fun n => fixa (s n).

Lemma absorb_any_fix p a : goodph p -> pcd_absorb_any k cmd p a = pcd_absorb k cmd p (fixa a).
Proof.
  intro Hg. unfold pcd_absorb_any, fixa. destruct a as [d| | |]; try reflexivity.
  destruct (short_wtx d) eqn:E; [|reflexivity]. unfold goodph in Hg. destruct p as [pn f]. cbn [ph] in *.
  destruct f; try contradiction; cbn [wtx_phase ph andb]; unfold pcd_absorb; cbn [ph pni]; reflexivity.
Qed.

Lemma absorb_any_good p a : goodph p -> goodph (pcd_absorb_any k cmd p a).
Proof. intro Hg. rewrite absorb_any_fix by assumption. apply absorb_good, Hg. Qed.

(* whatever the responder sends: a response, Type4TagCommandError, or (only when the fuel runs out) no result yet *)
Theorem isodep_any_total : forall fuel p s n, goodph p ->
  goodr (run_stream_any fuel k cmd p s n) \/ run_stream_any fuel k cmd p s n = Hang.
Proof.
  induction fuel as [|f IH]; intros p s n Hg.
  - cbn [run_stream_any]. unfold goodph in Hg. destruct (ph p); auto.
  - cbn [run_stream_any]. pose proof (absorb_any_good p (s n) Hg) as Hg'. unfold goodph in Hg.
    destruct (ph p) eqn:E; try contradiction; auto.
Qed.

Lemma run_any_fix : forall fuel p s n, goodph p -> run_stream_any fuel k cmd p s n = run_stream fuel k cmd p (fixs s) n.
Proof.
  induction fuel as [|f IH]; intros p s n Hg; [reflexivity|].
  cbn [run_stream_any run_stream]. pose proof (absorb_any_good p (s n) Hg) as Hg'.
  rewrite (absorb_any_fix p (s n) Hg) in *. unfold fixs at 2.
  destruct (ph p); try reflexivity; apply IH; exact Hg'.
Qed.
End Dep.

Lemma wild_fix s : forall n, wild (fixs s) n <= wild s n.
Proof.
  induction n as [|n IH]; [reflexivity|]. cbn [wild]. unfold fixs at 2. unfold fixa.
  destruct (s n) as [d| | |]; try lia. destruct (short_wtx d); [|lia]. change (wildb AProto) with false. destruct (wildb (ARx d)); lia.
Qed.

(* IsoDepInitiator.exchange(command) with all repairs, against ANY responder that uses at most W waiting time
   extensions / chained response blocks: stops, with a response or Type4TagCommandError *)
Theorem isodep_any_safe k cmd : fix_wtx_try k = true -> fix_wtx_chain k = true -> fix_rack k = true ->
  0 < miu k -> 0 <= n_nak k -> 0 <= n_ack k -> 0 < len cmd ->
  forall pn s W fuel, (forall N, wild s N <= W) -> (CC k + 1) * (len cmd + 2 + W) + CC k <= Z.of_nat fuel ->
  goodr (run_stream_any fuel k cmd (pcd_start k cmd pn) s 0).
Proof.
  intros H1 H2 H3 Hm Hn1 Hn2 Hc pn s W fuel HW Hf.
  assert (Hg : goodph (pcd_start k cmd pn)) by (rewrite pcd_start_eq by assumption; exact I).
  destruct (isodep_any_total k cmd H1 H2 fuel _ s 0%nat Hg) as [G | Hh]; [exact G|]. exfalso.
  rewrite (run_any_fix k cmd H1 H2 fuel _ s 0%nat Hg) in Hh.
  apply (stream_terminates k cmd H1 H2 H3 Hm Hn1 Hn2 pn (fixs s) W fuel Hc); [|exact Hf | exact Hh].
  intro N. pose proof (wild_fix s N). specialize (HW N). lia.
Qed.

(* with the budget of fixes/c08-19: unconditional *)
Lemma wild_ans_wildb a : wild_ans a = wildb a.
Proof. reflexivity. Qed.

Lemma run_script_any_done fuel k cmd p script w n r : ph p = PDone r ->
  run_script_any fuel k cmd p script w n = (r, n, pni p).
Proof. intro H. destruct fuel; cbn [run_script_any]; rewrite H; reflexivity. Qed.
Lemma run_script_any_step fuel k cmd p script w n : is_done p = false ->
  run_script_any fuel k cmd p script w n =
  match fuel with
  | O => (Hang, n, pni p)
  | S f => let a := budgeted w (hd_x script) in
           run_script_any f k cmd (pcd_absorb_any k cmd p a) (tl script) (if wild_ans a then w - 1 else w) (n + 1)
  end.
Proof. unfold is_done. intro H. destruct fuel; cbn [run_script_any]; destruct (ph p); try discriminate; reflexivity. Qed.

Lemma run_script_good k cmd : fix_wtx_try k = true -> fix_wtx_chain k = true -> fix_rack k = true ->
  0 < miu k -> 0 <= n_nak k -> 0 <= n_ack k ->
  forall fuel p script w n, goodph p -> okph p -> 0 <= w -> MM k cmd w p <= Z.of_nat fuel ->
  goodr (fst (fst (run_script_any fuel k cmd p script w n))).
Proof.
  intros H1 H2 H3 Hm Hn1 Hn2. induction fuel as [|f IH]; intros p script w n Hg Ho Hw HM;
    (destruct (is_done p) eqn:Hd;
       [destruct (is_done_inv p Hd) as [r Hr]; rewrite (run_script_any_done _ _ _ _ _ _ _ r Hr);
        unfold goodph in Hg; rewrite Hr in Hg; exact Hg
       | rewrite run_script_any_step by exact Hd]).
  - pose proof (MM_pos k cmd Hn1 Hn2 w p Ho Hd Hw). lia.
  - cbv zeta. set (a := budgeted w (hd_x script)).
    assert (Hwa : wild_ans a = true -> 0 < w).
    { unfold a, budgeted. destruct (wild_ans (hd_x script)) eqn:Ew; cbn [andb]; [|intro E; rewrite Ew in E; discriminate].
      destruct (w <=? 0) eqn:E0; [cbn; discriminate | lia]. }
    set (w' := if wild_ans a then w - 1 else w).
    assert (Hw' : 0 <= w' /\ w' <= w) by (unfold w'; destruct (wild_ans a); [specialize (Hwa eq_refl)|]; lia).
    pose proof (absorb_any_good k cmd H1 H2 p a Hg) as Hg'.
    rewrite (absorb_any_fix k cmd p a Hg) in *.
    destruct (absorb_MM k cmd H1 H2 H3 Hm Hn1 Hn2 p (fixa a) w w' Ho Hd) as [Ho' HM']; try lia.
    { intro Ewf. assert (Ewa : wild_ans a = true).
      { rewrite wild_ans_wildb. unfold fixa in Ewf. destruct a as [d| | |]; try discriminate.
        destruct (short_wtx d); [discriminate | exact Ewf]. }
      unfold w'. rewrite Ewa. lia. }
    apply IH; auto; lia.
Qed.

(* IsoDepInitiator.exchange(command) with the repairs 03 and 19 against EVERY script of answers: a response or
   Type4TagCommandError - it stops, whatever the card does (S(WTX) for ever, chained blocks for ever, R(ACK) for ever ...) *)
Theorem isodep_script_safe k cmd : fix_wtx_try k = true -> fix_wtx_chain k = true -> fix_rack k = true ->
  0 < miu k -> 0 <= n_nak k -> 0 <= n_ack k -> 0 < len cmd ->
  forall pn script, goodr (fst (fst (dep_exchange k cmd pn script))).
Proof.
  intros H1 H2 H3 Hm Hn1 Hn2 Hc pn script. unfold dep_exchange. rewrite pcd_start_eq by assumption.
  apply (run_script_good k cmd H1 H2 H3 Hm Hn1 Hn2); [exact I | exact I | unfold W_MAX; lia |].
  unfold MM, pos, cnt, dep_fuel, CC, W_MAX. cbn [ph mkp]. nia.
Qed.
