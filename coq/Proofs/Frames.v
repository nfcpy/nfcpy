From Coq Require Import ZArith List Bool Lia ZifyBool.
From NV Require Import Base.Result Base.Bytes Base.PyPrims Model.Frames.
Import ListNotations.
Open Scope Z_scope.
Ltac Zify.zify_post_hook ::= Z.to_euclidean_division_equations.

Lemma firstn_len_app {A} (a b : list A) n : n = length a -> firstn n (a ++ b) = a.
Proof. intros ->. rewrite firstn_app, Nat.sub_diag, firstn_all. cbn. apply app_nil_r. Qed.
Lemma nth_len_app (a : list Z) x b n d : n = length a -> nth n (a ++ x :: b) d = x.
Proof. intros ->. rewrite app_nth2, Nat.sub_diag by lia. reflexivity. Qed.

Lemma split_last2 (l : list Z) : 2 <= len l -> exists B x y, l = B ++ [x; y].
Proof.
  intro H. unfold len in H.
  destruct (exists_last (l := l)) as (l1 & y & ->); [destruct l; cbn in H; [lia|discriminate]|].
  rewrite app_length in H. cbn in H.
  destruct (exists_last (l := l1)) as (B & x & ->); [destruct l1; cbn in H; [lia|discriminate]|].
  exists B, x, y. rewrite <- app_assoc. reflexivity.
Qed.
Lemma removelast_app2 (B : list Z) x y : removelast (B ++ [x; y]) = B ++ [x].
Proof. rewrite removelast_app by discriminate. reflexivity. Qed.
Lemma removelast_app1 (B : list Z) x : removelast (B ++ [x]) = B.
Proof. rewrite removelast_app by discriminate. cbn. apply app_nil_r. Qed.

Lemma normal_ok ln lcs B dcs post :
  (ln =? 255) && (lcs =? 255) = false -> (ln + lcs) mod 256 = 0 -> len B = ln ->
  (sum B + dcs) mod 256 = 0 ->
  host_frame_ok ([0; 0; 255; ln; lcs] ++ B ++ [dcs; post]) = Some B.
Proof.
  intros Hne Hl Hn Hd. unfold host_frame_ok, byt. rewrite !len_app. cbn [app nth skipn].
  rewrite Hne. cbn [Z.eqb andb Pos.eqb]. rewrite Hl. cbn [Z.eqb andb].
  replace (len [0; 0; 255; ln; lcs] + (len B + len [dcs; post]) =? 5 + ln + 2) with true by (unfold len in *; cbn [length]; lia).
  subst ln. unfold len. rewrite Nat2Z.id, firstn_len_app, nth_len_app, Hd by reflexivity. reflexivity.
Qed.

Lemma ext_ok lm ll lcs B dcs post :
  (lm + ll + lcs) mod 256 = 0 -> len B = lm * 256 + ll -> (sum B + dcs) mod 256 = 0 ->
  host_frame_ok ([0; 0; 255; 255; 255; lm; ll; lcs] ++ B ++ [dcs; post]) = Some B.
Proof.
  intros Hl Hn Hd. unfold host_frame_ok, byt. rewrite !len_app. cbn [app nth skipn Z.eqb andb Pos.eqb].
  rewrite Hl, <- Hn. cbn [Z.eqb andb].
  replace (len [0; 0; 255; 255; 255; lm; ll; lcs] + (len B + len [dcs; post]) =? 8 + len B + 2) with true
    by (unfold len in *; cbn [length]; lia).
  unfold len. rewrite Nat2Z.id, firstn_len_app, nth_len_app, Hd by reflexivity. reflexivity.
Qed.

Lemma sum_nonneg l : bytes_ok l -> 0 <= sum l.
Proof. induction l as [|x l IH]; intro H; [cbn; lia|]. apply bytes_ok_cons in H. destruct H as [Hx Hl].
  rewrite sum_cons. unfold byte_ok in Hx. specialize (IH Hl). lia. Qed.

Theorem pn53x_build_ok cmd data :
  len data <= 65533 ->
  host_frame_ok (pn53x_build cmd data) = Some ([212; cmd] ++ data).
Proof.
  intro Hn. pose proof (len_nonneg data) as H0. unfold pn53x_build, pn53x_head.
  set (body := [212; cmd] ++ data).
  assert (Hb : len body = len data + 2) by (unfold body; rewrite len_app; change (len [212; cmd]) with 2; lia).
  destruct (len data <? 254) eqn:E.
  - change (SOF ++ [len data + 2; 254 - len data]) with [0; 0; 255; len data + 2; 254 - len data].
    apply normal_ok; try lia. rewrite land255. lia.
  - cbv zeta. change (SOF ++ ?l) with (0 :: 0 :: 255 :: l). cbn [app].
    change (0 :: 0 :: 255 :: 255 :: 255 :: ?a :: ?b :: ?c :: body ++ ?t) with ([0; 0; 255; 255; 255; a; b; c] ++ body ++ t).
    apply ext_ok; rewrite ?land255; lia.
Qed.

(* normal vs extended format is chosen as the manual requires: LEN = len data + 2 (TFI and the command code)
   fits one byte up to 255 *)
Theorem pn53x_build_format cmd data :
  (len data < 254 -> exists rest, pn53x_build cmd data = [0; 0; 255; len data + 2; 254 - len data] ++ rest) /\
  (254 <= len data -> exists rest, pn53x_build cmd data = [0; 0; 255; 255; 255] ++ rest).
Proof.
  unfold pn53x_build, pn53x_head. split; intro H.
  - replace (len data <? 254) with true by lia. eexists. cbn [SOF app]. reflexivity.
  - replace (len data <? 254) with false by lia. eexists. cbn [SOF app]. reflexivity.
Qed.

Lemma starts_with_inv p l : starts_with p l = true -> exists r, l = p ++ r.
Proof.
  unfold starts_with. intro H. apply list_eqb_eq in H. exists (skipn (length p) l).
  rewrite <- (firstn_skipn (length p) l) at 1. rewrite H. reflexivity.
Qed.

Lemma idx0_cons x l : idx (x :: l) 0 = Ok x. Proof. reflexivity. Qed.
Lemma idx1_cons x y l : idx (x :: y :: l) 1 = Ok y. Proof. reflexivity. Qed.

(* what the common tail of command() does with the checksummed part *)
Definition tail_parse (cmd : Z) (body : list Z) : res (list Z) :=
  if negb (Z.land (sum (but_last body)) 255 =? 0) then Err IOErr else
  do b0 <- idx body 0;
  if b0 =? 127 then Err (ChipsetError 127) else
  if negb (b0 =? 213) then Err IOErr else
  do b1 <- idx body 1;
  if negb (b1 =? cmd + 1) then Err IOErr else
  Ok (strip2 body).

Lemma tail_parse_sound cmd B dcs post d :
  bytes_ok (B ++ [dcs; post]) -> cmd <> 42 ->
  tail_parse cmd (B ++ [dcs; post]) = Ok d ->
  (sum B + dcs) mod 256 = 0 /\ B = [213; cmd + 1] ++ d.
Proof.
  intros Hb H42. unfold tail_parse, but_last. rewrite removelast_app2, sum_app, land255.
  change (sum [dcs]) with dcs.
  destruct (negb ((sum B + dcs) mod 256 =? 0)) eqn:E; [discriminate|].
  apply bytes_ok_app in Hb. destruct Hb as [HB Ht]. apply bytes_ok_cons in Ht. destruct Ht as [Hd _].
  unfold byte_ok in Hd.
  destruct B as [|p0 [|p1 B']].
  - cbn [app]. rewrite idx0_cons. cbn [bind]. change (sum []) with 0 in E.
    destruct (dcs =? 127) eqn:E1; [discriminate|]. destruct (negb (dcs =? 213)) eqn:E2; [discriminate|]. lia.
  - cbn [app]. rewrite idx0_cons, idx1_cons. cbn [bind]. rewrite sum_cons in E. change (sum []) with 0 in E.
    destruct (p0 =? 127) eqn:E1; [discriminate|]. destruct (negb (p0 =? 213)) eqn:E2; [discriminate|].
    destruct (negb (dcs =? cmd + 1)) eqn:E3; [discriminate|]. lia.
  - cbn [app]. rewrite idx0_cons, idx1_cons. cbn [bind].
    destruct (p0 =? 127) eqn:E1; [discriminate|]. destruct (negb (p0 =? 213)) eqn:E2; [discriminate|].
    destruct (negb (p1 =? cmd + 1)) eqn:E3; [discriminate|].
    intro H. injection H as <-. unfold strip2. cbn [tl]. rewrite removelast_app2, removelast_app1.
    split; [lia|]. f_equal; [lia|]. f_equal. lia.
Qed.

(* the framing part of command(): the checksummed part of a frame with a valid header *)
Definition frame_body (f : list Z) : res (list Z) :=
  if starts_with (SOF ++ [255; 255]) f then
    if negb (Z.land (sum (firstn 3 (skipn 5 f))) 255 =? 0) then Err IOErr
    else if negb (byt f 5 * 256 + byt f 6 =? len f - 10) then Err IOErr
    else Ok (skipn 8 f)
  else if starts_with SOF f then
    if negb (Z.land (sum (firstn 2 (skipn 3 f))) 255 =? 0) then Err IOErr
    else if negb (byt f 3 =? len f - 7) then Err IOErr
    else Ok (skipn 5 f)
  else Err IOErr.

Lemma pn53x_parse_unfold cmd f :
  pn53x_parse cmd f = if len f <? 7 then Err IOErr else do body <- frame_body f; tail_parse cmd body.
Proof. reflexivity. Qed.

Lemma frame_body_ext lm ll lcs rest :
  frame_body ([0; 0; 255; 255; 255; lm; ll; lcs] ++ rest) =
  if negb ((lm + ll + lcs) mod 256 =? 0) then Err IOErr
  else if negb (lm * 256 + ll =? len rest - 2) then Err IOErr else Ok rest.
Proof.
  unfold frame_body, starts_with, byt. rewrite len_app.
  cbn [SOF app length firstn list_eqb Z.eqb Pos.eqb andb skipn nth].
  rewrite !sum_cons, sum_nil, land255, Z.add_0_r, Z.add_assoc.
  replace (len [0; 0; 255; 255; 255; lm; ll; lcs] + len rest - 10) with (len rest - 2) by (unfold len; cbn [length]; lia).
  reflexivity.
Qed.

Lemma frame_body_normal ln lcs rest : (ln =? 255) && (lcs =? 255) = false ->
  frame_body ([0; 0; 255; ln; lcs] ++ rest) =
  if negb ((ln + lcs) mod 256 =? 0) then Err IOErr
  else if negb (ln =? len rest - 2) then Err IOErr else Ok rest.
Proof.
  intro H. unfold frame_body, starts_with, byt. rewrite len_app.
  cbn [SOF app length firstn list_eqb Z.eqb Pos.eqb andb skipn nth].
  rewrite andb_true_r, H, !sum_cons, sum_nil, land255, Z.add_0_r.
  replace (len [0; 0; 255; ln; lcs] + len rest - 7) with (len rest - 2) by (unfold len; cbn [length]; lia).
  reflexivity.
Qed.

Lemma frame_body_cases f : frame_body f = Err IOErr \/ exists body, frame_body f = Ok body.
Proof.
  unfold frame_body. destruct (starts_with (SOF ++ [255; 255]) f); [|destruct (starts_with SOF f); [|auto]];
    (destruct (negb _); [auto|]; destruct (negb _); eauto).
Qed.

(* an accepted header leaves at least DCS and postamble, and the frame is valid under the
   independent validator as soon as the data checksum is *)
Lemma frame_body_ok f body : bytes_ok f -> 7 <= len f -> frame_body f = Ok body ->
  2 <= len body /\ bytes_ok body /\
  forall B dcs post, body = B ++ [dcs; post] -> (sum B + dcs) mod 256 = 0 -> host_frame_ok f = Some B.
Proof.
  intros Hf H7. pose proof (proj1 (Forall_forall _ _) Hf) as Hb.
  destruct (starts_with (SOF ++ [255; 255]) f) eqn:Ex.
  - apply starts_with_inv in Ex. destruct Ex as [r ->]. cbn [SOF app] in *.
    destruct r as [|lm [|ll r]]; try (cbn in H7; lia).
    assert (byte_ok lm /\ byte_ok ll) as [Hlm Hll] by (split; apply Hb; cbn; tauto).
    unfold byte_ok in Hlm, Hll.
    destruct r as [|lcs rest].
    { unfold frame_body, starts_with, byt. cbn [SOF app length firstn list_eqb Z.eqb Pos.eqb andb skipn nth].
      destruct (negb _); [discriminate|].
      destruct (negb (lm * 256 + ll =? _)) eqn:E2; [discriminate|]. cbn in E2. lia. }
    rewrite (frame_body_ext lm ll lcs rest : frame_body (0 :: 0 :: 255 :: 255 :: 255 :: lm :: ll :: lcs :: rest) = _).
    destruct (negb ((lm + ll + lcs) mod 256 =? 0)) eqn:E1; [discriminate|].
    destruct (negb (lm * 256 + ll =? len rest - 2)) eqn:E2; [discriminate|].
    intro H. injection H as <-. split; [lia|]. split; [apply Forall_forall; intros x Hx; apply Hb; cbn; tauto|].
    intros B dcs post -> Hs. rewrite len_app in E2. change (len [dcs; post]) with 2 in E2.
    apply (ext_ok lm ll lcs B dcs post); [lia|lia|exact Hs].
  - destruct (starts_with SOF f) eqn:En; [|unfold frame_body; rewrite Ex, En; discriminate].
    apply starts_with_inv in En. destruct En as [r ->]. cbn [SOF app] in *.
    destruct r as [|ln [|lcs rest]]; try (cbn in H7; lia).
    unfold starts_with in Ex. cbn [SOF app length firstn list_eqb Z.eqb Pos.eqb andb] in Ex.
    rewrite andb_true_r in Ex. rewrite (frame_body_normal ln lcs rest Ex : frame_body (0 :: 0 :: 255 :: ln :: lcs :: rest) = _).
    destruct (negb ((ln + lcs) mod 256 =? 0)) eqn:E1; [discriminate|].
    destruct (negb (ln =? len rest - 2)) eqn:E2; [discriminate|].
    intro H. injection H as <-. rewrite !len_cons in H7. split; [lia|].
    split; [apply Forall_forall; intros x Hx; apply Hb; cbn; tauto|].
    intros B dcs post -> Hs. rewrite len_app in E2. change (len [dcs; post]) with 2 in E2.
    apply (normal_ok ln lcs B dcs post); [exact Ex|lia|lia|exact Hs].
Qed.

(* accepted implies valid under the independent validator *)
Theorem pn53x_parse_sound cmd f d :
  bytes_ok f -> 0 <= cmd < 256 -> cmd <> 42 ->
  pn53x_parse cmd f = Ok d -> host_frame_ok f = Some ([213; cmd + 1] ++ d).
Proof.
  intros Hf Hc H42. rewrite pn53x_parse_unfold.
  destruct (len f <? 7) eqn:E7; [discriminate|].
  destruct (frame_body f) as [body| | |] eqn:Eb; try discriminate. cbn [bind]. intro H.
  destruct (frame_body_ok f body Hf ltac:(lia) Eb) as (H2 & Hbr & Hok).
  destruct (split_last2 body H2) as (B & dcs & post & ->).
  destruct (tail_parse_sound cmd B dcs post d Hbr H42 H) as [Hs <-].
  apply (Hok B dcs post eq_refl Hs).
Qed.

(* the residual case excluded above, exhibited: for the (non-existent) host command 2Ah the
   DCS byte of a one-byte frame body is read as the response code *)
Example pn53x_parse_cmd42 : pn53x_parse 42 [0; 0; 255; 1; 255; 213; 43; 0] = Ok [].
Proof. vm_compute. reflexivity. Qed.

(* never an internal error: every byte string is answered Ok / IOError / Chipset.Error *)
Lemma tail_parse_total cmd body : 2 <= len body ->
  match tail_parse cmd body with Ok _ | Err IOErr | Err (ChipsetError 127) => True | _ => False end.
Proof.
  intro H. destruct body as [|b0 [|b1 body]]; try (cbn in H; lia).
  unfold tail_parse. rewrite idx0_cons, idx1_cons. cbn [bind].
  destruct (negb _); [exact I|]. destruct (b0 =? 127); [exact I|]. destruct (negb (b0 =? 213)); [exact I|].
  destruct (negb (b1 =? cmd + 1)); exact I.
Qed.

Theorem pn53x_parse_total cmd f : bytes_ok f ->
  match pn53x_parse cmd f with Ok _ | Err IOErr | Err (ChipsetError 127) => True | _ => False end.
Proof.
  intro Hf. rewrite pn53x_parse_unfold. destruct (len f <? 7) eqn:E7; [exact I|].
  destruct (frame_body_cases f) as [-> | [body Eb]]; [exact I|]. rewrite Eb. cbn [bind].
  apply tail_parse_total, (frame_body_ok f body Hf ltac:(lia) Eb).
Qed.
