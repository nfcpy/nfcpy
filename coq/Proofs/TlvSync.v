(* One attempt of a write operation by a reader that is in step with the tag (data_from_tag = data_in_cache):
   whatever command fails, and however, the tag has executed a prefix of the commands of the undisturbed operation. *)
From Coq Require Import ZArith List Bool Lia.
From NV Require Import Base.Result Base.Bytes Model.TlvMem Proofs.TlvLib.
Import ListNotations.
Open Scope Z_scope.

Lemma exec_sync_cons n (w : write) ws m F k f : 0 <= fst w /\ fst w + len (snd w) <= n ->
  exec_sync n (w :: ws) m F k f =
  match k with
  | Some 1%nat => match f with Lost => (m, F, [], None) | Unanswered => (apply1 m w, F, [w], None) end
  | _ => let '(m', F', ex, r) := exec_sync n ws (apply1 m w) (apply1 F w) (match k with Some (S j) => Some j | _ => None end) f in
         (m', F', w :: ex, r)
  end.
Proof. intro H. cbn [exec_sync]. replace ((0 <=? fst w) && (fst w + len (snd w) <=? n)) with true by lia. destruct k as [[|[|j]]|]; reflexivity. Qed.

(* Lost and Unanswered only differ in the length of the prefix; data_from_tag matters only when all commands succeeded *)
Lemma exec_sync_prefix n f : forall ws m F k m' F' ex r, acceptable n ws -> exec_sync n ws m F k f = (m', F', ex, r) ->
  m' = apply_ws m ex /\ (exists rest, ws = ex ++ rest) /\
  match r with Some k' => ex = ws /\ F' = apply_ws F ws /\ (k = None -> k' = None) | None => k <> None end.
Proof.
  induction ws as [|w ws IH]; intros m F k m' F' ex r Hacc H.
  - injection H as <- <- <- <-. split; [reflexivity|]. split; [exists []; reflexivity | auto].
  - rewrite (exec_sync_cons n w ws m F k f (Hacc w (or_introl eq_refl))) in H.
    assert (Hrec : (let '(m1, F1, e1, r1) := exec_sync n ws (apply1 m w) (apply1 F w) (match k with Some (S j) => Some j | _ => None end) f in
                    (m1, F1, w :: e1, r1)) = (m', F', ex, r) -> k <> Some 1%nat ->
      m' = apply_ws m ex /\ (exists rest, w :: ws = ex ++ rest) /\
      match r with Some k' => ex = w :: ws /\ F' = apply_ws F (w :: ws) /\ (k = None -> k' = None) | None => k <> None end).
    { destruct (exec_sync n ws (apply1 m w) (apply1 F w) _ f) as [[[m1 F1] e1] r1] eqn:E. intros [= <- <- <- <-] Hk.
      destruct (IH _ _ _ _ _ _ _ (fun w' Hw => Hacc w' (or_intror Hw)) E) as (E1 & [rest E2] & E3).
      split; [exact E1|]. split; [exists rest; rewrite E2; reflexivity|]. destruct r1 as [k'|].
      - destruct E3 as (-> & -> & E3). split; [reflexivity|]. split; [reflexivity|]. intros ->. auto.
      - intros ->. auto. }
    destruct k as [[|[|j]]|]; try (apply Hrec; [exact H | discriminate]).
    destruct f; injection H as <- <- <- <-; (split; [reflexivity|]); (split; [|discriminate]);
      [exists (w :: ws) | exists ws]; reflexivity.
Qed.

(* [steps c phs cs]: cs are the caches after the phases; started with data_from_tag = data_in_cache = c on a tag
   memory m, for any readable image vw *)
Lemma run_attempt_chain u ku n f vw : (0 < u)%nat -> forall phs cs c, steps c phs cs -> forall m k,
  length c = (ku * u)%nat -> Forall (fun c' => length c' = (ku * u)%nat) cs -> acceptable n (chain_cmds u c cs) ->
  let '(r, (m', F', c'), ex) := run_attempt u n vw m c c phs k f in
  m' = apply_ws m ex /\ (exists rest, chain_cmds u c cs = ex ++ rest) /\
  ((r = Ok tt /\ ex = chain_cmds u c cs /\ F' = last_cache c cs /\ c' = last_cache c cs) \/
   (r = tag_err /\ k <> None /\ F' = vw m' /\ c' = vw m')).
Proof.
  intros Hu phs cs c Hst. induction Hst as [c | c ph phs c1 cs Hp Hs IH]; intros m k Lc Lcs Hacc.
  - cbn. split; [reflexivity|]. split; [exists []; reflexivity | auto].
  - inversion Lcs as [|? ? L1 Lr]; subst. cbn [run_attempt chain_cmds last_cache] in *. rewrite Hp.
    destruct (exec_sync n (sync_cmds u c c1) m c k f) as [[[m1 F1] ex1] r1] eqn:E.
    destruct (exec_sync_prefix n f _ _ _ _ _ _ _ _ (fun w Hw => Hacc w (in_or_app _ _ _ (or_introl Hw))) E) as (E1 & [rest1 E2] & E3).
    destruct r1 as [k'|].
    + destruct E3 as (-> & -> & E3). rewrite (sync_apply u ku c c1 Hu L1 Lc).
      specialize (IH m1 k' L1 Lr (fun w Hw => Hacc w (in_or_app _ _ _ (or_intror Hw)))).
      destruct (run_attempt u n vw m1 c1 c1 phs k' f) as [[r2 [[m2 F2] c2]] ex2]. destruct IH as (B1 & [rest2 B2] & B3).
      split; [rewrite apply_ws_app, <- E1; exact B1|]. split; [exists rest2; rewrite B2, app_assoc; reflexivity|].
      destruct B3 as [(-> & -> & -> & ->)|(-> & B3 & -> & ->)]; [left; auto | right].
      split; [reflexivity|]. split; [intros ->; auto | auto].
    + split; [exact E1|]. split; [exists (rest1 ++ chain_cmds u c1 cs); rewrite E2, app_assoc; reflexivity|]. right. auto.
Qed.
