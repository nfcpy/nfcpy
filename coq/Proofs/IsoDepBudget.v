(* ISO-DEP with repair b65ae89: the reader with the shared budget [max_extra_blocks] for S(WTX) requests and chained
   response blocks (Model: pcd_absorb_x / runx / exchangex).
   - safety (at most once, soundness, block bound, termination) for EVERY budget, card and script is in
     IsoDepSync.v (exchangex_sync and its corollaries), where the reader without budget is the instance mx = None;
   - the budget is transparent while the counter stays within it: the exchange is the one of the reader without
     budget ([exchange]), so all exactness theorems carry over;
   - the counter never exceeds  S(WTX) requests the card makes + chained response blocks + one per faulty round
     ([need_extra] + faults); a card within 65538 of these is served exactly as by the reader without budget;
   - beyond the budget the result is Type4TagCommandError(PROTOCOL_ERROR), stated explicitly. *)
From Coq Require Import ZArith List Bool Lia ZifyBool.
From NV Require Import Base.Result Base.Bytes Model.IsoDep Proofs.IsoDep Proofs.IsoDepSync.
Import ListNotations.
Open Scope Z_scope.

Lemma absorb_x_nx k mx cmd x a : nx (pcd_absorb_x k mx cmd x a) = nx (pcd_absorb_x k None cmd x a).
Proof. unfold pcd_absorb_x. destruct (wtx_event k (xp x) a); [reflexivity|]. destruct (chain_event _ _); reflexivity. Qed.
Lemma absorb_x_mono k mx cmd x a : nx x <= nx (pcd_absorb_x k mx cmd x a).
Proof. unfold pcd_absorb_x. destruct (wtx_event k (xp x) a); [cbn; lia|]. destruct (chain_event _ _); cbn; lia. Qed.
Lemma absorb_x_same k m cmd x a : nx (pcd_absorb_x k None cmd x a) <= m ->
  pcd_absorb_x k (Some m) cmd x a = pcd_absorb_x k None cmd x a.
Proof.
  unfold pcd_absorb_x. destruct (wtx_event k (xp x) a); cbn [nx over].
  - intro H. replace (nx x + 1 >? m) with false by lia. reflexivity.
  - destruct (chain_event _ _); cbn [nx over]; [|reflexivity]. intro H. replace (nx x + 1 >? m) with false by lia. reflexivity.
Qed.
Lemma absorb_x_over k m cmd x a : m < nx (pcd_absorb_x k None cmd x a) -> nx x <= m ->
  exists pn', xp (pcd_absorb_x k (Some m) cmd x a) = mkp pn' (tagerr E_PROTOCOL).
Proof.
  unfold pcd_absorb_x. destruct (wtx_event k (xp x) a); cbn [nx xp over].
  - intros H1 H2. replace (nx x + 1 >? m) with true by lia. eexists; reflexivity.
  - destruct (chain_event _ _); cbn [nx xp over]; [|lia]. intros H1 H2. replace (nx x + 1 >? m) with true by lia. eexists; reflexivity.
Qed.

Section Runs.
Variable app : Z -> bytes -> bytes.
Variable k : cfg.
Variable kc : ccfg.
Variable cmd : bytes.

Lemma runx_mono mx fuel : forall x c sc tr, nx x <= snd (runx app fuel k mx kc cmd x c sc tr).
Proof.
  induction fuel as [|f IH]; intros x c sc tr; [rewrite runx_0; cbn; lia|].
  destruct (is_done (xp x)) eqn:Hd; [rewrite runx_done by assumption; cbn; lia|].
  rewrite runx_S by assumption. destruct (air app kc c (pcd_emit (xp x)) (hd_ff sc)) as [c' a].
  eapply Z.le_trans; [apply (absorb_x_mono k mx cmd x) | apply IH].
Qed.

(* within the budget: the same run as without budget *)
Lemma runx_budget_same m fuel : forall x c sc tr, snd (runx app fuel k None kc cmd x c sc tr) <= m ->
  runx app fuel k (Some m) kc cmd x c sc tr = runx app fuel k None kc cmd x c sc tr.
Proof.
  induction fuel as [|f IH]; intros x c sc tr H; [reflexivity|].
  destruct (is_done (xp x)) eqn:Hd; [rewrite !runx_done by assumption; reflexivity|].
  rewrite runx_S in H by assumption. rewrite !runx_S by assumption.
  destruct (air app kc c (pcd_emit (xp x)) (hd_ff sc)) as [c' a].
  rewrite absorb_x_same; [apply IH; exact H | eapply Z.le_trans; [apply (runx_mono None f) | exact H]].
Qed.

(* beyond the budget: Type4TagCommandError(PROTOCOL_ERROR) *)
Lemma runx_budget_over m fuel : forall x c sc tr, m < snd (runx app fuel k None kc cmd x c sc tr) -> nx x <= m ->
  o_res (fst (runx app fuel k (Some m) kc cmd x c sc tr)) = Err (TagCommandError E_PROTOCOL).
Proof.
  induction fuel as [|f IH]; intros x c sc tr H Hn; [rewrite runx_0 in H; cbn in H; lia|].
  destruct (is_done (xp x)) eqn:Hd; [rewrite runx_done in H by assumption; cbn in H; lia|].
  rewrite runx_S in H by assumption. rewrite runx_S by assumption.
  destruct (air app kc c (pcd_emit (xp x)) (hd_ff sc)) as [c' a].
  destruct (Z_le_gt_dec (nx (pcd_absorb_x k None cmd x a)) m) as [Hle | Hgt].
  - rewrite absorb_x_same by exact Hle. apply IH; [exact H | exact Hle].
  - destruct (absorb_x_over k m cmd x a ltac:(lia) Hn) as [pn' Hx]. rewrite runx_done by (unfold is_done; rewrite Hx; reflexivity).
    unfold fin. cbn [fst o_res]. rewrite Hx. reflexivity.
Qed.
End Runs.

(* what the card is going to ask of the budget: its S(WTX) requests and the chained blocks of its response *)
Definition need_extra (app : Z -> bytes -> bytes) (kc : ccfg) (cmd : bytes) (c : picc) : Z :=
  wtx_weight c + nchain (cmiu kc) (len (response app c cmd)).

Section ExchangeX.
Variable app : Z -> bytes -> bytes.
Variable k : cfg.
Variable kc : ccfg.
Variable cmd : bytes.
Variable pn : Z.
Variable c : picc.
Hypothesis Hrep : repaired k.
Hypothesis Hpar : params_ok k kc.
Hypothesis Hstep : in_step pn c.
Hypothesis Hcmd : 0 < len cmd.

(* the counter of the reader without budget: at most what the card announces plus one per faulty round *)
Theorem exchangex_count fuel sc :
  snd (exchangex app fuel k None kc cmd pn c sc) <= need_extra app kc cmd c + faults sc.
Proof.
  destruct Hrep as [Hf1 Hf2]. destruct Hpar as (Hm & Hcm & Hfs). unfold exchangex.
  destruct (start_sync app k kc cmd (execs c) Hm pn c Hstep eq_refl Hcmd) as (HS & _ & _ & Hr).
  pose proof (runx_count app k kc cmd (execs c) Hm Hcm Hfs Hf1 Hf2 fuel {| xp := pcd_start k cmd pn; nx := 0 |} c sc [] HS) as H.
  cbn [xp nx] in H. unfold need_extra, response. fold (R app cmd (execs c)). lia.
Qed.

(* within the budget the exchange with budget is the exchange of the reader without budget ... *)
Theorem exchangex_transparent m fuel sc : need_extra app kc cmd c + faults sc <= m ->
  fst (exchangex app fuel k (Some m) kc cmd pn c sc) = exchange app fuel k kc cmd pn c sc.
Proof.
  intro H. rewrite exchange_exchangex. unfold exchangex.
  rewrite runx_budget_same by (pose proof (exchangex_count fuel sc) as Hc; unfold exchangex in Hc; lia). reflexivity.
Qed.

(* ... hence exact without faults, and for every script with at most F faulty rounds, 2F-1 <= retry budgets *)
Theorem exchangex_absorbs m fuel sc F : faults sc <= F -> 2 * F - 1 <= n_nak k -> 2 * F - 1 <= n_ack k ->
  need_extra app kc cmd c + F <= m -> enough_fuel app k cmd c fuel ->
  let o := fst (exchangex app fuel k (Some m) kc cmd pn c sc) in
  o_res o = Ok (response app c cmd) /\ execs (o_card o) = execs c ++ [cmd] /\ in_step (o_pni o) (o_card o).
Proof.
  intros HF Hn1 Hn2 Hm Hf. cbv zeta. rewrite exchangex_transparent by lia.
  apply (exchange_absorbs app k kc cmd pn c Hrep Hpar Hstep Hcmd fuel sc F); [assumption | split; assumption | assumption].
Qed.

Theorem exchangex_nofault_exact m fuel sc : nofault sc -> need_extra app kc cmd c <= m -> enough_fuel app k cmd c fuel ->
  let o := fst (exchangex app fuel k (Some m) kc cmd pn c sc) in
  o_res o = Ok (response app c cmd) /\ execs (o_card o) = execs c ++ [cmd] /\ in_step (o_pni o) (o_card o).
Proof.
  intros Hsc Hm Hf. cbv zeta. pose proof (nofault_faults sc Hsc) as H0.
  rewrite exchangex_transparent by lia.
  apply (exchange_nofault_exact app k kc cmd pn c Hrep Hpar Hstep Hcmd fuel sc); assumption.
Qed.

(* beyond the budget - the reader without budget would have counted more than m - the documented error,
   and still at most one execution (exchangex_at_most_once) *)
Theorem exchangex_over_budget m fuel sc : 0 <= m -> m < snd (exchangex app fuel k None kc cmd pn c sc) ->
  o_res (fst (exchangex app fuel k (Some m) kc cmd pn c sc)) = Err (TagCommandError E_PROTOCOL).
Proof. intros H0 H. unfold exchangex in *. apply runx_budget_over; [exact H | cbn [nx]; lia]. Qed.
End ExchangeX.
