(* C03, Type 2: an NDEF write and format change nothing outside the NDEF message area, and every
   WRITE command addresses a page that holds a byte of that area. *)
From Coq Require Import ZArith List Bool Lia ZifyBool.
From NV Require Import Base.Result Base.Bytes Model.TlvMem Model.T2T Proofs.TlvLib Proofs.TlvPhases Proofs.T2TRead Proofs.T2TPhases Proofs.T2TWrite.
Import ListNotations.
Open Scope Z_scope.

(* whatever the outcome of the capacity test, the executed commands are those of a chain that touches only the area *)
Lemma t2_write_cmds m L d : wfL m L ->
  (forall w, In w (snd (t2_write m d)) -> area_cmd L 4 (len m) w) /\
  len (apply_ws m (snd (t2_write m d))) = len m /\ touch L (view m) (view (apply_ws m (snd (t2_write m d)))).
Proof.
  intro HL. destruct (Z.leb_spec (len d) (l_cap L)) as [Hd|Hd].
  - destruct (t2_write_result m L HL d Hd) as (cs & cf & Hw & Hok & Hv & Hl & Ht & _). rewrite Hw. cbn [snd].
    rewrite Hv. auto.
  - assert (E : t2_write m d = (Err ValueError, [])).
    { unfold t2_write. rewrite (wfL_reader _ _ HL), (wfL_wr _ _ HL). cbn [negb].
      replace (l_cap L <? len d) with true by lia. reflexivity. }
    rewrite E. split; [intros w0 []|]. split; [reflexivity | apply touch_refl].
Qed.
(* a command is a page behind page 3 *)
Lemma area_cmd_page m L w : wfL m L -> area_cmd L 4 (len m) w ->
  len (snd w) = 4 /\ fst w mod 4 = 0 /\ 16 <= fst w /\ fst w + 4 <= len m /\
  exists x, fst w <= x < fst w + 4 /\ ndef_area L x = true.
Proof.
  intros HL (H0 & Hmod & Hb & Hd & x & Hx & Hox & Har). use_wfL HL. change (Z.of_nat 4) with 4 in *.
  repeat split; try lia. exists x. split; [lia | exact Har].
Qed.

Theorem t2_write_frame m d L : wf_layout m -> t2_layout m = Some L ->
  let m' := apply_ws m (snd (t2_write m d)) in
  len m' = len m /\ forall a, 0 <= a < len m -> ndef_area L a = false -> get m' a = get m a.
Proof.
  intros Hwf HL. destruct (wf_layout_wfL m Hwf) as (L' & HL'). pose proof (wfL_layout _ _ _ HL' HL). subst L'.
  destruct (t2_write_cmds m L d HL') as (_ & Hl & Ht). cbv zeta. split; [exact Hl|].
  exact (touch_frame m L _ _ Ht eq_refl Hl).
Qed.

Theorem t2_write_units m d L : wf_layout m -> t2_layout m = Some L ->
  forall w, In w (snd (t2_write m d)) ->
    len (snd w) = 4 /\ fst w mod 4 = 0 /\ 16 <= fst w /\ fst w + 4 <= len m /\
    exists x, fst w <= x < fst w + 4 /\ ndef_area L x = true.
Proof.
  intros Hwf HL w Hw. destruct (wf_layout_wfL m Hwf) as (L' & HL'). pose proof (wfL_layout _ _ _ HL' HL). subst L'.
  exact (area_cmd_page m L w HL' (proj1 (t2_write_cmds m L d HL') w Hw)).
Qed.

Lemma t2_format_cmds m L wipe : wfL m L ->
  exists c, t2_format m wipe = (Ok true, chain_cmds 4 (view m) [c]) /\
    (forall w, In w (chain_cmds 4 (view m) [c]) -> area_cmd L 4 (len m) w) /\
    view (apply_ws m (chain_cmds 4 (view m) [c])) = c /\ len (apply_ws m (chain_cmds 4 (view m) [c])) = len m /\
    touch L (view m) c.
Proof.
  intro HL. destruct (ph_format_spec m L HL wipe) as (c & Hc & Tc).
  destruct (chain_result _ _ _ _ _ (wfL_gen m L HL) _ (wfL_bound m L HL) [ph_format L wipe] [c]) as (Hrun & Hok & Hv & Ht).
  - eapply steps_cons; [exact Hc | apply steps_nil].
  - constructor; [apply Tc | constructor].
  - intros f x Ha. apply adjacent_inv in Ha as [[-> ->] | Ha]; [exact Tc | destruct (adjacent_inv _ _ _ _ Ha)].
  - destruct (view_cmds m L HL _ Hok) as [V1 V2]. exists c. rewrite V1. split; [|auto].
    unfold t2_format. rewrite (wfL_reader _ _ HL), (wfL_wr _ _ HL). cbn [negb]. rewrite Hrun. reflexivity.
Qed.

Theorem t2_format_frame m wipe L : wf_layout m -> t2_layout m = Some L ->
  let m' := apply_ws m (snd (t2_format m wipe)) in
  fst (t2_format m wipe) = Ok true /\ len m' = len m /\
  (forall a, 0 <= a < len m -> ndef_area L a = false -> get m' a = get m a) /\
  (forall w, In w (snd (t2_format m wipe)) -> len (snd w) = 4 /\ fst w mod 4 = 0 /\
     exists x, fst w <= x < fst w + 4 /\ ndef_area L x = true).
Proof.
  intros Hwf HL. destruct (wf_layout_wfL m Hwf) as (L' & HL'). pose proof (wfL_layout _ _ _ HL' HL). subst L'.
  destruct (t2_format_cmds m L wipe HL') as (c & Hf & Hok & Hv & Hl & Ht). cbv zeta. rewrite Hf. cbn [fst snd].
  split; [reflexivity|]. split; [exact Hl|]. split; [exact (touch_frame m L c _ Ht Hv Hl)|].
  intros w Hw. destruct (area_cmd_page m L w HL' (Hok w Hw)) as (H1 & H2 & _ & _ & H5). auto.
Qed.
