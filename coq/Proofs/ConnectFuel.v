(* C18 - the explicit fuel of the model is no restriction: when terminate() is supplied and its
   answer stream ends in true, [fuel] and [inner] larger than the stream never produce Hang. *)
From Coq Require Import ZArith List Bool Arith Lia.
From NV Require Import Model.Connect Proofs.ConnectSense Proofs.Connect.
Import ListNotations.

Lemma st_le_refl s : st_le s s. Proof. split; auto. Qed.
Lemma st_le_trans a b c : st_le a b -> st_le b c -> st_le a c.
Proof. intros [? ?] [? ?]. split; [lia | congruence]. Qed.

(* a loop that polls terminate() once per pass gets through from s with this fuel *)
Definition can_run (has : bool) (fuel : nat) (s : st) : Prop :=
  has = true /\ s_termd s = true /\ length (s_term s) < fuel.
Lemma can_run_le has fuel s s1 : can_run has fuel s -> st_le s1 s -> can_run has fuel s1.
Proof. intros (a & b & c) [d e]. repeat split; auto; try congruence; lia. Qed.

(* an answer false uses up one element of the stream *)
Lemma poll_term_st has fuel s :
  runs (poll_term has) s (fun v _ s' => st_le s' s /\ (v = false -> can_run has (S fuel) s -> can_run has fuel s')).
Proof.
  intros v l s'. unfold poll_term, can_run. destruct has.
  - destruct (s_term s) as [|x r] eqn:E; cbn [hd_tl]; intro H; inversion H; subst; unfold st_le; cbn; rewrite ?E; cbn.
    + split; [auto|]. intros Hv (_ & Ht & _). congruence.
    + split; [split; [lia|reflexivity]|]. intros _ (_ & Ht & Hl). repeat split; auto. lia.
  - intro H; inversion H; subst. split; [apply st_le_refl|]. intros _ [? _]. discriminate.
Qed.

Definition loop_st {A} (hang : A) (has : bool) (fuel : nat) (s : st) : post A :=
  fun h _ s' => st_le s' s /\ (can_run has fuel s -> h <> hang).

Lemma presence_loop_st has : forall fuel s, runs (presence_loop fuel has) s (loop_st HoldHang has fuel s).
Proof.
  induction fuel as [|f IH]; intro s; cbn [presence_loop]; apply runs_start.
  - run. split; [apply st_le_refl|]. intros (_ & _ & Hl). lia.
  - apply (runs_bind _ _ _ _ _ _ (poll_term_st has f s)). intros [|] l1 s1 [L1 D1]; run;
      try (split; [eauto using st_le_trans | discriminate]).
    apply (runs_tail _ _ _ _ _ (IH _)). intros h l s' [L' N]. split; [eauto using st_le_trans|].
    intro C. apply N. eapply can_run_le; eauto.
Qed.

Lemma card_loop_st has : forall fuel s, runs (card_loop fuel has) s (loop_st HoldHang has fuel s).
Proof.
  induction fuel as [|f IH]; intro s; cbn [card_loop]; apply runs_start.
  - run. split; [apply st_le_refl|]. intros (_ & _ & Hl). lia.
  - apply (runs_bind _ _ _ _ _ _ (poll_term_st has f s)). intros [|] l1 s1 [L1 D1]; run;
      try (split; [eauto using st_le_trans | discriminate]);
      (apply (runs_tail _ _ _ _ _ (IH _)); intros h l s' [L' N]; split; [eauto using st_le_trans|]);
      intro C; apply N; eapply can_run_le; eauto.
Qed.

Lemma run_polls_st has : forall n s, runs (run_polls n has) s (fun _ _ s' => st_le s' s).
Proof.
  induction n as [|n IH]; intro s; cbn [run_polls]; apply runs_start.
  - run. apply st_le_refl.
  - apply (runs_bind _ _ _ _ _ _ (poll_term_st has 0 s)). intros [|] l1 s1 [L1 _]; run; [exact L1|].
    apply (runs_tail _ _ _ _ _ (IH _)). intros x l s' L'. eauto using st_le_trans.
Qed.

(* started below s0, m ends below s0 with a result that satisfies ok *)
Definition safe_at {A} (s0 : st) (m : M A) (ok : A -> Prop) : Prop :=
  forall s, st_le s s0 -> runs m s (fun a _ s' => st_le s' s0 /\ ok a).

Lemma safe_run {A} s0 (m : M A) ok s pre (P : post A) :
  safe_at s0 m ok -> st_le s s0 -> (forall a l s', st_le s' s0 -> ok a -> P a (pre ++ l) s') -> runs m s (after pre P).
Proof. intros Hm L H. apply (runs_tail _ _ _ _ _ (Hm s L)). intros a l s' [L' Ha]. auto. Qed.

Section Safe.
Variable s0 : st.
Lemma safe_ret {A} (a : A) (ok : A -> Prop) : ok a -> safe_at s0 (ret a) ok.
Proof. intros H s L a' l s' E. inversion E; subst. auto. Qed.
Lemma safe_bind {A B} (m : M A) (f : A -> M B) ok1 (ok : B -> Prop) :
  safe_at s0 m ok1 -> (forall a, ok1 a -> safe_at s0 (f a) ok) -> safe_at s0 (bind m f) ok.
Proof.
  intros Hm Hf s L. apply runs_start, (runs_bind _ _ _ _ _ _ (Hm s L)). intros a l s1 [L1 H1].
  apply (runs_tail _ _ _ _ _ (Hf a H1 s1 L1)). auto.
Qed.
Lemma safe_emit {B} e (k : M B) ok : safe_at s0 k ok -> safe_at s0 (emit e ;;; k) ok.
Proof. intros H s L. apply runs_start, runs_emit, (runs_tail _ _ _ _ _ (H s L)). auto. Qed.
(* from a specification relative to the state in which m starts; ok may speak of that state *)
Lemma safe_rel {A} (m : M A) (ok : st -> A -> Prop) :
  (forall s, runs m s (fun a _ s' => st_le s' s /\ ok s a)) -> (forall s a, st_le s s0 -> ok s a -> ok s0 a) ->
  safe_at s0 m (ok s0).
Proof. intros H Hok s L a l s' E. destruct (H s a l s' E) as [L' Ha]. eauto using st_le_trans. Qed.
Lemma safe_silent {A} (m : M A) : silent m -> safe_at s0 m (fun _ => True).
Proof. intros H s L a l s' E. destruct (H s a l s' E) as [_ L']. eauto using st_le_trans. Qed.
Lemma safe_loop (m : M hold) has fuel :
  (forall s, runs m s (loop_st HoldHang has fuel s)) -> safe_at s0 m (fun h => can_run has fuel s0 -> h <> HoldHang).
Proof. intro H. apply (safe_rel m (fun s h => can_run has fuel s -> h <> HoldHang) H). eauto using can_run_le. Qed.
End Safe.

Ltac run_st :=
  lazymatch goal with
  | |- safe_at _ (ret _) _ => apply safe_ret
  | |- safe_at _ (emit _ ;;; _) _ => apply safe_emit; run_st
  | |- safe_at _ (bind _ _) _ =>
    try (eapply safe_bind;
         [apply safe_silent; first [apply cb_value_silent | apply ret_silent | apply pop_silent; split; reflexivity] | intros ? _; run_st])
  | |- safe_at _ (if ?c then _ else _) _ => destruct c; run_st
  | |- safe_at _ (match ?x with _ => _ end) _ => destruct x; run_st
  | _ => idtac
  end.

Definition block_st (fuel : nat) (has : bool) (s0 : st) (m : M bres) : Prop :=
  safe_at s0 m (fun r => can_run has fuel s0 -> r <> BHang).

Lemma disc_safe {A} s0 b (m : M (out A)) : (forall s, runs m s (fun r l => disc_log b r l s)) -> safe_at s0 m (fun r => r <> Hang).
Proof. intros H s L r l s' E. destruct (H s r l s' E) as (Hh & L' & _). eauto using st_le_trans. Qed.

Lemma rdwr_connect_st fuel has rr s0 : block_st fuel has s0 (rdwr_connect fuel has rr).
Proof.
  unfold rdwr_connect, block_st. eapply safe_bind; [apply (disc_safe _ Rdwr), do_sense_runs|]. intros x Hx. run_st; try discriminate; try congruence.
  destruct (opt_default _ _); run_st; (eapply safe_bind; [apply safe_loop, presence_loop_st|]); intros h Hh; run_st; try discriminate;
    exact (fun C _ => Hh C eq_refl).
Qed.

Lemma card_connect_st fuel has cr s0 : block_st fuel has s0 (card_connect fuel has cr).
Proof.
  unfold card_connect, block_st. eapply safe_bind; [apply (disc_safe _ Card), do_listen_runs|]. intros x Hx. run_st; try discriminate; try congruence.
  eapply safe_bind; [apply safe_loop, card_loop_st|]; intros h Hh; run_st; try discriminate; exact (fun C _ => Hh C eq_refl).
Qed.

Lemma llcp_role_st has o m s0 : safe_at s0 (llcp_role has o m) (fun x => x <> Some BHang).
Proof.
  unfold llcp_role. run_st; try discriminate.
  eapply safe_bind; [apply (safe_rel _ _ (fun _ _ => True)); [intro; apply (runs_tail _ _ [] _ _ (run_polls_st _ _ _)) | ]; auto|].
  intros stopped _. run_st; discriminate.
Qed.

Lemma llcp_connect_st fuel has o s0 : block_st fuel has s0 (llcp_connect has o).
Proof.
  unfold llcp_connect, block_st. eapply safe_bind; [apply llcp_role_st|]. intros [b|] H1; [apply safe_ret; congruence|].
  eapply safe_bind; [apply llcp_role_st|]. intros [b|] H2; apply safe_ret; [congruence | discriminate].
Qed.

Lemma run_block_st {X} fuel has s0 (f : X -> M bres) o :
  (forall x, block_st fuel has s0 (f x)) -> block_st fuel has s0 (run_block (option_map f o)).
Proof. intro Hf. destruct o as [x|]; [apply Hf | apply safe_ret; discriminate]. Qed.

(* one block of a round of the main loop, k the rest of the round *)
Lemma round_no_hang inner s0 (m : M bres) (k : M (out rv)) :
  can_run true inner s0 -> block_st inner true s0 m -> safe_at s0 k (fun r => r <> Hang) ->
  safe_at s0 (let* r := m in match r with BRet v => ret (Ret v) | BRaise e => ret (handle e) | BHang => ret Hang | BNone => k end)
          (fun r => r <> Hang).
Proof.
  intros C Hm Hk. eapply safe_bind; [exact Hm|]. intros r Hr.
  destruct r as [|v|e|]; [exact Hk | | |]; apply safe_ret; [discriminate | destruct e; discriminate | destruct (Hr C eq_refl)].
Qed.

Lemma main_loop_no_hang inner a : forall fuel s0, can_run true fuel s0 -> can_run true inner s0 ->
  safe_at s0 (main_loop fuel inner true a) (fun r => r <> Hang).
Proof.
  induction fuel as [|f IH]; intros s0 Cf Ci; [destruct Cf as (_ & _ & H); lia|]. cbn [main_loop]. intros s L.
  apply runs_start, (runs_bind _ _ _ _ _ _ (poll_term_st true f s)). intros [|] l1 s1 [L1 D1].
  { run. split; [eauto using st_le_trans | discriminate]. }
  assert (Cf1 : can_run true f s1) by eauto using can_run_le.
  assert (Ci1 : can_run true inner s1) by eauto using can_run_le, st_le_trans.
  apply (safe_run s1 _ (fun r => r <> Hang)); [| apply st_le_refl | eauto using st_le_trans].
  apply (round_no_hang inner); [exact Ci1 | apply run_block_st; intro; apply rdwr_connect_st|].
  apply (round_no_hang inner); [exact Ci1 | apply run_block_st; intro; apply llcp_connect_st|].
  apply (round_no_hang inner); [exact Ci1 | apply run_block_st; intro; apply card_connect_st|].
  exact (IH s1 Cf1 Ci1).
Qed.

Theorem connect_no_hang_proof : forall o fuel inner s r l s',
  o_term o = true -> s_termd s = true -> length (s_term s) < fuel -> length (s_term s) < inner ->
  connect true o fuel inner s = (r, l, s') -> r <> Hang.
Proof.
  intros o fuel inner s r l s' Ho Ht Hf Hi. revert r l s'. change (runs (connect true o fuel inner) s (fun r _ _ => r <> Hang)).
  unfold connect. cbn [negb]. apply runs_start.
  apply (runs_bind _ _ _ _ _ _ (startup_llcp_runs _ s)). intros x l1 s1 [_ ->].
  apply (runs_bind _ _ _ _ _ _ (startup_rdwr_runs _ s)). intros y l2 s2 (Hy & -> & _).
  destruct y as [rr|e|]; [| run; discriminate | congruence].
  apply (runs_bind _ _ _ _ _ _ (startup_card_runs _ s)). intros c l3 s3 [_ ->].
  destruct (no_options _); [run; discriminate|]. rewrite Ho.
  apply (safe_run s _ (fun r => r <> Hang)); [apply main_loop_no_hang; repeat split; auto | apply st_le_refl | auto].
Qed.
