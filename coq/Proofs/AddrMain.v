(* C17 - the states the property statements speak of, reach blk ops sd = get_side (exec blk ops) sd, are wf;
   the outcome of bind(), of a CONNECT by name and of a dispatched datagram as predicates, and the theorems about
   bind() and datagram delivery stated with them. *)
From Coq Require Import ZArith List Bool Lia.
From NV Require Import Base.Result Base.Bytes Base.PyPrims Model.Addr Proofs.Addr Proofs.AddrInv Proofs.AddrStep Proofs.AddrThm.
Import ListNotations.
Open Scope Z_scope.

Definition reach (blk : bool) (ops : list op) (sd : side) : ctl := get_side (exec blk ops) sd.
Lemma reach_wf blk ops sd : wf (reach blk ops sd).
Proof. apply wf2_side, exec_wf2. Qed.

Definition bind_outcome (c : ctl) (i : nat) (s : sock) (arg : bindarg) (c' : ctl) (r : res out) : Prop :=
  match arg with
  | BNone =>
      (exists a, least_free c 32 64 a /\ r = Ok OUnit /\ bound_alone c' i a /\ c_snl c' = c_snl c) \/
      (none_free c 32 64 /\ r = Err (LlcpError EAGAIN) /\ c' = c)
  | BAddr a =>
      if (a <? 0) || (63 <? a) then r = Err (LlcpError EFAULT) /\ c' = c
      else if ((32 <=? a) && (a <=? 63)) || stype_eqb (s_type s) TRaw then
        (bound_set c a = [] /\ 2 <= a /\ r = Ok OUnit /\ bound_alone c' i a /\ c_snl c' = c_snl c) \/
        ((bound_set c a <> [] \/ a < 2) /\ r = Err (LlcpError EADDRINUSE) /\ c' = c)
      else r = Err (LlcpError EACCES) /\ c' = c
  | BName n =>
      if negb (name_valid n) then r = Err (LlcpError EFAULT) /\ c' = c else
      match name_addr c n with
      | Some _ => r = Err (LlcpError EADDRINUSE) /\ c' = c
      | None =>
        match wks n with
        | Some w =>
            (bound_set c w = [] /\ w = 4 /\ r = Ok OUnit /\ bound_alone c' i w /\ name_addr c' n = Some w) \/
            (bound_set c w <> [] /\ r = Err (LlcpError EADDRINUSE) /\ c' = c)
        | None =>
            (exists a, least_free c 16 32 a /\ r = Ok OUnit /\ bound_alone c' i a /\ name_addr c' n = Some a) \/
            (none_free c 16 32 /\ r = Err (LlcpError EADDRNOTAVAIL) /\ c' = c)
        end
      end
  | BBad => r = Err (LlcpError EFAULT) /\ c' = c
  end.

Theorem bind_spec c : wf c -> forall i s arg c' r, get_sock c i = Some s -> s_addr s = None -> do_bind c i arg = (c', r) ->
  bind_outcome c i s arg c' r.
Proof.
  intros W i s arg c' r G A. unfold bind_outcome, do_bind. rewrite G, A. destruct arg as [|a|n|].
  - destruct (bind_none c i s) as [c1 oa] eqn:B. destruct (bind_none_good _ _ _ _ _ W G A B) as (_ & P).
    destruct oa as [a|]; intro H; inversion H; subst.
    + destruct P as (-> & R & F & L). left. exists a. split; [apply range_free; auto; lia|]. split; auto.
      split; [eapply place_bound_alone; eauto; lia|]. unfold place. rewrite sap_set_snl. reflexivity.
    + destruct P as (-> & L). right. split; auto. apply range_none; auto; lia.
  - unfold bind_addr. destruct ((a <? 0) || (63 <? a)) eqn:R; [intro H; inversion H; auto|].
    destruct (((32 <=? a) && (a <=? 63)) || stype_eqb (s_type s) TRaw); [|intro H; inversion H; auto].
    destruct (is_free c a) eqn:F; intro H; inversion H; subst.
    + pose proof (wf_free_ge2 c a W F). left. split; [apply free_abs; auto; lia|]. split; [lia|]. split; auto.
      split; [eapply place_bound_alone; eauto; lia|]. unfold place. rewrite sap_set_snl. reflexivity.
    + right. split; auto. destruct (Z_lt_dec a 2); auto. left. apply notfree_abs; auto. lia.
  - unfold bind_name, name_addr. destruct (negb (name_valid n)) eqn:V; [intro H; inversion H; auto|].
    destruct (lookup (c_snl c) n) eqn:L; [intro H; inversion H; auto|].
    assert (NA : forall a, 2 <= a < 64 -> bound_alone (set_snl (place c i (set_bname s (Some n)) a) (c_snl c ++ [(n, a)])) i a /\
                 lookup (c_snl (set_snl (place c i (set_bname s (Some n)) a) (c_snl c ++ [(n, a)]))) n = Some a).
    { intros a Ra. split.
      - destruct (place_bound_alone c i s (set_bname s (Some n)) a W G Ra) as (B1 & s' & G' & A'). split; [exact B1 | exists s'; auto].
      - cbn [c_snl set_snl]. rewrite (lookup_app_none _ _ _ _ L). rewrite name_eqb_refl. reflexivity. }
    destruct (wks n) as [w|] eqn:K.
    + destruct (is_free c w) eqn:F; intro H; inversion H; subst.
      * assert (w = 4) by (pose proof (wf_free_ge2 c w W F); destruct (wks_cases _ _ K); lia).
        subst w. left. split; [apply free_abs; auto; lia|]. destruct (NA 4) as [N1 N2]; [lia|]. auto.
      * right. split; auto. destruct (wks_cases _ _ K); subst w.
        -- exfalso. assert (n = name_sdp).
           { unfold wks in K. destruct (name_eqb n name_sdp) eqn:E; [apply name_eqb_eq; auto|].
             destruct (name_eqb n name_snep); discriminate. }
           subst n. rewrite (wf_snl_sdp _ W) in L. discriminate.
        -- apply notfree_abs; auto. lia.
    + destruct (first_free c (zrange 16 32)) as [a|] eqn:FF; intro H; inversion H; subst.
      * pose proof (first_free_range_some _ _ _ _ FF) as P. left. exists a. split; [apply range_free; auto; lia|].
        destruct P as (R & _). destruct (NA a) as [N1 N2]; [lia|]. auto.
      * right. split; auto. apply range_none; auto; try lia. apply first_free_range_none; auto.
  - intro H; inversion H; auto.
Qed.

(* which errno a failing bind() of an unbound socket can have: the documented four, except that
   exhaustion of the named range gives EADDRNOTAVAIL (known finding) *)
Theorem bind_errno c : wf c -> forall i s arg c' e, get_sock c i = Some s -> s_addr s = None -> do_bind c i arg = (c', Err e) ->
  (exists x, e = LlcpError x /\ documented x) \/
  (exists n, arg = BName n /\ name_valid n = true /\ name_addr c n = None /\ wks n = None /\ none_free c 16 32 /\
             e = LlcpError EADDRNOTAVAIL).
Proof.
  intros W i s arg c' e G A D. pose proof (bind_spec _ W _ _ _ _ _ G A D) as S. unfold bind_outcome in S. unfold documented. destruct arg as [|a|n|].
  - destruct S as [(a & _ & E & _)|(_ & E & _)]; [discriminate|]. inversion E. left. eexists. split; eauto.
  - destruct ((a <? 0) || (63 <? a)); [destruct S as [E _]; inversion E; left; eexists; split; eauto|].
    destruct (((32 <=? a) && (a <=? 63)) || stype_eqb (s_type s) TRaw).
    + destruct S as [(_ & _ & E & _)|(_ & E & _)]; [discriminate|]. inversion E. left; eexists; split; eauto.
    + destruct S as [E _]; inversion E; left; eexists; split; eauto.
  - destruct (negb (name_valid n)) eqn:V; [destruct S as [E _]; inversion E; left; eexists; split; eauto|].
    destruct (name_addr c n) eqn:L; [destruct S as [E _]; inversion E; left; eexists; split; eauto|].
    destruct (wks n) eqn:K.
    + destruct S as [(_ & _ & E & _)|(_ & E & _)]; [discriminate|]. inversion E. left; eexists; split; eauto.
    + destruct S as [(a & _ & E & _)|(NF & E & _)]; [discriminate|]. inversion E. right. exists n.
      repeat split; auto. destruct (name_valid n); auto; discriminate.
  - destruct S as [E _]; inversion E; left; eexists; split; eauto.
Qed.

Theorem bind_twice c i s a arg : get_sock c i = Some s -> s_addr s = Some a -> do_bind c i arg = (c, Err (LlcpError EINVAL)).
Proof. intros G A. unfold do_bind. rewrite G, A. reflexivity. Qed.

(* the undocumented errno is reachable: 16 named binds, then a 17th name *)
Definition nm (k : Z) : name := urn_nfc ++ sn_colon ++ [97 + k].
Definition sixteen_named : list op :=
  flat_map (fun k => [XLoc SA (LSocket TLdl); XLoc SA (LBind (Z.to_nat k) (BName (nm k)))]) (zrange 0 16)
  ++ [XLoc SA (LSocket TLdl)].
Theorem bind_errno_undocumented :
  exists blk ops sd i s n, get_sock (reach blk ops sd) i = Some s /\ s_addr s = None /\ name_valid n = true /\
    snd (do_bind (reach blk ops sd) i (BName n)) = Err (LlcpError EADDRNOTAVAIL) /\ ~ documented EADDRNOTAVAIL.
Proof.
  exists true, sixteen_named, SA, 16%nat, (new_sock TLdl), (nm 16).
  split; [vm_compute; reflexivity|]. split; [reflexivity|]. split; [vm_compute; reflexivity|].
  split; [vm_compute; reflexivity|]. unfold documented, EADDRNOTAVAIL, EADDRINUSE, EACCES, EFAULT, EAGAIN. lia.
Qed.

Definition connect_by_name_outcome (c : ctl) (ssap : Z) (n : name) (c' : ctl) (r : res (list event)) : Prop :=
  match name_addr c n with
  | None => r = Ok [] /\ c_socks c' = c_socks c /\ c_sap c' = c_sap c /\ sd_dmpdu c' = sd_dmpdu c ++ [PDM ssap 1 2]
  | Some a =>
      a = 1 \/
      (2 <= a /\
       ((exists i s, In i (bound_set c a) /\ get_sock c i = Some s /\ s_state s = StListen /\ s_bname s = Some n /\
                     sock_enqueue c i s (PConnect a ssap None) = (c', r) /\
                     (forall j, j <> i -> get_sock c' j = get_sock c j) /\
                     (forall evs j q, r = Ok evs -> In (EvEnq j q) evs -> j = i)) \/
        ((forall i s, In i (bound_set c a) -> get_sock c i = Some s -> s_state s <> StListen) /\
         r = Ok [] /\ c_socks c' = c_socks c /\
         exists l sl, sap_get c a = Sap l sl /\ sap_get c' a = Sap l (sl ++ [PDM ssap a 2]))))
  end.

Definition datagram_outcome (c : ctl) (d sa : Z) (data : list Z) (c' : ctl) (r : res (list event)) : Prop :=
  r = Hang \/
  exists evs, r = Ok evs /\
   (((forall j q, ~ In (EvEnq j q) evs) /\
     forall k sk, get_sock c k = Some sk -> exists sk', get_sock c' k = Some sk' /\ (s_recvq sk' = s_recvq sk \/ s_recvq sk' = []))
    \/
    (exists j sj, evs = [EvEnq j (PUI d sa data)] /\ In j (bound_set c d) /\ get_sock c j = Some sj /\ s_addr sj = Some d /\
       s_type sj <> TDlc /\ (s_peer sj = None \/ s_peer sj = Some sa) /\
       get_sock c' j = Some (set_recvq sj (s_recvq sj ++ [PUI d sa data])) /\
       forall k, k <> j -> get_sock c' k = get_sock c k)).
(* receiving side: a UI PDU is appended, unchanged, to the queue of one socket bound at its DSAP
   (whose peer filter admits the source), or to no socket at all *)
Theorem datagram_dispatch c : wf c -> forall d sa data c' r, dispatch c (PUI d sa data) = (c', r) -> datagram_outcome c d sa data c' r.
Proof.
  intros W d sa data c' r H. change (route c (PUI d sa data) = (c', r)) in H.
  assert (NOP : datagram_outcome c d sa data c (Ok [])).
  { right. exists []. split; auto. left. split; [intros j q []|]. intros k sk G. eauto. }
  destruct (route_cases _ _ _ _ H) as [[-> ->]|[[_ S]|[(j & sj & Lb & G & S & PF)|(_ & _ & _ & _ & U & _)]]];
    [exact NOP | inversion S; subst; exact NOP | | discriminate].
  clear H. rename S into H. cbn in PF, Lb.
  destruct (wf_listed_addr _ W d j Lb) as (sj0 & G0 & A0). rewrite G in G0. inversion G0; subst sj0.
  assert (PEER : s_peer sj = None \/ s_peer sj = Some sa).
  { destruct (s_peer sj) as [x|]; auto. right. f_equal. lia. }
  assert (FR : forall k, k <> j -> get_sock c' k = get_sock c k).
  { intros k N. replace c' with (fst (sock_enqueue c j sj (PUI d sa data))) by (rewrite H; auto). apply (sock_enqueue_good c j sj _ W G); auto. }
  assert (OTHERS : forall sj', get_sock c' j = Some sj' -> (s_recvq sj' = s_recvq sj \/ s_recvq sj' = []) ->
            forall k sk, get_sock c k = Some sk -> exists sk', get_sock c' k = Some sk' /\ (s_recvq sk' = s_recvq sk \/ s_recvq sk' = [])).
  { intros sj' G' Q k sk Gk. destruct (Nat.eq_dec k j); [subst k; rewrite G in Gk; inversion Gk; subst; eauto|].
    rewrite FR by auto. eauto. }
  (* a raw access point or a datagram socket takes the PDU if its queue has room *)
  assert (ACC : s_type sj <> TDlc -> datagram_outcome c d sa data (put_sock c j (set_recvq sj (s_recvq sj ++ [PUI d sa data])))
                                       (Ok [EvEnq j (PUI d sa data)])).
  { intro T. right. eexists. split; [reflexivity|]. right. exists j, sj. repeat split; auto;
      [eapply get_put_same; eauto | intros; apply get_put_other; auto]. }
  destruct (s_type sj) eqn:Ty; [| |unfold sock_enqueue in H; rewrite Ty in H].
  1, 2: destruct (sock_enqueue_dgram c j sj (PUI d sa data)) as [E|[E _]]; [congruence | |]; rewrite E in H; inversion H; subst;
    [exact NOP | apply ACC; congruence].
  - cbn [negb is_dlc_pdu] in H.
    destruct (negb (c_enq_blocks c) && sstate_eqb (s_state sj) StEstablished).
    { inversion H; subst. right. eexists. split; [reflexivity|]. left. split; [intros ? ? []|].
      eapply OTHERS; [eapply get_put_same; eauto | cbn; auto]. }
    destruct (sock_close sj) as [s'|] eqn:SC; [|inversion H; left; auto].
    right. destruct (sock_close_some _ _ SC) as (_ & _ & Q').
    destruct (s_pend sj); inversion H; subst; eexists; (split; [reflexivity|]); left;
      (split; [cbn; intuition discriminate|]).
    (* the socket is put back closed, its receive queue as sock_close left it (Q') *)
    + (* PdNone *) eapply OTHERS; [eapply get_put_same; eauto | cbn; auto].
    + (* PdConnect *) eapply OTHERS; [eapply get_put_same; eauto | cbn; auto].
    + (* PdClose: the pending close() completes and gives the address back *)
      eapply OTHERS; [destruct (s_addr sj); [rewrite sap_remove_get|]; eapply get_put_same; eauto | cbn; auto].
Qed.

(* whatever waits in the receive queue of a datagram socket is a UI PDU addressed to the address the socket is bound
   to; whatever waits in its send queue is a UI PDU carrying that address as source *)
Theorem datagram_queues c : wf c -> forall i s p, get_sock c i = Some s -> s_type s = TLdl ->
  (In p (s_recvq s) -> exists d sa data, p = PUI d sa data /\ s_addr s = Some d) /\
  (In p (s_sendq s) -> exists d data a, p = PUI d a data /\ s_addr s = Some a).
Proof. intros W i s p G T. split; [apply (wf_ldl_rq _ W i) | apply (wf_ldl_sq _ W i)]; auto. Qed.
