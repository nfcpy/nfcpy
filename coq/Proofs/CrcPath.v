From Coq Require Import ZArith List Bool Lia ZifyBool.
From NV Require Import Base.Result Base.Bytes Base.PyPrims Model.Crc Model.CrcPath Proofs.Crc Proofs.CrcCheck.
Import ListNotations.
Open Scope Z_scope.
Ltac Zify.zify_post_hook ::= Z.to_euclidean_division_equations.

Lemma pyslice_drop2 (d : list Z) x y : pyslice (d ++ [x; y]) 0 (-2) = d.
Proof.
  unfold pyslice, norm_idx. pose proof (len_nonneg d) as Hn.
  rewrite len_app. change (len [x; y]) with 2.
  change (0 <? 0) with false. change (-2 <? 0) with true. cbv iota.
  rewrite Z.min_l by lia. rewrite Z.max_r by lia.
  replace (-2 + (len d + 2) - 0) with (len d) by lia. cbn [Z.to_nat skipn].
  unfold len. rewrite Nat2Z.id. rewrite firstn_app, Nat.sub_diag, firstn_all. cbn [firstn]. apply app_nil_r.
Qed.

Lemma rxmode_off_bit7 r : Z.testbit (rxmode_off r) 7 = false.
Proof. unfold rxmode_off. rewrite Z.land_spec. change (Z.testbit 127 7) with false. apply andb_false_r. Qed.

(* chip (RxCRCEn set) and driver (frames longer than an ACK/NAK) apply the same check; on either
   path it is applied exactly once *)
Definition checked (rf : list Z) : res (list Z) :=
  do ok <- check_crc_a rf; if ok then Ok (pyslice rf 0 (-2)) else Err TransmissionError.

Lemma type_a_rsp_checked sel_res rxmode0 rf : 2 < len rf -> Z.testbit rxmode0 7 = true ->
  type_a_rsp sel_res rxmode0 rf = checked rf.
Proof.
  intros Hl Hb. unfold type_a_rsp, chip_crc_off, sw_crc_path, chip_rx.
  destruct (Z.land (pyidx sel_res 0) 96 =? 0).
  - rewrite rxmode_off_bit7. cbn [bind]. unfold tt2_rsp. replace (len rf >? 2) with true by lia. reflexivity.
  - rewrite Hb. fold (checked rf). destruct (checked rf); reflexivity.
Qed.

Lemma checked_iff d x y out : bytes_ok d ->
  checked (d ++ [x; y]) = Ok out <-> [x; y] = iso_crc_a d /\ out = d.
Proof.
  intro Hd. unfold checked. rewrite pyslice_drop2. pose proof (check_crc_a_iff d x y Hd) as C.
  destruct (check_crc_a (d ++ [x; y])) as [[|]| | |]; cbn [bind]; (split; [intro H | intros [E ->]]);
    try discriminate; try (apply C in E; discriminate).
  - injection H as <-. split; [apply C|]; reflexivity.
  - reflexivity.
Qed.

Lemma len_app2 (d : list Z) x y : 1 <= len d -> 2 < len (d ++ [x; y]).
Proof. intro H. rewrite len_app. change (len [x; y]) with 2. lia. Qed.

(* whoever it is, somebody has verified CRC_A before data is returned, and exactly the CRC is removed *)
Theorem type_a_rsp_sound sel_res rxmode0 d x y out :
  bytes_ok d -> 1 <= len d -> Z.testbit rxmode0 7 = true ->
  type_a_rsp sel_res rxmode0 (d ++ [x; y]) = Ok out ->
  [x; y] = iso_crc_a d /\ out = d.
Proof.
  intros Hd Hl Hb. rewrite (type_a_rsp_checked _ _ _ (len_app2 d x y Hl) Hb). apply checked_iff, Hd.
Qed.

Theorem type_a_rsp_complete sel_res rxmode0 d :
  bytes_ok d -> 1 <= len d -> Z.testbit rxmode0 7 = true ->
  type_a_rsp sel_res rxmode0 (d ++ iso_crc_a d) = Ok d.
Proof.
  intros Hd Hl Hb. unfold iso_crc_a. rewrite (type_a_rsp_checked _ _ _ (len_app2 d _ _ Hl) Hb).
  apply checked_iff; [exact Hd | split; reflexivity].
Qed.

(* a Mifare ACK/NAK (one or two octets from the chip) is passed through on the software path *)
Theorem tt2_rsp_short data : len data <= 2 -> tt2_rsp data = Ok data.
Proof. intro H. unfold tt2_rsp. replace (len data >? 2) with false by lia. reflexivity. Qed.
