(* C19: the parameters two activated stacks hold agree - for all option values. *)
From Coq Require Import ZArith List Bool Lia ZifyBool.
From NV Require Import Base.Result Base.Bytes Model.Dep Model.Negotiate Proofs.DepCodec.
Import ListNotations.
Open Scope Z_scope.
Ltac Zify.zify_post_hook ::= Z.to_euclidean_division_equations.

(* closed form of what the peer takes over from the general bytes an LLC announces *)
Definition announced_miu (o : lopt) : Z := if lo_miu o =? 128 then 128 else Z.max (lo_miu o - 128) 0 mod 2048 + 128.
Definition announced_lto (o : lopt) : Z := if l_send_lto o =? 100 then 100 else (l_send_lto o / 10) mod 256 * 10.
Definition announced_wks (o : lopt) : Z := wks_of (lo_saps o) mod 65536.
Definition announced_optv (o : lopt) : Z := (if lo_lsc o =? 0 then 0 else lo_lsc o mod 4) + (if lo_sec o then 4 else 0).
Definition announced_lsc (o : lopt) : Z := if (lo_lsc o =? 0) && negb (lo_sec o) then 0 else announced_optv o mod 4.
Definition announced_dpc (o : lopt) : Z := if (lo_lsc o =? 0) && negb (lo_sec o) then 0 else (announced_optv o mod 8 / 4) mod 2.

(* the two octets of a big-endian 16 bit value put together again *)
Lemma be16 v : v / 256 * 256 + v mod 256 = v.
Proof. rewrite Z.mul_comm. symmetry. apply Z.div_mod. discriminate. Qed.
Lemma u16_ok v : 0 <= v < 65536 -> u16 v = Ok [v / 256; v mod 256].
Proof. intro. unfold u16. replace ((0 <=? v) && (v <? 65536)) with true by lia. reflexivity. Qed.

Definition tlv_list (mx : option (Z * Z)) (wh wl : Z) (lt ov : option Z) : list Z :=
  [1; 1; 19] ++ (match mx with Some (h, l) => [2; 2; h; l] | None => [] end) ++ [3; 2; wh; wl] ++
  (match lt with Some x => [4; 1; x] | None => [] end) ++ (match ov with Some x => [7; 1; x] | None => [] end).

Lemma takeover_tlvs sec mx wh wl lt ov :
  llc_takeover sec ([70; 102; 109] ++ tlv_list mx wh wl lt ov) =
  Ok (mklcfg true
        (match mx with Some (h, l) => Z.land (h * 256 + l) 2047 + 128 | None => 128 end)
        (match lt with Some x => x * 10 | None => 100 end)
        (wh * 256 + wl)
        (match ov with Some x => Z.land (Z.land x 7) 3 | None => 0 end)
        (if sec then match ov with Some x => (Z.land x 7 / 4) mod 2 | None => 0 end else 0)
        19).
Proof. destruct mx as [[h l]|], lt, ov, sec; reflexivity. Qed.

(* the general bytes an LLC announces: 'Ffm', then the TLVs of its closed-form values *)
Definition announced_tlvs (o : lopt) : list Z :=
  let m := Z.max (lo_miu o - 128) 0 in
  tlv_list (if lo_miu o =? 128 then None else Some (m / 256, m mod 256))
           (announced_wks o / 256) (announced_wks o mod 256)
           (if l_send_lto o =? 100 then None else Some ((l_send_lto o / 10) mod 256))
           (if (lo_lsc o =? 0) && negb (lo_sec o) then None else Some (announced_optv o)).

Lemma general_bytes_form o gb : general_bytes o = Ok gb -> gb = [70; 102; 109] ++ announced_tlvs o.
Proof.
  unfold general_bytes, pax_tlvs, announced_tlvs, announced_wks, announced_optv. rewrite land65535, land255, land3.
  rewrite (u16_ok _ (Z.mod_pos_bound (wks_of (lo_saps o)) 65536 eq_refl)).
  destruct (lo_miu o =? 128); cbn [bind].
  2: unfold u16; destruct ((0 <=? Z.max (lo_miu o - 128) 0) && (Z.max (lo_miu o - 128) 0 <? 65536)); [cbn [bind]|discriminate].
  all: intro H; injection H as <-; unfold tlv_list;
    destruct (l_send_lto o =? 100), ((lo_lsc o =? 0) && negb (lo_sec o)); reflexivity.
Qed.

Theorem takeover_general o sec gb : general_bytes o = Ok gb ->
  llc_takeover sec gb = Ok (mklcfg true (announced_miu o) (announced_lto o) (announced_wks o) (announced_lsc o)
                                   (if sec then announced_dpc o else 0) 19).
Proof.
  intro H. rewrite (general_bytes_form o gb H). unfold announced_tlvs. rewrite takeover_tlvs.
  unfold announced_miu, announced_lto, announced_lsc, announced_dpc. do 2 f_equal.
  - destruct (lo_miu o =? 128); [reflexivity|]. rewrite land2047, be16. reflexivity.
  - destruct (l_send_lto o =? 100); reflexivity.
  - apply be16.
  - destruct ((lo_lsc o =? 0) && negb (lo_sec o)); [reflexivity|].
    rewrite <- Z.land_assoc. change (Z.land 7 3) with 3. apply land3.
  - destruct sec, ((lo_lsc o =? 0) && negb (lo_sec o)); try reflexivity. rewrite land7. reflexivity.
Qed.

Theorem miu_agree_thm b sec gb c : general_bytes b = Ok gb -> llc_takeover sec gb = Ok c ->
  c_ok c = true /\
  (128 <= lo_miu b <= 2175 -> c_send_miu c = lo_miu b) /\
  (lo_miu b < 128 -> c_send_miu c = 128) /\
  (2175 < lo_miu b -> 128 <= c_send_miu c <= 2175 /\ c_send_miu c < lo_miu b).
Proof.
  intros Hg Ht. rewrite (takeover_general b sec gb Hg) in Ht. injection Ht as <-. cbn [c_ok c_send_miu].
  unfold announced_miu. split; [reflexivity|].
  destruct (lo_miu b =? 128) eqn:E; lia.
Qed.

(* the link timeout A holds is the one B holds (and announced), for every configured value *)
Theorem lto_agree_thm b sec gb c : general_bytes b = Ok gb -> llc_takeover sec gb = Ok c ->
  0 <= lo_lto b -> c_recv_lto c = l_send_lto b.
Proof.
  intros Hg Ht Hl. rewrite (takeover_general b sec gb Hg) in Ht. injection Ht as <-. cbn [c_recv_lto].
  unfold announced_lto, l_send_lto.
  assert (Hq : 0 <= lo_lto b / 10) by (apply Z.div_pos; lia).
  set (m := Z.min (lo_lto b / 10) 255). assert (Hm : 0 <= m <= 255) by (unfold m; lia). clearbody m.
  destruct (10 * m =? 100) eqn:E; [lia|].
  replace (10 * m / 10) with m by (rewrite Z.mul_comm, Z.div_mul; lia). rewrite Z.mod_small by lia. lia.
Qed.

Lemma pow2_nonneg s : 0 <= 2 ^ s. Proof. apply Z.pow_nonneg. lia. Qed.
Lemma sum_nonneg l : (forall x, In x l -> 0 <= x) -> 0 <= sum l.
Proof. induction l as [|x l IH]; intro H; [cbn; lia|]. rewrite sum_cons. pose proof (H x (or_introl eq_refl)).
  assert (0 <= sum l) by (apply IH; intros; apply H; right; assumption). lia. Qed.
Lemma wks_pos saps : 1 <= wks_of saps.
Proof. unfold wks_of. assert (0 <= sum (map (fun s => 2 ^ s) (filter (fun s => s <? 15) saps))); [|lia].
  apply sum_nonneg. intros x Hx. apply in_map_iff in Hx. destruct Hx as (s & <- & _). apply pow2_nonneg. Qed.

Theorem wks_agree_thm b sec gb c : general_bytes b = Ok gb -> llc_takeover sec gb = Ok c ->
  wks_of (lo_saps b) < 65536 -> c_send_wks c = wks_of (lo_saps b).
Proof.
  intros Hg Ht Hl. rewrite (takeover_general b sec gb Hg) in Ht. injection Ht as <-. cbn [c_send_wks].
  unfold announced_wks. pose proof (wks_pos (lo_saps b)). lia.
Qed.

Theorem lsc_agree_thm b sec gb c : general_bytes b = Ok gb -> llc_takeover sec gb = Ok c ->
  0 <= lo_lsc b <= 3 -> c_send_lsc c = lo_lsc b.
Proof.
  intros Hg Ht Hl. rewrite (takeover_general b sec gb Hg) in Ht. injection Ht as <-. cbn [c_send_lsc].
  unfold announced_lsc, announced_optv. destruct (lo_lsc b =? 0) eqn:E, (lo_sec b); cbn [andb negb]; lia.
Qed.

(* an LLC with valid options always produces general bytes *)
Lemma general_bytes_ok b : lo_miu b <= 65663 -> exists gb, general_bytes b = Ok gb.
Proof.
  intro H. unfold general_bytes, pax_tlvs. rewrite land65535.
  rewrite (u16_ok (wks_of (lo_saps b) mod 65536)) by lia.
  destruct (lo_miu b =? 128); cbn [bind]; [eexists; reflexivity|].
  rewrite u16_ok by lia. cbn [bind]. eexists; reflexivity.
Qed.

Lemma clamp_range lo hi x : lo <= hi -> lo <= clamp lo hi x <= hi.
Proof. unfold clamp. lia. Qed.

(* the activation PDUs pass the frame codec *)
Lemma atr_req_frame b id3 did pp gb : length id3 = 10%nat -> len gb <= 48 ->
  ((pp / 2) mod 2 =? 1) = nonempty gb ->
  exists f, encode_frame b (enc_pdu (PAtrReq id3 did 0 0 pp gb)) = Ok f /\
            decode_frame_tgt b f = Ok (PAtrReq id3 did 0 0 pp gb).
Proof.
  intros Hl Hg Hpp. apply (frame_ok b (PAtrReq id3 did 0 0 pp gb) (conj Hl Hpp)).
  unfold len in *. cbn [enc_pdu]. rewrite !app_length, Hl. cbn [length]. lia.
Qed.
Lemma atr_res_frame b id3 did to pp gb : length id3 = 10%nat -> len gb <= 47 ->
  ((pp / 2) mod 2 =? 1) = nonempty gb ->
  exists f, encode_frame b (enc_pdu (PAtrRes id3 did 0 0 to pp gb)) = Ok f /\
            decode_frame_ini b f = Ok (PAtrRes id3 did 0 0 to pp gb).
Proof.
  intros Hl Hg Hpp. apply (frame_ok b (PAtrRes id3 did 0 0 to pp gb) (conj Hl Hpp)).
  unfold len in *. cbn [enc_pdu]. rewrite !app_length, Hl. cbn [length]. lia.
Qed.

(* the PP octet lr * 16 + gb * 2 + nad: its LR field and its general-bytes flag *)
Lemma pp_fields lr g n : 0 <= lr <= 3 ->
  (((lr * 16 + b2z g * 2 + b2z n) / 2) mod 2 =? 1) = g /\ ((lr * 16 + b2z g * 2 + b2z n) / 16) mod 4 = lr.
Proof. intro H. destruct g, n; cbn [b2z]; lia. Qed.

(* the waiting time exponent passes the TO octet, and the driver follows the DSI of the PSL_REQ it was sent *)
Lemma atr_wt_clamped w : 0 <= w <= 14 -> (if atr_wt w <? 15 then atr_wt w else 14) = w.
Proof. intro H. unfold atr_wt. rewrite Z.mod_small by lia. replace (w <? 15) with true by lia. reflexivity. Qed.
Lemma drv_brty_selected brty0 did brs lri : 0 <= brty0 < brs -> brs <= 2 ->
  drv_brty brty0 did (Some (PPslReq did (brs_byte brs) lri)) = brs.
Proof.
  intros H0 H2. unfold drv_brty, psl_dsi, psl_dri, brs_byte. rewrite Z.eqb_refl. cbn [andb].
  assert (brs = 1 \/ brs = 2) as [-> | ->] by lia; reflexivity.
Qed.

(* the DID octet of ATR_REQ (0 for "none") as the target reads it *)
Lemma tdid_did0 io : (if 0 <? i_did0 io then Some (i_did0 io) else None) = tdid_of (io_did io).
Proof. unfold i_did0, tdid_of. destruct (io_did io); reflexivity. Qed.

(* closed form of the two activations against each other *)
Theorem negotiate_dep_closed brty0 io tto id3 id3t : 0 <= brty0 <= 2 -> length id3 = 10%nat -> length id3t = 10%nat ->
  exists frames,
  negotiate_dep brty0 io tto id3 id3t =
  Ok (mkdo frames
        (mkdi (lr_of (t_lrt tto) - 3 - b2z (is_some (io_did io)) - b2z (is_some (io_nad io))) (t_rwt tto)
              (io_did io) (io_nad io) (if brty0 <? i_brs io then i_brs io else brty0) (t_gbt tto))
        (mkdt (lr_of (i_lri io) - 3 - b2z (is_some (tdid_of (io_did io)))) (t_rwt tto) (tdid_of (io_did io))
              (if brty0 <? i_brs io then i_brs io else brty0) (i_gbi io))
        (opt_eqb (io_did io) (tdid_of (io_did io)))).
Proof.
  intros Hb0 H3 H3t. unfold negotiate_dep.
  destruct (pp_fields (i_lri io) (nonempty (i_gbi io)) (truthy (io_nad io)) (clamp_range 0 3 (io_lri io) ltac:(easy))) as [Hppi Hlri].
  destruct (pp_fields (t_lrt tto) (nonempty (t_gbt tto)) false (clamp_range 0 3 (to_lrt tto) ltac:(easy))) as [Hppt Hlrt].
  cbn [b2z] in Hppt, Hlrt. rewrite Z.add_0_r in Hppt, Hlrt. fold (i_ppi io) in Hppi, Hlri. fold (t_pp tto) in Hppt, Hlrt.
  (* ATR_REQ, ATR_RES *)
  unfold atr_req_of, atr_res_of.
  destruct (atr_req_frame (brty0 =? 0) id3 (i_did0 io) (i_ppi io) (i_gbi io) H3 (len_take_le 48 _ ltac:(easy)) Hppi) as (f1 & E1 & D1).
  destruct (atr_res_frame (brty0 =? 0) id3t 0 (t_rwt tto) (t_pp tto) (t_gbt tto) H3t (len_take_le 47 _ ltac:(easy)) Hppt) as (f2 & E2 & D2).
  rewrite E1. cbn [bind]. rewrite D1. cbn [bind]. rewrite E2. cbn [bind]. rewrite D2. cbn [bind pdu_name].
  change (0 =? 0) with true. cbn [negb].
  unfold ini_eval, tgt_eval, atr_lr. rewrite Hlrt, Hlri, (atr_wt_clamped (t_rwt tto) (clamp_range 0 14 (to_rwt tto) ltac:(easy))).
  destruct (brty0 <? i_brs io) eqn:Ep.
  - (* parameter selection *)
    unfold psl_req_of.
    destruct (frame_ok (brty0 =? 0) (PPslReq (i_did0 io) (brs_byte (i_brs io)) (i_lri io)) I ltac:(easy)) as (f3 & E3 & D3).
    destruct (frame_ok (brty0 =? 0) (PPslRes (i_did0 io)) I ltac:(easy)) as (f4 & E4 & D4).
    cbn [is_req] in D3, D4.
    rewrite E3. cbn [bind]. rewrite D3. cbn [bind]. rewrite E4. cbn [bind]. rewrite D4. cbn [bind pdu_name].
    change (1 =? 1) with true. cbn [negb fst snd bind].
    rewrite (drv_brty_selected brty0 _ (i_brs io)); [| exact (conj (proj1 Hb0) (proj1 (Z.ltb_lt _ _) Ep)) | apply (clamp_range 0 2); easy].
    rewrite tdid_did0. eexists. reflexivity.
  - cbn [bind fst snd drv_brty]. rewrite tdid_did0. eexists. reflexivity.
Qed.

(* ---- corollaries: what the property demands ---- *)
Theorem dep_miu_agree_thm brty0 io tto id3 id3t o : 0 <= brty0 <= 2 -> length id3 = 10%nat -> length id3t = 10%nat ->
  negotiate_dep brty0 io tto id3 id3t = Ok o ->
  di_miu (do_i o) + 3 + b2z (is_some (di_did (do_i o))) + b2z (is_some (di_nad (do_i o))) = lr_of (t_lrt tto) /\
  dt_miu (do_t o) + 3 + b2z (is_some (dt_did (do_t o))) = lr_of (i_lri io) /\
  1 <= di_miu (do_i o) /\ 1 <= dt_miu (do_t o).
Proof.
  intros Hb0 H3 H3t H. destruct (negotiate_dep_closed brty0 io tto id3 id3t Hb0 H3 H3t) as (fr & E).
  rewrite E in H. injection H as <-. cbn.
  pose proof (lr_of_range (t_lrt tto)). pose proof (lr_of_range (i_lri io)).
  destruct (tdid_of (io_did io)), (io_did io), (io_nad io); cbn [is_some b2z]; lia.
Qed.

Theorem brty_agree_thm brty0 io tto id3 id3t o : 0 <= brty0 <= 2 -> length id3 = 10%nat -> length id3t = 10%nat ->
  negotiate_dep brty0 io tto id3 id3t = Ok o ->
  di_brty (do_i o) = dt_brty (do_t o) /\ di_brty (do_i o) = Z.max brty0 (i_brs io).
Proof.
  intros Hb0 H3 H3t H. destruct (negotiate_dep_closed brty0 io tto id3 id3t Hb0 H3 H3t) as (fr & E).
  rewrite E in H. injection H as <-. cbn. split; [reflexivity|]. destruct (brty0 <? i_brs io) eqn:Ep; lia.
Qed.

Theorem rwt_agree_thm brty0 io tto id3 id3t o : 0 <= brty0 <= 2 -> length id3 = 10%nat -> length id3t = 10%nat ->
  negotiate_dep brty0 io tto id3 id3t = Ok o ->
  di_wt (do_i o) = dt_wt (do_t o) /\ di_wt (do_i o) = clamp 0 14 (to_rwt tto).
Proof.
  intros Hb0 H3 H3t H. destruct (negotiate_dep_closed brty0 io tto id3 id3t Hb0 H3 H3t) as (fr & E).
  rewrite E in H. injection H as <-. cbn. split; reflexivity.
Qed.

(* the general bytes arrive unchanged (up to the 48 / 47 byte truncation), and the DID the target
   adopts is the initiator's, so the configurations are those C04 is proved for *)
Theorem gb_did_agree_thm brty0 io tto id3 id3t o : 0 <= brty0 <= 2 -> length id3 = 10%nat -> length id3t = 10%nat ->
  negotiate_dep brty0 io tto id3 id3t = Ok o ->
  di_gb (do_i o) = take 47 (to_gbt tto) /\ dt_gb (do_t o) = take 48 (io_gbi io) /\
  dt_did (do_t o) = tdid_of (io_did io) /\ di_did (do_i o) = io_did io.
Proof.
  intros Hb0 H3 H3t H. destruct (negotiate_dep_closed brty0 io tto id3 id3t Hb0 H3 H3t) as (fr & E).
  rewrite E in H. injection H as <-. cbn. repeat split.
Qed.

(* the activation always succeeds (valid or not, all options are clamped) *)
Theorem negotiate_dep_total brty0 io tto id3 id3t : 0 <= brty0 <= 2 -> length id3 = 10%nat -> length id3t = 10%nat ->
  exists o, negotiate_dep brty0 io tto id3 id3t = Ok o.
Proof. intros Hb0 H3 H3t. destruct (negotiate_dep_closed brty0 io tto id3 id3t Hb0 H3 H3t) as (fr & E). eauto. Qed.

Lemma len_general_bytes o gb : general_bytes o = Ok gb -> len gb <= 20.
Proof.
  intro H. rewrite (general_bytes_form o gb H). unfold announced_tlvs, tlv_list.
  destruct (lo_miu o =? 128), (l_send_lto o =? 100), ((lo_lsc o =? 0) && negb (lo_sec o)); cbn; lia.
Qed.

(* what one side holds about the other after both activations *)
Definition holds_of (c : lcfg) (peer : lopt) : Prop :=
  c_ok c = true /\
  (128 <= lo_miu peer <= 2175 -> c_send_miu c = lo_miu peer) /\
  (0 <= lo_lto peer -> c_recv_lto c = l_send_lto peer) /\
  (wks_of (lo_saps peer) < 65536 -> c_send_wks c = wks_of (lo_saps peer)) /\
  (0 <= lo_lsc peer <= 3 -> c_send_lsc c = lo_lsc peer).

Lemma holds_of_takeover b sec gb c : general_bytes b = Ok gb -> llc_takeover sec gb = Ok c -> holds_of c b.
Proof.
  intros Hg Ht. destruct (miu_agree_thm b _ _ _ Hg Ht) as (A1 & A2 & _).
  split; [exact A1|]. split; [exact A2|]. split; [apply (lto_agree_thm b _ _ _ Hg Ht)|].
  split; [apply (wks_agree_thm b _ _ _ Hg Ht) | apply (lsc_agree_thm b _ _ _ Hg Ht)].
Qed.

Theorem p2p_agree_thm brty0 ia tb la lb id3 id3t o :
  0 <= brty0 <= 2 -> length id3 = 10%nat -> length id3t = 10%nat -> (forall x, io_did ia = Some x -> 0 < x) ->
  negotiate brty0 ia tb la lb id3 id3t = Ok o ->
  holds_of (po_a o) lb /\ holds_of (po_b o) la /\
  di_miu (do_i (po_dep o)) + 3 + b2z (is_some (io_did ia)) + b2z (is_some (io_nad ia)) = lr_of (clamp 0 3 (to_lrt tb)) /\
  dt_miu (do_t (po_dep o)) + 3 + b2z (is_some (tdid_of (io_did ia))) = lr_of (clamp 0 3 (io_lri ia)) /\
  di_brty (do_i (po_dep o)) = dt_brty (do_t (po_dep o)) /\
  di_brty (do_i (po_dep o)) = Z.max brty0 (clamp 0 2 (io_brs ia)) /\
  di_wt (do_i (po_dep o)) = dt_wt (do_t (po_dep o)) /\ di_wt (do_i (po_dep o)) = clamp 0 14 (to_rwt tb).
Proof.
  intros Hb0 H3 H3t Hdid H. unfold negotiate in H.
  destruct (general_bytes la) as [ga| | |] eqn:Ega; try discriminate. cbn [bind] in H.
  destruct (general_bytes lb) as [gb| | |] eqn:Egb; try discriminate. cbn [bind] in H.
  destruct (negotiate_dep_closed brty0 (mkiopt (io_brs ia) (io_lri ia) (io_did ia) (io_nad ia) ga) (mktopt (to_lrt tb) (to_rwt tb) gb) id3 id3t Hb0 H3 H3t) as (fr & E).
  rewrite E in H. clear E. cbn [bind do_i do_t do_tact di_gb dt_gb] in H.
  (* the general bytes arrive unshortened, and the target adopts the initiator's DID *)
  unfold t_gbt, i_gbi in H. cbn [to_gbt io_gbi io_did io_nad] in H.
  rewrite (take_all 47 gb), (take_all 48 ga) in H by (eapply Z.le_trans; [eapply len_general_bytes; eassumption | easy]).
  assert (Hact : opt_eqb (io_did ia) (tdid_of (io_did ia)) = true).
  { unfold tdid_of. destruct (io_did ia) as [x|]; [|reflexivity].
    rewrite (proj2 (Z.ltb_lt 0 x) (Hdid x eq_refl)). apply Z.eqb_refl. }
  rewrite Hact in H.
  destruct (llc_takeover (lo_sec la) gb) as [ca| | |] eqn:Eca; try discriminate. cbn [bind] in H.
  destruct (llc_takeover (lo_sec lb) ga) as [cb| | |] eqn:Ecb; try discriminate. cbn [bind] in H.
  injection H as <-. cbn [po_a po_b po_dep do_i do_t di_miu dt_miu di_brty dt_brty di_wt dt_wt].
  split; [exact (holds_of_takeover lb _ _ _ Egb Eca)|]. split; [exact (holds_of_takeover la _ _ _ Ega Ecb)|].
  unfold t_lrt, i_lri, i_brs, t_rwt. cbn [to_lrt io_lri io_brs to_rwt].
  split; [ring|]. split; [ring|]. split; [reflexivity|]. split; [|split; reflexivity].
  destruct (brty0 <? clamp 0 2 (io_brs ia)) eqn:Ep; lia.
Qed.

Lemma takeover_assign sec gb c : llc_takeover sec gb = Ok c -> c_ok c = true ->
  exists p, pax_decode (drop 3 gb) = Ok p /\ c = cfg_assign sec (pax_miu p) (pax_lto p) (pax_wks p) (pax_lsc p) (pax_dpc p) (pax_ver p).
Proof.
  unfold llc_takeover. destruct (starts_ffm gb && (6 <=? len gb)); [|intro H; injection H as <-; discriminate].
  destruct (pax_decode (drop 3 gb)) as [p|e|x|]; try discriminate.
  - intros H _. injection H as <-. exists p. split; reflexivity.
  - destruct e; try discriminate. intro H. injection H as <-. discriminate.
Qed.

(* reachable states of an LLC created with options o *)
Definition Linv (o : lopt) (s : lstate) : Prop :=
  ls_opt s = o /\ announce_lsc (ls_local_lsc s) (ls_send_lsc s) = lo_lsc o.

Lemma Linv_new o : Linv o (llc_new o).
Proof. split; reflexivity. Qed.

Lemma lopt_eta o : mklopt (lo_miu o) (lo_lto o) (lo_lsc o) (lo_sec o) (lo_saps o) = o.
Proof. destruct o; reflexivity. Qed.

(* what is announced never depends on the history, and what is held afterwards depends on THIS peer only *)
Theorem activate_depends_on_peer_only o s g gb s' : Linv o s -> llc_activate s g = Ok (gb, s') ->
  general_bytes o = Ok gb /\ Linv o s' /\
  (forall c, llc_takeover (lo_sec o) g = Ok c -> c_ok c = true -> ls_held s' = c /\ ls_send_lsc s' = c_send_lsc c).
Proof.
  intros [Ho Hl] H. unfold llc_activate in H. rewrite Ho, Hl, lopt_eta in H.
  destruct (general_bytes o) as [gb0| | |]; try discriminate. cbn [bind] in H.
  destruct (llc_takeover (lo_sec o) g) as [c| | |]; try discriminate. cbn [bind] in H.
  injection H as <- <-. split; [reflexivity|]. split.
  - destruct (c_ok c); split; reflexivity.
  - intros c' E Hok. injection E as <-. rewrite Hok. split; reflexivity.
Qed.

Theorem history_nth_peer_only o : forall peers s gbs s', Linv o s -> llc_history s peers = Ok (gbs, s') ->
  Forall (fun gb => general_bytes o = Ok gb) gbs /\ Linv o s' /\
  (forall g c, last peers [] = g -> peers <> [] -> llc_takeover (lo_sec o) g = Ok c -> c_ok c = true -> ls_held s' = c).
Proof.
  induction peers as [|g rest IH]; intros s gbs s' HI H; cbn [llc_history] in H.
  - injection H as <- <-. split; [constructor|]. split; [exact HI|]. intros; congruence.
  - destruct (llc_activate s g) as [[gb s1]| | |] eqn:Ea; try discriminate. cbn [bind snd fst] in H.
    destruct (llc_history s1 rest) as [[gl s2]| | |] eqn:Eh; try discriminate. cbn [bind snd fst] in H. injection H as <- <-.
    destruct (activate_depends_on_peer_only o s g gb s1 HI Ea) as (A & B & C).
    destruct (IH s1 gl s2 B Eh) as (A' & B' & C').
    split; [constructor; assumption|]. split; [exact B'|].
    intros g0 c Hlast _ Ht Hok. destruct rest as [|g1 rest'].
    + cbn in Hlast. subst g0. cbn in Eh. injection Eh as <- <-. apply (C c Ht Hok).
    + apply (C' g0 c); [exact Hlast | discriminate | exact Ht | exact Hok].
Qed.
