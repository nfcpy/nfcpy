(* General facts about the Target machine (Model/Dep.v tgt_step): invariant, what an accepted
   request leaves behind (packet number, retransmission buffer), answers to ATN / NAK / duplicates. *)
From Coq Require Import ZArith List Bool Lia ZifyBool.
From NV Require Import Base.Result Base.Bytes Model.Dep Proofs.DepCodec.
Import ListNotations.
Open Scope Z_scope.
Ltac Zify.zify_post_hook ::= Z.to_euclidean_division_equations.

Lemma opt_eqb_refl o : opt_eqb o o = true.
Proof. destruct o; cbn; [apply Z.eqb_refl|reflexivity]. Qed.
Lemma opt_eqb_eq a b : opt_eqb a b = true <-> a = b.
Proof. destruct a, b; cbn; split; intro H; try discriminate; try reflexivity.
  - apply Z.eqb_eq in H. congruence. - injection H as ->. apply Z.eqb_refl. Qed.

Section T.
Variable tc : tcfg.
Hypothesis Hmiu : 1 <= tc_miu tc /\ tc_miu tc + 3 + b2z (is_some (tc_did tc)) + b2z (is_some (tc_nad tc)) <= 254.

(* a response the target may put on the air *)
Definition resp_ok (r : deppdu) : Prop :=
  dep_wf r /\ did r = tc_did tc /\ nad r = tc_nad tc /\ len (data r) <= tc_miu tc.
Definition Tinv (t : tgt) : Prop :=
  (forall p, t_pni t = Some p -> 0 <= p <= 3) /\ (forall r, t_res t = Some r -> resp_ok r).

Definition ack (q : Z) : deppdu := mkdep F_ACK q (tc_did tc) (tc_nad tc) [].
Definition inf (q : Z) (sd : list Z) : deppdu :=
  mkdep (if tc_miu tc <? len sd then F_MORE else F_INF) q (tc_did tc) (tc_nad tc) (take (tc_miu tc) sd).
Definition rtoxres (x : Z) : deppdu := mkdep F_RTOX 0 (tc_did tc) (tc_nad tc) [x].
Definition atn_res : deppdu := mkdep F_ATN 0 (tc_did tc) (tc_nad tc) [].

Lemma resp_ok_mk f p d : (f = 0 \/ f = 1 \/ f = 4 \/ f = 8 \/ f = 9) -> 0 <= p <= 3 -> len d <= tc_miu tc ->
  resp_ok (mkdep f p (tc_did tc) (tc_nad tc) d).
Proof. intros Hf Hp Hd. unfold resp_ok, dep_wf; cbn. repeat split; try lia; assumption. Qed.
Lemma ack_ok q : 0 <= q <= 3 -> resp_ok (ack q).
Proof. intro. apply resp_ok_mk; [unfold F_ACK; lia | assumption | change (len (@nil Z)) with 0; lia]. Qed.
Lemma inf_ok q sd : 0 <= q <= 3 -> resp_ok (inf q sd).
Proof. intro. apply resp_ok_mk; [destruct (tc_miu tc <? len sd); unfold F_MORE, F_INF; lia | assumption | apply len_take_le; lia]. Qed.
Lemma rtoxres_ok x : resp_ok (rtoxres x).
Proof. apply resp_ok_mk; [unfold F_RTOX; lia | lia | change (len [x]) with 1; lia]. Qed.
Lemma atn_res_ok : resp_ok atn_res.
Proof. apply resp_ok_mk; [unfold F_ATN; lia | lia | change (len (@nil Z)) with 0; lia]. Qed.
Lemma inf_fmt q sd : fmt (inf q sd) = F_INF \/ fmt (inf q sd) = F_MORE.
Proof. unfold inf; cbn. destruct (tc_miu tc <? len sd); auto. Qed.
(* the tests the initiator applies to an information response *)
Lemma inf_tests q sd : (fmt (inf q sd) =? F_RTOX) = false /\ (fmt (inf q sd) =? F_ACK) = false /\
  (fmt (inf q sd) =? F_INF) || (fmt (inf q sd) =? F_MORE) = true.
Proof. unfold inf; cbn. destruct (tc_miu tc <? len sd); auto. Qed.

(* Tinv looks at the packet number and the retransmission buffer only *)
Lemma Tinv_upd t pos app out rtx a : Tinv t -> Tinv (mktgt (t_pni t) pos (t_res t) app out rtx a).
Proof. exact (fun H => H). Qed.
Lemma Tinv_pni t q pos app out rtx a : 0 <= q <= 3 -> Tinv t -> Tinv (mktgt (Some q) pos (t_res t) app out rtx a).
Proof. intros Hq [_ Hr]. split; cbn; [intros p E; injection E as <-; exact Hq | exact Hr]. Qed.
Lemma Tinv_mk q pos r app out rtx a : 0 <= q <= 3 -> resp_ok r -> Tinv (mktgt (Some q) pos (Some r) app out rtx a).
Proof. intros Hq Hr. split; cbn; [intros p E; injection E as <-; exact Hq | intros r0 E; injection E as <-; exact Hr]. Qed.

(* what a call of the application code returns (state, answer): it ended the application silently, or it emitted r,
   remembered it, and holds packet number po *)
Definition Emits (x : tgt * option pdu) (po : option Z) : Prop :=
  Tinv (fst x) /\
  ((snd x = None /\ t_pos (fst x) = TStop) \/
   (exists r, snd x = Some (PDepRes r) /\ resp_ok r /\ t_res (fst x) = Some r /\ t_pni (fst x) = po /\
              t_pos (fst x) <> TStop /\ t_pos (fst x) <> TListen)).

Lemma stop_spec t x po : Tinv t -> Emits (t_stop t x) po.
Proof. intro HI. split; [exact (Tinv_upd t _ _ _ _ _ HI) | left; split; reflexivity]. Qed.
Lemma stop_rtx_spec t x po : Tinv t -> Emits (t_stop_rtx t x) po.
Proof. intro HI. split; [exact (Tinv_upd t _ _ _ _ _ HI) | left; split; reflexivity]. Qed.
Lemma emit_spec t pos r : Tinv t -> resp_ok r -> pos <> TStop -> pos <> TListen -> Emits (t_emit t pos r) (t_pni t).
Proof.
  intros [Hp _] Hr H1 H2.
  split; [split; cbn; [exact Hp | intros r0 E; injection E as <-; exact Hr] | right; exists r; cbn; auto 10].
Qed.

Lemma start_send_spec t resp : Tinv t -> Emits (t_start_send tc t resp) (t_pni t).
Proof.
  intro HI. unfold t_start_send. destruct resp as [|x resp]; [exact (stop_spec _ _ _ HI)|].
  destruct (t_pni t) as [p|] eqn:Ep; [|exact (stop_spec _ _ _ HI)].
  rewrite <- Ep. apply emit_spec; [exact HI | exact (inf_ok p (x :: resp) (proj1 HI p Ep)) | discriminate | discriminate].
Qed.

Lemma app_continue_spec t : Tinv t -> Emits (t_app_continue tc t) (t_pni t).
Proof.
  intro HI. unfold t_app_continue. destruct (t_app t) as [|[[|x rt] resp] rest].
  - split; [exact (Tinv_upd t _ _ _ _ _ HI) | left; split; reflexivity].
  - exact (start_send_spec _ resp (Tinv_upd t _ _ _ _ _ HI)).
  - (* the RTOX response carries packet number 0 in its PFB, the target's own counter is unchanged *)
    exact (emit_spec _ TRtox _ (Tinv_upd t _ _ _ _ _ HI) (rtoxres_ok x) ltac:(discriminate) ltac:(discriminate)).
Qed.

Lemma recv_chain_spec t d acc : Tinv t -> Emits (t_recv_chain tc t d acc) (t_pni t).
Proof.
  intro HI. unfold t_recv_chain. destruct (fmt d =? F_MORE).
  - destruct (t_pni t) as [p|] eqn:Ep; [|exact (stop_spec _ _ _ HI)].
    rewrite <- Ep. apply emit_spec; [exact HI | exact (ack_ok p (proj1 HI p Ep)) | discriminate | discriminate].
  - exact (app_continue_spec _ (Tinv_upd t _ _ _ _ _ HI)).
Qed.

(* the packet number the target holds after accepting d *)
Definition accept_pni (t : tgt) (d : deppdu) : option Z :=
  match t_pos t with TListen | TFirst => Some 0 | TRtox => t_pni t | _ => Some (pni d) end.

Lemma accept_spec t d : Tinv t -> Emits (t_accept tc t d) (accept_pni t d).
Proof.
  intro HI. unfold t_accept, accept_pni.
  (* TSend / TRecv: the packet number advances and must be the request's *)
  assert (Hnext : forall p, t_pni t = Some p ->
            Tinv (t_set_pni t ((p + 1) mod 4)) /\
            (negb (pni d =? (p + 1) mod 4) = false -> t_pni (t_set_pni t ((p + 1) mod 4)) = Some (pni d))).
  { intros p Ep. split; [apply Tinv_pni; [lia | exact HI] | intro E; cbn; f_equal; lia]. }
  destruct (t_pos t) eqn:Epos.
  - exact (recv_chain_spec _ d [] (Tinv_pni t 0 TFirst _ _ _ true ltac:(lia) HI)).
  - exact (recv_chain_spec _ d [] (Tinv_pni t 0 TFirst _ _ _ true ltac:(lia) HI)).
  - destruct ((tc_miu tc <? len sd) && negb (fmt d =? F_ACK)); [exact (stop_spec _ _ _ HI)|].
    destruct (t_pni t) as [p|]; [|exact (stop_spec _ _ _ HI)].
    destruct (Hnext p eq_refl) as [HI1 Hgood]. destruct (negb (pni d =? (p + 1) mod 4)); [exact (stop_spec _ _ _ HI1)|].
    rewrite <- (Hgood eq_refl).
    destruct (drop (tc_miu tc) sd) as [|y sd'] eqn:Esd; [exact (recv_chain_spec _ _ _ HI1)|].
    apply emit_spec; [exact HI1 | apply inf_ok; lia | discriminate | discriminate].
  - destruct (t_pni t) as [p|]; [|exact (stop_spec _ _ _ HI)].
    destruct (Hnext p eq_refl) as [HI1 Hgood]. destruct (negb (pni d =? (p + 1) mod 4)); [exact (stop_spec _ _ _ HI1)|].
    rewrite <- (Hgood eq_refl). exact (recv_chain_spec _ _ _ HI1).
  - destruct (fmt d =? F_RTOX); [destruct (data d) as [|x rest]|]; try exact (stop_rtx_spec _ _ _ HI).
    exact (app_continue_spec _ (Tinv_upd t _ _ _ _ _ HI)).
  - split; [exact HI | left; split; [reflexivity | exact Epos]].
Qed.

(* an accepted information / acknowledge request (not RTOX) that is answered *)
Lemma accept_emits t d t' r : Tinv t -> fmt d <> F_RTOX -> (t_pos t = TListen \/ t_pos t = TFirst -> pni d = 0) ->
  t_accept tc t d = (t', Some (PDepRes r)) ->
  resp_ok r /\ t_res t' = Some r /\ t_pni t' = Some (pni d) /\ t_pos t' <> TStop /\ t_pos t' <> TListen.
Proof.
  intros HI Hf H0 H. pose proof (accept_spec t d HI) as HE. rewrite H in HE.
  destruct HE as [_ [[E _]|(r' & E & Hok & Hres & Hpni & Hs)]]; cbn [fst snd] in *; [discriminate|].
  injection E as <-. split; [exact Hok|]. split; [exact Hres|]. split; [|exact Hs].
  rewrite Hpni. unfold accept_pni. destruct (t_pos t) eqn:Epos; try reflexivity; try (rewrite H0 by auto; reflexivity).
  unfold t_accept in H. rewrite Epos in H. replace (fmt d =? F_RTOX) with false in H by lia. discriminate.
Qed.

(* the state after an attention request: the driver phase ends, nothing else changes *)
Definition awake (t : tgt) : tgt :=
  match t_pos t with
  | TListen => mktgt (t_pni t) TFirst (t_res t) (t_app t) (t_out t) (t_rtx t) true
  | _ => t
  end.
Lemma awake_idem t : awake (awake t) = awake t.
Proof. unfold awake. destruct (t_pos t) eqn:E; cbn; rewrite ?E; reflexivity. Qed.
Lemma awake_not_listen t : t_pos t <> TListen -> awake t = t.
Proof. unfold awake. destruct (t_pos t); congruence. Qed.
Lemma Tinv_awake t : Tinv t -> Tinv (awake t).
Proof. intros [? ?]. unfold awake. destruct (t_pos t); split; cbn; assumption. Qed.
Lemma awake_pos_stop t : t_pos (awake t) = TStop <-> t_pos t = TStop.
Proof. unfold awake. destruct (t_pos t) eqn:E; cbn; rewrite ?E; split; congruence. Qed.

Lemma step_atn t d : t_pos t <> TStop -> did d = tc_did tc -> fmt d = F_ATN ->
  tgt_step tc t (PDepReq d) = (awake t, Some (PDepRes atn_res)).
Proof.
  intros Hs Hd Hf. unfold tgt_step. cbn [pdu_did]. rewrite Hd, opt_eqb_refl. cbn [negb]. rewrite Hf.
  change (F_ATN =? F_ATN) with true. cbv iota. unfold awake, atn_res.
  destruct (t_pos t) eqn:E; try congruence; destruct t; cbn in *; subst; reflexivity.
Qed.

Lemma step_nak t d : t_pos t <> TStop -> t_pos t <> TListen -> did d = tc_did tc -> fmt d = F_NAK ->
  tgt_step tc t (PDepReq d) = (t, match t_res t with Some r => Some (PDepRes r) | None => None end).
Proof.
  intros Hs Hl Hd Hf. unfold tgt_step. cbn [pdu_did]. rewrite Hd, opt_eqb_refl. cbn [negb]. rewrite Hf.
  change (F_NAK =? F_ATN) with false. change (F_NAK =? F_NAK) with true. cbv iota. unfold t_resend.
  destruct (t_pos t) eqn:E; try congruence; destruct t; cbn in *; subst; reflexivity.
Qed.

(* an RTOX request is accepted while the target's own RTOX response is pending, otherwise it is a retransmission *)
Lemma step_rtox t d r : t_pos t <> TStop -> did d = tc_did tc -> fmt d = F_RTOX -> t_res t = Some r ->
  tgt_step tc t (PDepReq d) = if fmt r =? F_RTOX then t_accept tc t d else t_resend t.
Proof.
  intros Hs Hd Hf Er. unfold tgt_step. cbn [pdu_did]. rewrite Hd, opt_eqb_refl. cbn [negb]. rewrite Hf, Er.
  change (F_RTOX =? F_ATN) with false. change (F_RTOX =? F_NAK) with false. change (F_RTOX =? F_RTOX) with true. cbv iota.
  destruct (t_pos t); try congruence; reflexivity.
Qed.

(* a retransmitted request (same packet number) is answered from the retransmission buffer *)
Lemma step_dup t d : t_pos t <> TStop -> did d = tc_did tc ->
  fmt d <> F_ATN -> fmt d <> F_NAK -> fmt d <> F_RTOX -> t_pni t = Some (pni d) ->
  tgt_step tc t (PDepReq d) = (t, match t_res t with Some r => Some (PDepRes r) | None => None end).
Proof.
  intros Hs Hd H1 H2 H3 Hp. unfold tgt_step. cbn [pdu_did]. rewrite Hd, opt_eqb_refl. cbn [negb].
  replace (fmt d =? F_ATN) with false by lia. replace (fmt d =? F_NAK) with false by lia.
  replace (fmt d =? F_RTOX) with false by lia. rewrite Hp, opt_eqb_refl. unfold t_resend.
  destruct (t_pos t); try congruence; reflexivity.
Qed.

Lemma step_new t d : t_pos t <> TStop -> did d = tc_did tc ->
  fmt d <> F_ATN -> fmt d <> F_NAK -> fmt d <> F_RTOX -> t_pni t <> Some (pni d) ->
  tgt_step tc t (PDepReq d) = t_accept tc t d.
Proof.
  intros Hs Hd H1 H2 H3 Hp. unfold tgt_step. cbn [pdu_did]. rewrite Hd, opt_eqb_refl. cbn [negb].
  replace (fmt d =? F_ATN) with false by lia. replace (fmt d =? F_NAK) with false by lia.
  replace (fmt d =? F_RTOX) with false by lia.
  destruct (opt_eqb (Some (pni d)) (t_pni t)) eqn:E.
  - apply opt_eqb_eq in E. congruence.
  - destruct (t_pos t); try congruence; reflexivity.
Qed.

Lemma accept_awake t d : t_accept tc (awake t) d = t_accept tc t d.
Proof. unfold awake. destruct (t_pos t) eqn:E; try reflexivity. unfold t_accept. cbn. rewrite E. reflexivity. Qed.

(* ---- general invariant: whatever the target puts on the air is bounded by its MIU ---- *)
Definition OutOk (o : option pdu) : Prop :=
  forall x, o = Some x -> (exists r, x = PDepRes r /\ resp_ok r) \/ x = PDslRes (tc_did tc) \/ x = PRlsRes (tc_did tc).
Lemma Emits_OutOk x po : Emits x po -> OutOk (snd x).
Proof. intros [_ [[-> _]|(r & -> & Hok & _)]] y Hy; [discriminate|]. injection Hy as <-. eauto. Qed.
Lemma resend_OutOk t : Tinv t -> OutOk (match t_res t with Some r => Some (PDepRes r) | None => None end).
Proof. intros [_ Hr] x Hx. destruct (t_res t) as [r|]; [|discriminate]. injection Hx as <-. eauto. Qed.

Lemma step_inv t req : Tinv t -> Tinv (fst (tgt_step tc t req)) /\ OutOk (snd (tgt_step tc t req)).
Proof.
  intro HI. unfold tgt_step.
  assert (Hnone : Tinv t /\ OutOk None) by (split; [exact HI | intros x Hx; discriminate]).
  assert (Hacc : forall d, Tinv (fst (t_accept tc t d)) /\ OutOk (snd (t_accept tc t d))).
  { intro d. pose proof (accept_spec t d HI) as HE. exact (conj (proj1 HE) (Emits_OutOk _ _ HE)). }
  (* ATN and NAK end the driver phase and change nothing else *)
  set (ta := mktgt (t_pni t) (match t_pos t with TListen => TFirst | p => p end) (t_res t) (t_app t) (t_out t) (t_rtx t)
                   (match t_pos t with TListen => true | _ => t_act t end)).
  assert (HIa : Tinv ta) by exact (Tinv_upd t _ _ _ _ _ HI).
  destruct (t_pos t) eqn:Epos; try exact Hnone.
  all: destruct (negb (opt_eqb (pdu_did req) (tc_did tc))); [exact Hnone|].
  all: destruct req as [| | | |d| | | | |]; try exact Hnone.
  all: try (unfold t_release; rewrite Epos; split; [exact (Tinv_upd t _ _ _ _ _ HI) | intros x Hx; injection Hx as <-; auto]).
  all: destruct (fmt d =? F_ATN);
    [split; [exact HIa | intros x Hx; injection Hx as <-; left; eexists; split; [reflexivity | apply atn_res_ok]]|].
  all: destruct (fmt d =? F_NAK); [split; [exact HIa | exact (resend_OutOk t HI)]|].
  all: destruct (fmt d =? F_RTOX);
    [destruct (t_res t) as [r|] eqn:Er;
     [destruct (fmt r =? F_RTOX); [exact (Hacc d) | split; [exact HI | exact (resend_OutOk t HI)]]
     | split; [exact HIa | exact (proj2 Hnone)]]|].
  all: destruct (opt_eqb (Some (pni d)) (t_pni t)); [split; [exact HI | exact (resend_OutOk t HI)] | exact (Hacc d)].
Qed.
End T.
