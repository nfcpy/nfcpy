(* Type 1 Tag: reader lemmas (the TLV walk depends only on the bytes it reads) and the theorems of
   C01 / C02 / C03 for tt1.py, on top of the generic phase analysis (Proofs/TlvPhases.v).
   The reader ([t1_walk_r], [t1_reader]) is the code after the repairs c08-12/13/15. *)
From Coq Require Import ZArith List Bool Lia ZifyBool.
From NV Require Import Base.Result Base.Bytes Model.TlvMem Model.T1T Proofs.TlvLib Proofs.TlvPhases.
Import ListNotations.
Open Scope Z_scope.
Ltac Zify.zify_post_hook ::= Z.to_euclidean_division_equations.

Lemma t1_walk_found : forall fuel em size skip off hw o s v h,
  t1_walk_r fuel em size skip off hw = Ok (Some (o, s, v, h)) ->
  hw <= h /\ in_skip s o = false /\ exists l e, read_tlv em o s = Ok (3, l, v, e).
Proof.
  induction fuel as [|f IH]; intros em size skip off hw o s v h H; [discriminate|].
  cbn [t1_walk_r] in H. destruct (size <=? off); [discriminate|].
  destruct (in_skip skip off) eqn:Es; [apply IH in H; exact H|].
  destruct (read_tlv em off skip) as [[[[t l] v0] e]| | |] eqn:Er; try discriminate.
  destruct (t1_dispatch_r skip t l v0) as [[skip'| |]| | |] eqn:Ed; try discriminate.
  - apply IH in H. destruct H as (H1 & H3 & H4). repeat split; auto; lia.
  - injection H as <- <- <- <-. apply (dispatch_found 2048) in Ed. subst t. repeat split; auto; try lia. eauto.
Qed.

Lemma t1_walk_reach : forall fuel em1 em2 size skip off hw o s v h l' v' e',
  t1_walk_r fuel em1 size skip off hw = Ok (Some (o, s, v, h)) ->
  agree_below h em1 em2 ->
  read_tlv em2 o s = Ok (3, l', v', e') ->
  t1_walk_r fuel em2 size skip off hw = Ok (Some (o, s, v', h)).
Proof.
  induction fuel as [|f IH]; intros em1 em2 size skip off hw o s v h l' v' e' H HA HR; [discriminate|].
  cbn [t1_walk_r] in *. destruct (size <=? off); [discriminate|].
  destruct (in_skip skip off) eqn:Es; [eapply IH; eauto|].
  destruct (read_tlv em1 off skip) as [[[[t l] v0] e]| | |] eqn:Er; try discriminate.
  destruct (t1_dispatch_r skip t l v0) as [[skip'| |]| | |] eqn:Ed; try discriminate.
  - pose proof (t1_walk_found _ _ _ _ _ _ _ _ _ _ H) as (Hm & _).
    destruct HA as [HL HG].
    rewrite (read_tlv_congr em1 em2 off skip t l v0 e Er HL) by (intros; apply HG; lia).
    rewrite Ed. eapply IH; eauto. split; assumption.
  - injection H as <- <- <- <-. rewrite HR. reflexivity.
Qed.

Lemma t1_read_inv hr0 m L : t1_reader hr0 m = Ok (Some L) ->
  exists b9 b10 b11,
    120 <= len m /\ Z.shiftr hr0 4 = 1 /\
    rd m 8 = Ok 225 /\ rd m 9 = Ok b9 /\ rd m 10 = Ok b10 /\ rd m 11 = Ok b11 /\ Z.shiftr b9 4 = 1 /\
    l_dend L = (b10 + 1) * 8 /\
    t1_walk_r (S (Z.to_nat (l_dend L))) m (l_dend L) [(104, if l_dend L =? 120 then 120 else 128)] 12 12
      = Ok (Some (l_off L, l_skip L, l_val L, l_hw L)) /\
    l_cap L = get_capacity (l_dend L) (l_off L) (l_skip L) /\
    l_rd L = (Z.shiftr b11 4 =? 0) /\ l_wr L = (Z.land b11 15 =? 0) /\ ndef_fits m L = true.
Proof.
  unfold t1_reader. intro H. destruct (Z.ltb_spec (len m) 120); [discriminate|].
  destruct (Z.eqb_spec (Z.shiftr hr0 4) 1) as [Hh|]; [|discriminate]. cbn [negb] in H.
  destruct (rd m 8) as [b8| | |] eqn:E8; try discriminate.
  destruct (rd m 9) as [b9| | |] eqn:E9; try discriminate.
  destruct (rd m 10) as [b10| | |] eqn:E10; try discriminate.
  destruct (rd m 11) as [b11| | |] eqn:E11; try discriminate.
  destruct (Z.eqb_spec b8 225) as [->|]; [|discriminate]. cbn [negb] in H.
  destruct (Z.eqb_spec (Z.shiftr b9 4) 1) as [Hv|]; [|discriminate]. cbn [negb] in H.
  destruct (t1_walk_r _ m ((b10 + 1) * 8) _ 12 12) as [[[[[off skip] v] hw]|]| | |] eqn:Ew;
    cbn [bind] in H; try discriminate.
  match type of H with (if ?c then _ else _) = _ => destruct c eqn:Ef end; [|discriminate].
  injection H as <-. cbn [l_off l_skip l_val l_hw l_dend l_cap l_rd l_wr].
  exists b9, b10, b11. repeat split; auto.
Qed.

Lemma t1_read_transfer hr0 m m2 L l' v' e' : t1_reader hr0 m = Ok (Some L) ->
  agree_below (Z.max 12 (l_hw L)) m m2 -> ndef_fits m2 (set_val L v') = true ->
  read_tlv m2 (l_off L) (l_skip L) = Ok (3, l', v', e') ->
  t1_reader hr0 m2 = Ok (Some (set_val L v')).
Proof.
  intros H HA HF HR. destruct (t1_read_inv _ _ _ H) as (b9 & b10 & b11 & Hlen & Hh & E8 & E9 & E10 & E11 & Hv & Hd & Hw & Hc & Hrd & Hwr & _).
  destruct HA as [HL HG].
  assert (R : forall a, a < 12 -> rd m2 a = rd m a) by (intros a Ha; apply rd_congr; [congruence | intro; symmetry; apply HG; lia]).
  unfold t1_reader. replace (len m2) with (len m) by (unfold len; congruence). replace (len m <? 120) with false by lia.
  rewrite Hh. cbn [Z.eqb negb Pos.eqb]. rewrite (R 8), (R 9), (R 10), (R 11), E8, E9, E10, E11 by lia.
  cbn [Z.eqb negb Pos.eqb]. rewrite Hv. cbn [Z.eqb negb Pos.eqb]. rewrite <- Hd.
  rewrite (t1_walk_reach _ m m2 _ _ _ _ _ _ _ _ l' v' e' Hw); [| split; [exact HL | intros; apply HG; lia] | exact HR].
  cbn [bind]. rewrite <- Hc, <- Hrd, <- Hwr.
  change {| l_off := l_off L; l_skip := l_skip L; l_cap := l_cap L; l_rd := l_rd L; l_wr := l_wr L; l_val := v';
            l_dend := l_dend L; l_hw := l_hw L |} with (set_val L v'). rewrite HF. reflexivity.
Qed.

Definition wfL1 (hr0 : Z) (m : list Z) (L : layout) : Prop :=
  t1_reader hr0 m = Ok (Some L) /\
  ((Z.land hr0 15 = 1 /\ len m = 120) \/ (Z.land hr0 15 <> 1 /\ 256 <= len m /\ len m <= 2048 /\ len m mod 128 = 0)) /\
  l_rd L = true /\ l_wr L = true /\ l_dend L <= len m /\ l_hw L <= l_off L /\ 12 <= l_off L /\ l_off L + 1 < l_dend L /\
  in_skip (l_skip L) (l_off L) = false /\ in_skip (l_skip L) (l_off L + 1) = false /\
  (255 <= l_cap L -> in_skip (l_skip L) (l_off L + 2) = false /\ in_skip (l_skip L) (l_off L + 3) = false).
Lemma wfL1_reader hr0 m L : wfL1 hr0 m L -> t1_reader hr0 m = Ok (Some L). Proof. intro H. apply H. Qed.
Lemma wfL1_rd hr0 m L : wfL1 hr0 m L -> l_rd L = true. Proof. intro H. apply H. Qed.
Lemma wfL1_wr hr0 m L : wfL1 hr0 m L -> l_wr L = true. Proof. intro H. apply H. Qed.

Lemma t1_wf_layout_wfL hr0 m : t1_wf_layout hr0 m -> exists L, wfL1 hr0 m L.
Proof.
  unfold t1_wf_layout, t1_wf_layoutb. intro H. apply andb_true_iff in H as [Hsz H].
  destruct (t1_reader hr0 m) as [[L|]| | |] eqn:E; try discriminate.
  exists L. split; [exact E|]. split; [lia | apply wf_tail_iff, H].
Qed.

Section Layout1.
Variables (hr0 : Z) (m : list Z) (L : layout).
Hypothesis WF : wfL1 hr0 m L.
Set Default Proof Using "WF".

Notation off := (l_off L).
Notation u := (t1_unit hr0).

Lemma w_read : t1_reader hr0 m = Ok (Some L). Proof. apply WF. Qed.
Lemma w_unit : (0 < u)%nat /\ exists ku, length m = (ku * u)%nat.
Proof.
  destruct WF as (Hr & Hsz & _). destruct (t1_read_inv _ _ _ Hr) as (_ & _ & _ & _ & Hh & _).
  unfold t1_unit. rewrite Hh. cbn [Z.eqb Pos.eqb andb].
  destruct Hsz as [[H1 H2]|[H1 [H2 H3]]].
  - rewrite H1. cbn. split; [lia|]. exists (length m). lia.
  - destruct H3 as [H3' H3]. replace (Z.land hr0 15 =? 1) with false by lia. cbn [negb]. split; [lia|].
    exists (Z.to_nat (len m / 8)). unfold len in *. lia.
Qed.

(* the generic analysis (Proofs/TlvPhases.v) applies with the memory itself as readable image, unit t1_unit and
   reader t1_reader *)
Lemma wfL1_gen ku : length m = (ku * u)%nat -> gen_layout m L u ku (t1_reader hr0).
Proof.
  intro Hk. destruct WF as (Hr & Hsz & Hrd & Hwr & Hde & Hhw & Ho12 & Ho1 & S0 & S1 & S23).
  destruct (t1_read_inv _ _ _ Hr) as (b9 & b10 & b11 & _ & _ & _ & _ & _ & _ & _ & _ & Hw & Hc & _).
  constructor; try assumption; try lia.
  - apply w_unit.
  - destruct (t1_walk_found _ _ _ _ _ _ _ _ _ _ Hw) as (_ & _ & l & e & H).
    apply read_tlv_inv in H. destruct H as (H & _). apply rd_inv in H. symmetry. apply H.
  - intros c l' v' e' HA HF HR. apply (t1_read_transfer hr0 m c L l' v' e' Hr); [| exact HF | exact HR].
    apply (agree_below_le (off + 1)); [lia | exact HA].
Qed.
(* every write unit that holds a byte of the NDEF area lies inside the memory *)
Lemma wfL1_bound ku : length m = (ku * u)%nat ->
  forall x, off < x -> ndef_area L x = true -> x / Z.of_nat u * Z.of_nat u + Z.of_nat u <= len m.
Proof.
  intros Hk x Hx Ha. destruct WF as (_ & _ & _ & _ & Hde & _ & Ho12 & _). pose proof (proj1 w_unit) as Hu.
  unfold ndef_area in Ha. assert (Hxm : x < len m) by lia.
  unfold len in Hxm |- *. rewrite Hk in Hxm |- *. rewrite Nat2Z.inj_mul in *.
  assert (E : x / Z.of_nat u < Z.of_nat ku) by (apply Z.div_lt_upper_bound; lia). nia.
Qed.

(* the caches of a write; cut safety needs the length field (when it has three bytes) inside one write unit *)
Lemma t1_caches ku (d : list Z) : length m = (ku * u)%nat -> len d <= l_cap L ->
  caches_ok m L u (t1_reader hr0) (t1_phases L d) d (len d < 255 \/ one_unit u off).
Proof.
  intros Hk Hcap. pose proof (wfL1_gen ku Hk) as G. unfold t1_phases.
  destruct (Z.ltb_spec (len d) 255) as [Hd|Hd]; eapply caches_weaken; try exact G.
  - exact (fun _ => I).
  - apply (caches_short _ _ _ _ _ G); assumption.
  - intros [Hs|Hs]; [lia | exact Hs].
  - apply (caches_unrepaired _ _ _ _ _ G); assumption.
Qed.

Lemma t1_write_result (d : list Z) : len d <= l_cap L ->
  exists cs cf, t1_write hr0 m d = (Ok tt, chain_cmds u m cs) /\
    (forall w, In w (chain_cmds u m cs) -> area_cmd L u (len m) w) /\
    apply_ws m (chain_cmds u m cs) = cf /\ touch L m cf /\ t1_reader hr0 cf = Ok (Some (set_val L d)) /\
    (len d < 255 \/ one_unit u off -> forall j, let x := apply_ws m (firstn j (chain_cmds u m cs)) in x = m \/ hdr0 m L x \/ x = cf).
Proof.
  intro Hcap. destruct w_unit as (_ & ku & Hk).
  unfold t1_write. rewrite w_read. rewrite (wfL1_wr _ _ _ WF). cbn [negb].
  replace (l_cap L <? len d) with false by lia.
  exact (write_result _ _ _ _ _ (wfL1_gen ku Hk) _ (wfL1_bound ku Hk) _ _ _ (t1_caches ku d Hk Hcap)).
Qed.
End Layout1.
Set Default Proof Using "Type".

Lemma t1_capacity_layout hr0 m cap : t1_capacity hr0 m = Some cap -> exists L, t1_reader hr0 m = Ok (Some L) /\ l_cap L = cap.
Proof. unfold t1_capacity. destruct (t1_reader hr0 m) as [[L|]| | |]; try discriminate. intro H. injection H as <-. eauto. Qed.
Lemma wfL1_capacity hr0 m L cap : wfL1 hr0 m L -> t1_capacity hr0 m = Some cap -> l_cap L = cap.
Proof. intros H Hc. destruct (t1_capacity_layout hr0 m cap Hc) as (L' & Hr' & Hc'). pose proof (wfL1_reader _ _ _ H). congruence. Qed.
Lemma wfL1_layout hr0 m L L' : wfL1 hr0 m L' -> t1_layout hr0 m = Some L -> L' = L.
Proof. intros HL H. unfold t1_layout in H. rewrite (wfL1_reader _ _ _ HL) in H. congruence. Qed.

Theorem t1_write_read hr0 m d cap : t1_wf_layout hr0 m -> bytes_ok d -> t1_capacity hr0 m = Some cap -> len d <= cap ->
  let m' := apply_ws m (snd (t1_write hr0 m d)) in
  fst (t1_write hr0 m d) = Ok tt /\ t1_fresh hr0 m' = Msg d /\ t1_capacity hr0 m' = Some cap /\ len m' = len m.
Proof.
  intros Hwf _ Hcap Hd. destruct (t1_wf_layout_wfL hr0 m Hwf) as (L & HL). pose proof (wfL1_capacity hr0 m L cap HL Hcap) as Hc.
  destruct (t1_write_result hr0 m L HL d ltac:(lia)) as (cs & cf & Hw & _ & Hv & [Hl _] & Hf & _).
  cbv zeta. rewrite Hw. cbn [fst snd]. split; [reflexivity|].
  unfold t1_fresh, t1_capacity. rewrite Hv, Hf. cbn [classify set_val l_rd l_val l_cap].
  rewrite (wfL1_rd _ _ _ HL), Hc. unfold len. rewrite Hl. auto.
Qed.

Theorem t1_capacity_sound hr0 m L : t1_wf_layout hr0 m -> t1_layout hr0 m = Some L -> l_cap L <= room (t1_free_after_tag L).
Proof.
  intros Hwf HL. destruct (t1_wf_layout_wfL hr0 m Hwf) as (L' & HL'). pose proof (wfL1_layout _ _ _ _ HL' HL). subst L'.
  destruct (w_unit hr0 m L HL') as (_ & ku & Hk). rewrite (gl_cap _ _ _ _ _ (wfL1_gen hr0 m L HL' ku Hk)).
  destruct HL' as (_ & _ & _ & _ & _ & _ & _ & Ho1 & S0 & _). apply capacity_room; [exact S0 | lia].
Qed.

Theorem t1_oversize_rejected hr0 m d cap : t1_capacity hr0 m = Some cap -> cap < len d ->
  (exists L, t1_layout hr0 m = Some L /\ l_wr L = true) -> t1_write hr0 m d = (Err ValueError, []).
Proof.
  intros Hcap Hd (L & HL & Hwr). destruct (t1_capacity_layout hr0 m cap Hcap) as (L' & Hr' & Hc').
  unfold t1_layout in HL. rewrite Hr' in HL. injection HL as ->.
  unfold t1_write. rewrite Hr', Hwr. cbn [negb]. replace (l_cap L <? len d) with true by lia. reflexivity.
Qed.

(* C02: safe for one length byte, and for three length bytes when they share a write unit with the first one *)
Theorem t1_cut_safe hr0 m d cap L : t1_wf_layout hr0 m -> t1_capacity hr0 m = Some cap -> len d <= cap ->
  t1_layout hr0 m = Some L -> (len d < 255 \/ one_unit (t1_unit hr0) (l_off L)) -> forall k,
  let mk := apply_ws m (firstn k (snd (t1_write hr0 m d))) in
  t1_fresh hr0 mk = t1_fresh hr0 m \/ t1_fresh hr0 mk = Msg [] \/ t1_fresh hr0 mk = Msg d.
Proof.
  intros Hwf Hcap Hd HLay Hsafe k. destruct (t1_wf_layout_wfL hr0 m Hwf) as (L' & HL). pose proof (wfL1_layout _ _ _ _ HL HLay). subst L'.
  pose proof (wfL1_capacity hr0 m L cap HL Hcap) as Hc.
  destruct (t1_write_result hr0 m L HL d ltac:(lia)) as (cs & cf & Hw & _ & _ & _ & Hf & Hcut).
  cbv zeta. rewrite Hw. cbn [snd]. specialize (Hcut Hsafe k). cbv zeta in Hcut.
  pose proof (wfL1_rd _ _ _ HL) as Hrd. destruct (w_unit hr0 m L HL) as (_ & ku & Hk).
  unfold t1_fresh. destruct Hcut as [E|[E|E]].
  - left. rewrite E. reflexivity.
  - right; left. rewrite (hdr0_read _ _ _ _ _ (wfL1_gen hr0 m L HL ku Hk) _ ltac:(pose proof (len_nonneg d); lia) E).
    cbn [classify set_val l_rd l_val]. rewrite Hrd. reflexivity.
  - right; right. rewrite E, Hf. cbn [classify set_val l_rd l_val]. rewrite Hrd. reflexivity.
Qed.

Lemma t1_write_cmds hr0 m L d : wfL1 hr0 m L ->
  (forall w, In w (snd (t1_write hr0 m d)) -> area_cmd L (t1_unit hr0) (len m) w) /\
  touch L m (apply_ws m (snd (t1_write hr0 m d))).
Proof.
  intro HL. destruct (Z.leb_spec (len d) (l_cap L)) as [Hd|Hd].
  - destruct (t1_write_result hr0 m L HL d Hd) as (cs & cf & Hw & Hok & Hv & Ht & _). rewrite Hw. cbn [snd].
    rewrite Hv. auto.
  - assert (E : t1_write hr0 m d = (Err ValueError, [])).
    { unfold t1_write. rewrite (wfL1_reader _ _ _ HL), (wfL1_wr _ _ _ HL). cbn [negb].
      replace (l_cap L <? len d) with true by lia. reflexivity. }
    rewrite E. split; [intros w0 [] | apply touch_refl].
Qed.

Theorem t1_write_frame hr0 m d L : t1_wf_layout hr0 m -> t1_layout hr0 m = Some L ->
  let m' := apply_ws m (snd (t1_write hr0 m d)) in
  len m' = len m /\ forall a, 0 <= a < len m -> ndef_area L a = false -> get m' a = get m a.
Proof.
  intros Hwf HLay. destruct (t1_wf_layout_wfL hr0 m Hwf) as (L' & HL). pose proof (wfL1_layout _ _ _ _ HL HLay). subst L'.
  destruct (t1_write_cmds hr0 m L d HL) as (_ & T). cbv zeta.
  split; [unfold len; rewrite (proj1 T); reflexivity|]. intros a Ha Har.
  apply (touch_same L _ _ a T); [lia | right; exact Har].
Qed.

Theorem t1_write_units hr0 m d L : t1_wf_layout hr0 m -> t1_layout hr0 m = Some L ->
  forall w, In w (snd (t1_write hr0 m d)) ->
    len (snd w) = Z.of_nat (t1_unit hr0) /\ fst w mod Z.of_nat (t1_unit hr0) = 0 /\
    0 <= fst w /\ fst w + Z.of_nat (t1_unit hr0) <= len m /\
    exists x, fst w <= x < fst w + Z.of_nat (t1_unit hr0) /\ ndef_area L x = true.
Proof.
  intros Hwf HLay w Hw. destruct (t1_wf_layout_wfL hr0 m Hwf) as (L' & HL). pose proof (wfL1_layout _ _ _ _ HL HLay). subst L'.
  destruct (t1_write_cmds hr0 m L d HL) as (Hok & _). destruct (Hok w Hw) as (H1 & H2 & H3 & H4 & x & Hx & _ & Hx2).
  repeat split; try assumption. exists x. auto.
Qed.
