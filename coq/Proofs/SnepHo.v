(* C06 - connection handover: request and select message through MIU slicing and
   decode-until-complete reassembly, for every interleaving and channel implementation. *)
From Coq Require Import ZArith List Bool Lia ZifyBool.
From NV Require Import Base.Result Base.Bytes Base.PyPrims Model.Snep Proofs.SnepChunks Proofs.SnepSched Proofs.Snep.
Import ListNotations.
Open Scope Z_scope.

Section HoProofs.
  Variable A : Type.
  Variable app_ho : A -> list Z -> A * list Z.
  Variables complete is_hr : list Z -> bool.
  Variable miu_cs miu_sc : Z.
  Hypothesis Hmiu_cs : 1 <= miu_cs.
  Hypothesis Hmiu_sc : 1 <= miu_sc.

  Notation hreact0 := (ho_react A app_ho complete is_hr miu_sc true).
  Notation hreact := (ho_sys_react A app_ho complete is_hr miu_sc true).
  Notation creact := (cl_react complete miu_cs).
  Notation mkh := (Build_hsrv A).
  Notation mkc := Build_csess.
  Notation G := (mkg csess (hsrv A)).
  Notation reachH := (reach csess (hsrv A) creact hreact miu_cs miu_sc).

  (* the premise on ndeflib's strict decoder: a non-empty proper prefix of the message is
     rejected (DecodeError or ValueError: it is not complete) *)
  Definition prefix_free (m : list Z) : Prop :=
    forall p q, p <> [] -> q <> [] -> m = p ++ q -> complete p = false.

  Lemma prefix_incomplete msg data m q :
    prefix_free msg -> m <> [] -> q <> [] -> msg = data ++ m ++ q -> complete (data ++ m) = false.
  Proof.
    intros Hpf Hm Hq E.
    apply (Hpf _ q); [destruct data; [exact Hm | discriminate] | exact Hq | rewrite <- app_assoc; exact E].
  Qed.

  Lemma hreact_wrap s i : ho_server_stopped (fst (hreact0 s i)) = false ->
    hreact s i = (fst (hreact0 s i), map IMsg (snd (hreact0 s i))).
  Proof. intro H. unfold ho_sys_react. rewrite H. cbn [andb]. rewrite app_nil_r. reflexivity. Qed.

  Lemma hfeed_all msg a log fs : prefix_free msg -> msg <> [] -> complete msg = true -> is_hr msg = true ->
    Forall (fun c => c <> []) fs -> concat fs = msg ->
    feed hreact (mkh (HAccum []) a log) (map IMsg fs) =
      (mkh (HAccum []) (fst (app_ho a msg)) (log ++ [CallHo msg]), map IMsg (chunks miu_sc (snd (app_ho a msg)))).
  Proof.
    intros Hpf Hnz Hc Hhr Hne Hcat.
    assert (Hlen : forall data m : list Z, m <> [] -> (len (data ++ m) =? 0) = false).
    { intros data m Hm. apply len_pos in Hm. rewrite len_app. pose proof (len_nonneg data). lia. }
    apply (feed_fragments hreact (fun data => mkh (HAccum data) a log) msg);
      [ | | exact Hne | intro E; subst fs; symmetry in Hcat; contradiction | symmetry; exact Hcat].
    - intros data m q Hm Hq E.
      rewrite hreact_wrap; unfold ho_react; cbn [hv_st hv_app hv_log];
        rewrite (Hlen data m Hm), (prefix_incomplete msg data m q Hpf Hm Hq E); reflexivity.
    - intros data m Hm E.
      rewrite hreact_wrap; unfold ho_react, ho_process; cbn [hv_st hv_app hv_log];
        rewrite (Hlen data m Hm), <- E, Hc, Hhr; reflexivity.
  Qed.

  Lemma cfeed_all msg p r fs : prefix_free msg -> complete msg = true ->
    Forall (fun c => c <> []) fs -> fs <> [] -> concat fs = msg ->
    feed creact (mkc (CHoRecv []) p r) (map IMsg fs) =
      (fst (start_ops miu_cs p (r ++ [ROctets msg])), snd (start_ops miu_cs p (r ++ [ROctets msg]))).
  Proof.
    intros Hpf Hc Hne Hnil Hcat.
    apply (feed_fragments creact (fun data => mkc (CHoRecv data) p r) msg);
      [ | | exact Hne | exact Hnil | symmetry; exact Hcat].
    - intros data m q Hm Hq E. apply (creact_go _ _ _ _ _ _ _ []); [ | discriminate | discriminate].
      cbn [client_react]. rewrite (prefix_incomplete msg data m q Hpf Hm Hq E). reflexivity.
    - intros data m _ E. rewrite (creact_done _ _ _ _ _ _ (ROctets msg) []); [reflexivity | | discriminate].
      cbn [client_react]. rewrite <- E, Hc. reflexivity.
  Qed.

  Definition BH (ops : list cop) (results : list cres) (a : A) (log : list call) :=
    G (fst (start_ops miu_cs ops results)) (mkh (HAccum []) a log) (snd (start_ops miu_cs ops results)) [] false.

  Lemma ho_init_BH a ops : ho_init A list_chan miu_cs a ops = BH ops [] a [].
  Proof. unfold ho_init, ginit, BH, mkg. rewrite push_all_list, start_fits by lia. reflexivity. Qed.

  Lemma ho_op req ops results a log :
    req <> [] -> prefix_free req -> complete req = true -> is_hr req = true ->
    let sel := snd (app_ho a req) in
    sel <> [] -> prefix_free sel -> complete sel = true ->
    reachH (BH (OpHo req :: ops) results a log)
           (BH ops (results ++ [ROctets sel]) (fst (app_ho a req)) (log ++ [CallHo req])).
  Proof.
    intros Hreq Hpf Hc Hhr sel Hsel Hpfs Hcs.
    unfold BH at 1. cbn [start_ops client_start fst snd].
    eapply reach_trans; [apply reach_burst_server|].
    rewrite (hfeed_all req a log _ Hpf Hreq Hc Hhr); [ | apply chunks_nonempty; lia | apply chunks_concat; lia].
    cbn [fst snd app orb]. fold sel. rewrite atb_map by (apply chunks_le; lia).
    eapply reach_trans; [apply reach_burst_client|].
    rewrite (cfeed_all sel ops results _ Hpfs Hcs).
    - cbn [fst snd app orb]. rewrite start_fits by lia. apply reach_refl.
    - apply chunks_nonempty; lia.
    - intro E. apply chunks_eq_nil in E. contradiction.
    - apply chunks_concat; lia.
  Qed.

  Fixpoint ho_session_ok (a : A) (ops : list cop) : Prop :=
    match ops with
    | [] => True
    | OpHo req :: r =>
        req <> [] /\ prefix_free req /\ complete req = true /\ is_hr req = true /\
        snd (app_ho a req) <> [] /\ prefix_free (snd (app_ho a req)) /\ complete (snd (app_ho a req)) = true /\
        ho_session_ok (fst (app_ho a req)) r
    | _ :: _ => False
    end.
  Fixpoint ho_results (a : A) (ops : list cop) : list cres :=
    match ops with
    | OpHo req :: r => ROctets (snd (app_ho a req)) :: ho_results (fst (app_ho a req)) r
    | _ => []
    end.
  Fixpoint ho_log (a : A) (ops : list cop) : list call :=
    match ops with
    | OpHo req :: r => CallHo req :: ho_log (fst (app_ho a req)) r
    | _ => []
    end.
  Fixpoint ho_app (a : A) (ops : list cop) : A :=
    match ops with
    | OpHo req :: r => ho_app (fst (app_ho a req)) r
    | _ => a
    end.

  Lemma ho_session_run : forall ops results a log, ho_session_ok a ops ->
    reachH (BH ops results a log)
           (BH [] (results ++ ho_results a ops) (ho_app a ops) (log ++ ho_log a ops)).
  Proof.
    induction ops as [|op ops IH]; intros results a log Hok.
    - cbn [ho_results ho_log ho_app]. rewrite !app_nil_r. apply reach_refl.
    - destruct op as [msg|o acc|req]; cbn [ho_session_ok] in Hok; try contradiction.
      destruct Hok as (H1 & H2 & H3 & H4 & H5 & H6 & H7 & Hok).
      eapply reach_trans; [exact (ho_op req ops results a log H1 H2 H3 H4 H5 H6 H7)|].
      specialize (IH (results ++ [ROctets (snd (app_ho a req))]) _ (log ++ [CallHo req]) Hok).
      cbn [ho_results ho_log ho_app]. rewrite <- !app_assoc in IH. exact IH.
  Qed.

  Definition hfinal (results : list cres) (a : A) (log : list call) :=
    G (mkc CIdle [] results) (mkh HClosed a log) [] [] false.
  Lemma hclose_run results a log : reachH (BH [] results a log) (hfinal results a log).
  Proof. exists [false]. reflexivity. Qed.

  Section AnyChannel.
    Variable C : chan_ops.
    Variable Cok : chan_ok C.
    Notation runC := (run csess (hsrv A) creact hreact C miu_cs miu_sc).

    Definition ho_ends_in (a : A) (ops : list cop) (results : list cres) (a' : A) (log : list call) : Prop :=
      exists n, forall sch g, runC sch (ho_init A C miu_cs a ops) = Some g ->
        exists sch' g', (length sch + length sch' = n)%nat /\ runC sch' g = Some g' /\
          g_c g' = mkc CIdle [] results /\ g_s g' = mkh HClosed a' log /\
          qlist C Cok (g_cs g') = [] /\ qlist C Cok (g_sc g') = [] /\ g_err g' = false.

    Lemma ho_ends_from_run a ops results a' log :
      reachH (BH ops [] a []) (BH [] results a' log) -> ho_ends_in a ops results a' log.
    Proof.
      intro H. apply (always_ends_like csess (hsrv A) creact hreact miu_cs miu_sc C Cok).
      fold (ho_init A list_chan miu_cs a ops). rewrite ho_init_BH.
      eapply reach_trans; [exact H | apply hclose_run].
    Qed.

    Theorem handover_session_exact a ops : ho_session_ok a ops ->
      ho_ends_in a ops (ho_results a ops) (ho_app a ops) (ho_log a ops).
    Proof. intro Hok. apply ho_ends_from_run, (ho_session_run ops [] a [] Hok). Qed.

    (* one exchange: the request reaches the server application exactly once, octet for octet,
       and the select message it answers with reaches the client octet for octet *)
    Theorem handover_exact a req :
      req <> [] -> prefix_free req -> complete req = true -> is_hr req = true ->
      snd (app_ho a req) <> [] -> prefix_free (snd (app_ho a req)) -> complete (snd (app_ho a req)) = true ->
      ho_ends_in a [OpHo req] [ROctets (snd (app_ho a req))] (fst (app_ho a req)) [CallHo req].
    Proof.
      intros. apply (handover_session_exact a [OpHo req]). cbn [ho_session_ok]. repeat (split; [assumption|]). exact I.
    Qed.
  End AnyChannel.

  Theorem handover_run_cp_ends a ops : ho_session_ok a ops ->
    exists n, forall k, (n <= k)%nat ->
      run_cp csess (hsrv A) creact hreact list_chan miu_cs miu_sc k (ho_init A list_chan miu_cs a ops) =
      hfinal (ho_results a ops) (ho_app a ops) (ho_log a ops).
  Proof.
    intro Hok.
    destruct (reach_trans _ _ _ _ _ _ _ _ _ (ho_session_run ops [] a [] Hok) (hclose_run _ _ _)) as [sch H].
    exists (length sch). intros k Hk. rewrite ho_init_BH.
    eapply run_cp_ends; [reflexivity | exact H | apply quiescent_empty | exact Hk].
  Qed.
End HoProofs.

(* the premise is satisfiable: a decoder that accepts exactly one message *)
Lemma prefix_free_exact (m : list Z) : prefix_free (fun l => list_eqb l m) m.
Proof.
  intros p q Hp Hq Hm.
  destruct (list_eqb p m) eqn:E; [|reflexivity]. apply list_eqb_eq in E. subst p.
  apply (f_equal (@length Z)) in Hm. rewrite app_length in Hm. destruct q; [congruence | cbn in Hm; lia].
Qed.

(* HandoverServer.serve without the buffer reset (reset = false): a decoder that, like ndeflib,
   stops at the record with the ME flag and ignores what follows; two requests that each meet
   the premises of handover_exact; the second one is not delivered intact. *)
Definition w_starts (p l : list Z) : bool := list_eqb (firstn (length p) l) p.
Definition w_complete (l : list Z) : bool := w_starts [1; 2; 3] l || w_starts [4; 5; 6] l || w_starts [7; 8] l.
Definition w_app (a : nat) (_ : list Z) : nat * list Z := (S a, [7; 8]).

Lemma handover_unrepaired_refuted :
  let g := run_cp csess (hsrv nat) (cl_react w_complete 128)
             (ho_sys_react nat w_app w_complete (fun _ => true) 128 false) list_chan 128 128 20
             (ho_init nat list_chan 128 O [OpHo [1; 2; 3]; OpHo [4; 5; 6]]) in
  hv_log (g_s g) = [CallHo [1; 2; 3]; CallHo [1; 2; 3; 4; 5; 6]] /\
  hv_log (g_s g) <> [CallHo [1; 2; 3]; CallHo [4; 5; 6]].
Proof. vm_compute. split; [reflexivity | discriminate]. Qed.
