(* C08, the command layer below the Type 2 / Type 1 readers (Model/TagLoad.v): for EVERY script of answers - byte strings
   of any length, no answer, transmission errors - the memory reader terminates with an explicit bound on the frames it
   sends, never crashes, and holds SOME image of bytes afterwards; composed with the image-level theorems of
   Proofs/TagSafeTlv.v / TagSafeCmd.v this gives tag.ndef against arbitrary responses. *)
From Coq Require Import ZArith List Bool Lia ZifyBool.
From NV Require Import Base.Result Base.Bytes Model.TlvMem Model.IsoDep Model.TagAct Model.TagReadAny Model.TagLoad
  Proofs.TlvLib Proofs.TagSafeTlv Proofs.TagSafeCmd.
Import ListNotations.
Open Scope Z_scope.
Ltac Zify.zify_post_hook ::= Z.to_euclidean_division_equations.

Definition rx_ok (a : aresult) : Prop := match a with ARx d => bytes_ok d | _ => True end.
Definition wire_ok (w : wire) : Prop := Forall rx_ok (w_script w).

Lemma tl_ok l : Forall rx_ok l -> Forall rx_ok (tl l).
Proof. destruct l; cbn; [auto|]. intro H; inversion H; auto. Qed.
Lemma hd_ok l d : Forall rx_ok l -> hd_x l = ARx d -> bytes_ok d.
Proof. destruct l as [|a l]; cbn; [discriminate|]. intros H E. inversion H; subst. exact H2. Qed.

Lemma sent_one w f : nsent (mkWire (tl (w_script w)) (f :: w_sent w)) = nsent w + 1.
Proof. unfold nsent. cbn [w_sent]. rewrite len_cons. lia. Qed.

Lemma xchg_cases : forall tries w f, wire_ok w ->
  wire_ok (snd (xchg tries w f)) /\ nsent w <= nsent (snd (xchg tries w f)) <= nsent w + Z.of_nat tries /\
  (forall d, fst (xchg tries w f) = Some d -> bytes_ok d).
Proof.
  induction tries as [|t IH]; intros w f H.
  - cbn [xchg fst snd]. split; [exact H|]. split; [lia | discriminate].
  - cbn [xchg]. pose proof (sent_one w f) as N1.
    assert (H1 : wire_ok (mkWire (tl (w_script w)) (f :: w_sent w))) by (apply tl_ok, H).
    destruct (hd_x (w_script w)) as [d| | |] eqn:E.
    2-4: destruct (IH _ f H1) as (A & B & C); split; [exact A|]; split; [lia | exact C].
    cbn [fst snd]. split; [exact H1|]. split; [lia|]. intros d0 E0. injection E0 as <-. exact (hd_ok _ _ H E).
Qed.

(* anything but the one byte 0A as first answer is the default branch *)
Lemma ack_cases (r : option (list Z)) :
  r = Some [10] \/ forall A (x y : A), match r with Some [10] => x | _ => y end = y.
Proof.
  destruct r as [[|b [|? ?]]|]; auto; destruct b as [|p|p]; auto; do 4 (destruct p as [p|p|]; auto).
Qed.
Lemma t2_select_cases sector cur w : wire_ok w -> 0 <= sector <= 255 ->
  let '(st, c1, w1) := t2_select sector cur w in
  wire_ok w1 /\
  (st = LDone /\ c1 = sector /\ nsent w1 <= nsent w + (if sector =? cur then 0 else 4) \/
   st = LFail /\ c1 = cur /\ nsent w1 <= nsent w + 4).
Proof.
  intros H Hs. unfold t2_select. destruct (Z.eqb_spec sector cur) as [->|Hne]; [cbv beta iota; split; [exact H | left; repeat split; lia]|].
  replace ((sector <? 0) || (255 <? sector)) with false by lia.
  destruct (xchg_cases 3 w [194; 255] H) as (O1 & N1 & _).
  destruct (xchg 3 w [194; 255]) as [r w1]. cbn [fst snd] in *.
  destruct (ack_cases r) as [-> | ->]; [|split; [exact O1 | right; repeat split; lia]].
  pose proof (sent_one w1 [sector; 0; 0; 0]) as N2.
  destruct (hd_x (w_script w1)) as [a| | |]; (split; [apply tl_ok, O1|]).
  - right. repeat split; lia.
  - (* ATimeout is the passive acknowledge *) left. repeat split; lia.
  - right. repeat split; lia.
  - right. repeat split; lia.
Qed.

Lemma chunk_arith n stop : 0 <= n < stop -> stop <= T2_MAX ->
  0 <= n / 1024 <= 255 /\ n / 1024 <= (n + 16) / 1024 /\ n / 1024 <= (stop - 1) / 1024 /\ 1 <= (stop - n + 15) / 16.
Proof. unfold T2_MAX. lia. Qed.
Lemma chunk_next n stop : (stop - (n + 16) + 15) / 16 = (stop - n + 15) / 16 - 1.
Proof. lia. Qed.

Lemma t2_load_done fuel w cur acc stop : stop <= len acc -> t2_load fuel w cur acc stop = (LDone, acc, cur, w).
Proof. intro H. destruct fuel; cbn [t2_load]; replace (stop <=? len acc) with true by lia; reflexivity. Qed.
(* the loader: no crash below 256 KiB, no hang when the fuel covers the chunks, at most 3 frames per chunk and 4 per
   sector change, the image extends what was there and consists of bytes *)
Lemma t2_load_spec : forall fuel w cur acc stop, wire_ok w -> bytes_ok acc -> stop <= T2_MAX ->
  0 <= cur <= len acc / 1024 -> (stop - len acc + 15) / 16 <= Z.of_nat fuel ->
  let '(st, em, c', w') := t2_load fuel w cur acc stop in
  (st = LDone \/ st = LFail) /\ bytes_ok em /\ (st = LDone -> stop <= len em) /\
  cur <= c' /\ c' <= Z.max cur ((stop - 1) / 1024) /\
  nsent w' <= nsent w + 3 * Z.max 0 ((stop - len acc + 15) / 16) + 4 * (c' - cur) + 4.
Proof.
  induction fuel as [|f IH]; intros w cur acc stop H Hb Hm Hc Hf; pose proof (len_nonneg acc) as Hl;
    (destruct (Z.le_gt_cases stop (len acc)) as [E | E];
     [rewrite t2_load_done by exact E; clear Hc Hf; repeat split; auto; lia|]).
  - unfold T2_MAX in *. lia.
  - cbn [t2_load]. replace (stop <=? len acc) with false by lia.
    destruct (chunk_arith (len acc) stop ltac:(lia) Hm) as (A1 & A2 & A3 & A4).
    (* from here on the quotients are variables: lia is slow on / in a context of this size *)
    set (s := len acc / 1024) in *. set (q := (stop - len acc + 15) / 16) in *. set (s1 := (stop - 1) / 1024) in *.
    assert (Fail : forall c w', cur <= c <= Z.max cur s1 -> nsent w' <= nsent w + 3 * Z.max 0 q + 4 * (c - cur) + 4 ->
      let '(st, em, c', w') := (LFail, acc, c, w') in
      (st = LDone \/ st = LFail) /\ bytes_ok em /\ (st = LDone -> stop <= len em) /\
      cur <= c' /\ c' <= Z.max cur s1 /\ nsent w' <= nsent w + 3 * Z.max 0 q + 4 * (c' - cur) + 4).
    { intros c w' Hc' Hn. split; [right; reflexivity|]. split; [exact Hb|]. split; [discriminate|].
      split; [apply Hc'|]. split; [apply Hc' | exact Hn]. }
    pose proof (t2_select_cases s cur w H A1) as S. destruct (t2_select s cur w) as [[st c1] w1].
    destruct S as (O1 & [(-> & -> & N1) | (-> & -> & N1)]); [|apply Fail; clearbody s q s1; lia].
    assert (N1' : nsent w1 <= nsent w + 4 * (s - cur)) by (clearbody s; destruct (Z.eqb_spec s cur); lia). clear N1.
    destruct (xchg_cases 3 w1 [48; (len acc / 4) mod 256] O1) as (O2 & N2 & B2).
    destruct (xchg 3 w1 [48; (len acc / 4) mod 256]) as [r w2]. cbn [fst snd] in *.
    destruct r as [d|]; [|apply Fail; clearbody s q s1; lia].
    destruct (Z.eqb_spec (len d) 16) as [E16|]; [|apply Fail; clearbody s q s1; lia].
    specialize (IH w2 s (acc ++ d) stop O2). rewrite len_app, E16, chunk_next in IH. fold q s1 in IH.
    destruct (t2_load f w2 s (acc ++ d) stop) as [[[st em] c'] w'].
    set (s' := (len acc + 16) / 1024) in *. clearbody s q s1 s'.
    destruct IH as (I1 & I2 & I3 & I4 & I5 & I6); [apply bytes_ok_app; auto | exact Hm | lia | lia |].
    repeat split; auto; lia.
Qed.

(* a fresh memory reader asked for [stop] bytes *)
Lemma t2_load_fresh script stop : Forall rx_ok script -> stop <= T2_MAX ->
  let '(st, em, _, w') := t2_load t2_fuel (mkWire script []) 0 [] stop in
  (st = LDone \/ st = LFail) /\ bytes_ok em /\ nsent w' <= t2_wire_max stop.
Proof.
  intros H Hm. pose proof (t2_load_spec t2_fuel (mkWire script []) 0 [] stop H ltac:(constructor) Hm) as S.
  destruct (t2_load t2_fuel (mkWire script []) 0 [] stop) as [[[st em] c'] w'].
  change (nsent (mkWire script [])) with 0 in S. change (len []) with 0 in S.
  destruct S as (Hst & Hb & _ & _ & Hc & Hn); [cbn; lia | unfold t2_fuel, T2_MAX in *; lia |].
  unfold t2_wire_max. split; [exact Hst|]. split; [exact Hb | lia].
Qed.
Lemma t2_image_bytes script : Forall rx_ok script -> bytes_ok (t2_image script).
Proof.
  intro H. unfold t2_image. pose proof (t2_load_fresh script T2_MAX H ltac:(lia)) as S.
  destruct (t2_load t2_fuel (mkWire script []) 0 [] T2_MAX) as [[[st em] c'] w']. apply S.
Qed.

(* the demand of the reader on any image: below 256 KiB *)
Lemma t2_demand_small em : bytes_ok em -> snd (t2_read_d em) <= t2_demand_bound 2056.
Proof.
  intro Hb. destruct (rd_cases em 14) as [[b14 E14] | [_ Hl]]; [lia | |].
  - pose proof (t2_read_demand_bound em b14 Hb E14). pose proof (rd_byte _ _ _ Hb E14). unfold t2_demand_bound in *. lia.
  - pose proof (t2_demand_le em Hb). unfold t2_demand_bound. lia.
Qed.

(* tag.ndef of a Type 2 tag against ANY response script: no NDEF, or an NDEF state that is sound on the image the memory
   reader built out of the answers; the result is Ok (no Crash, no Hang); at most t2_wire_max(demand) frames, which is
   at most 32983 for the largest data area *)
Theorem t2_read_any_responses script : Forall rx_ok script ->
  let '(r, frames) := t2_read_responses script in
  (r = Ok None \/ exists L, r = Ok (Some L) /\ tlv_sound (t2_image script) 16 L /\ l_dend L <= 2056) /\
  len frames <= t2_wire_max (snd (t2_read_d (t2_image script))) /\
  t2_wire_max (snd (t2_read_d (t2_image script))) <= 32983.
Proof.
  intro H. unfold t2_read_responses.
  pose proof (t2_image_bytes script H) as Hb. set (em := t2_image script) in *.
  pose proof (t2_read_d_fst em) as Ef. pose proof (t2_demand_small em Hb) as Hd.
  destruct (t2_read_d em) as [r d]. cbn [fst snd] in *.
  assert (Hd2 : d <= 172301) by (unfold t2_demand_bound in Hd; lia).
  pose proof (t2_load_fresh script d H ltac:(unfold T2_MAX; lia)) as S.
  destruct (t2_load t2_fuel (mkWire script []) 0 [] d) as [[[st em'] c'] w'].
  destruct S as (Hst & _ & Hn).
  split; [|split].
  - assert (Er : match st with LCrash c => Crash c | LHang => Hang | _ => r end = r) by (destruct Hst as [-> | ->]; reflexivity).
    rewrite Er, Ef. apply t2_read_safe, Hb.
  - unfold len. rewrite rev_length. exact Hn.
  - unfold t2_wire_max. lia.
Qed.

Lemma t1_segs_spec : forall fuel w uid acc stop, wire_ok w -> bytes_ok acc -> Z.max 1 (17 - len acc / 128) <= Z.of_nat fuel ->
  let '(st, em, w') := t1_segs fuel w uid acc stop in
  (st = LDone \/ st = LFail) /\ bytes_ok em /\ nsent w' <= nsent w + 3 * Z.max 0 (16 - len acc / 128).
Proof.
  induction fuel as [|f IH]; intros w uid acc stop H Hb Hf; pose proof (len_nonneg acc) as Hl.
  - lia.
  - cbn [t1_segs]. destruct (stop <=? len acc); [repeat split; auto; lia|].
    destruct (15 <? len acc / 128) eqn:E15; [repeat split; auto; lia|].
    destruct (xchg_cases 3 w (rseg_cmd uid (len acc / 128)) H) as (O1 & N1 & B1).
    destruct (xchg 3 w (rseg_cmd uid (len acc / 128))) as [r w1]. cbn [fst snd] in *.
    destruct r as [r|]; [|repeat split; auto; lia].
    destruct (len r <? 129) eqn:E129; [repeat split; auto; lia|].
    assert (Ls : len (slice r 1 129) = 128).
    { unfold slice, len in *. rewrite firstn_length, skipn_length. lia. }
    specialize (IH w1 uid (acc ++ slice r 1 129) stop O1). rewrite len_app, Ls in IH.
    destruct (t1_segs f w1 uid (acc ++ slice r 1 129) stop) as [[st em] w'].
    destruct IH as (I1 & I2 & I3); [apply bytes_ok_app; split; [auto | apply bytes_ok_slice, B1; reflexivity] | lia |].
    repeat split; auto. lia.
Qed.

Lemma t1_load_spec script uid stop : Forall rx_ok script ->
  let '(st, hdr, em, w) := t1_load script uid stop in
  (st = LDone \/ st = LFail) /\ (hdr = [] \/ exists h0 h1, hdr = [h0; h1]) /\ bytes_ok em /\ nsent w <= t1_wire_max.
Proof.
  intro H. unfold t1_load, t1_wire_max.
  destruct (xchg_cases 3 (mkWire script []) (rall_cmd uid) H) as (O1 & N1 & B1).
  destruct (xchg 3 (mkWire script []) (rall_cmd uid)) as [r w1]. cbn [fst snd] in *.
  change (nsent {| w_script := script; w_sent := [] |}) with 0 in N1.
  destruct r as [r|]; [|repeat split; auto; try (constructor; fail); lia].
  destruct (len r <? 2) eqn:E2; [repeat split; auto; try (constructor; fail); lia|].
  assert (Hh : exists h0 h1, firstn 2 r = [h0; h1]).
  { destruct r as [|h0 [|h1 r]]; cbn in E2; try discriminate; cbn; eauto. }
  assert (Hd0 : bytes_ok (skipn 2 r)) by (apply bytes_ok_skipn, B1; reflexivity).
  pose proof (len_nonneg (skipn 2 r)) as Hl.
  destruct ((120 <? stop) && (len (skipn 2 r) =? 120)) eqn:E8.
  - destruct (xchg_cases 3 w1 (read8_cmd uid 15) O1) as (O2 & N2 & B2).
    destruct (xchg 3 w1 (read8_cmd uid 15)) as [r8 w2]. cbn [fst snd] in *.
    destruct r8 as [r8|]; [|repeat split; auto; lia].
    pose proof (t1_segs_spec 17 w2 uid (skipn 2 r ++ slice r8 1 9) stop O2) as S.
    destruct (t1_segs 17 w2 uid (skipn 2 r ++ slice r8 1 9) stop) as [[st em] w3].
    pose proof (len_nonneg (skipn 2 r ++ slice r8 1 9)).
    destruct S as (S1 & S2 & S3); [apply bytes_ok_app; split; [auto | apply bytes_ok_slice, B2; reflexivity] | change (Z.of_nat 17) with 17; lia |].
    repeat split; auto. lia.
  - pose proof (t1_segs_spec 17 w1 uid (skipn 2 r) stop O1 Hd0) as S.
    destruct (t1_segs 17 w1 uid (skipn 2 r) stop) as [[st em] w3].
    destruct S as (S1 & S2 & S3); [change (Z.of_nat 17) with 17; lia|]. repeat split; auto. lia.
Qed.

(* tag.ndef of a Type 1 tag against ANY response script: no NDEF, or an NDEF state that is sound on the image the memory
   reader built; the result is Ok; at most 54 frames (RALL, READ8, 16 x RSEG, each sent up to three times) *)
Theorem t1_read_any_responses uid script : Forall rx_ok script ->
  let '(r, frames) := t1_read_responses uid script in
  (r = Ok None \/ exists L, r = Ok (Some L) /\ tlv_sound (t1_image uid script) 12 L /\ l_dend L <= 2048) /\
  len frames <= t1_wire_max.
Proof.
  intro H. unfold t1_read_responses, t1_image.
  pose proof (t1_load_spec script uid T1_ALL H) as S.
  destruct (t1_load script uid T1_ALL) as [[[st hdr] em] w].
  destruct S as (Hst & Hh & Hb & Hn).
  destruct hdr as [|hr0 hdr].
  { split; [left; reflexivity|]. unfold len. rewrite rev_length. exact Hn. }
  pose proof (t1_read_img_safe hr0 em Hb) as Hs.
  destruct (t1_read_img hr0 em) as [r d]. cbn [fst] in Hs.
  pose proof (t1_load_spec script uid (Z.max 1 d) H) as S2.
  destruct (t1_load script uid (Z.max 1 d)) as [[[st2 hdr2] em2] w2].
  destruct S2 as (Hst2 & _ & _ & Hn2).
  assert (Er : match st2 with LCrash c => Crash c | LHang => Hang | _ => r end = r) by (destruct Hst2 as [-> | ->]; reflexivity).
  rewrite Er. split; [exact Hs|]. unfold len. rewrite rev_length. exact Hn2.
Qed.
