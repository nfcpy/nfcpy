(* decode_encode: decoding the encoding of a PDU with valid field values yields that PDU (all 15 classes). *)
From Coq Require Import ZArith List Bool Lia ZifyBool.
From NV Require Import Base.Result Base.Bytes Model.Pdu Proofs.PduBase Proofs.PduWin Proofs.PduLen.
Import ListNotations.
Open Scope Z_scope.
Ltac Zify.zify_post_hook ::= Z.to_euclidean_division_equations.

Lemma header_rt pt d s : 0 <= pt < 16 -> 0 <= d <= 63 -> 0 <= s <= 63 ->
  exists a b, encode_header pt d s = EOk [a; b] /\ byte_ok a /\ byte_ok b /\
              Z.shiftr a 2 = d /\ Z.land b 63 = s /\ Z.land (Z.shiftr (a * 256 + b) 6) 15 = pt.
Proof.
  intros Hp Hd Hs. unfold encode_header. rewrite header_value by lia.
  replace ((d <? 0) || (s <? 0)) with false by lia. replace ((d >? 63) || (s >? 63)) with false by lia.
  set (v := d * 1024 + pt * 64 + s). unfold in_range. replace ((0 <=? v) && (v <=? 65535)) with true by lia.
  exists (v / 256), (v mod 256). split; [reflexivity|].
  rewrite shr2, land63, land15, shr6. unfold byte_ok, v. repeat split; lia.
Qed.

Lemma rawB_ok v : 0 <= v <= 255 -> rawB v = EOk [v].
Proof. intro. unfold rawB, in_range. replace ((0 <=? v) && (v <=? 255)) with true by lia. reflexivity. Qed.
Lemma encode_nheader_ok pt d s ns nr h : encode_header pt d s = EOk h -> 0 <= ns <= 15 -> 0 <= nr <= 15 ->
  encode_nheader pt d s ns nr = EOk (h ++ [ns * 16 + nr]).
Proof.
  intros Hh Hs Hr. unfold encode_nheader. rewrite Hh. cbn [ebind].
  replace ((ns <? 0) || (nr <? 0)) with false by lia. replace ((ns >? 15) || (nr >? 15)) with false by lia.
  rewrite lor_nibbles by lia. reflexivity.
Qed.

Definition tlv_T (t : tlv) : Z :=
  match t with
  | TVersion _ => 1 | TMiux _ => 2 | TWks _ => 3 | TLto _ => 4 | TRw _ => 5 | TSn _ => 6 | TOpt _ => 7
  | TSdreq _ _ => 8 | TSdres _ _ => 9 | TEcpk _ => 10 | TRn _ => 11 | TOther T _ => T
  end.
Definition tlv_V (t : tlv) : list Z :=
  match t with
  | TVersion v | TLto v | TRw v | TOpt v => [v]
  | TMiux v | TWks v => [v / 256; v mod 256]
  | TSn b | TEcpk b | TRn b | TOther _ b => b
  | TSdreq tid sn => tid :: sn
  | TSdres a b => [a; b]
  end.
Definition tlv_bytes (t : tlv) : list Z := tlv_T t :: len (tlv_V t) :: tlv_V t.
Definition tlv_ok (t : tlv) : Prop :=
  match t with
  | TVersion v | TLto v => 0 <= v <= 255
  | TMiux v => 0 <= v <= 2047
  | TWks v => 0 <= v <= 65535
  | TRw v => 0 <= v <= 15
  | TOpt v => 0 <= v <= 7
  | TSn b | TEcpk b | TRn b => bytes_ok b /\ len b <= 255
  | TSdreq tid sn => 0 <= tid <= 255 /\ bytes_ok sn /\ len sn <= 254
  | TSdres a b => 0 <= a <= 255 /\ 0 <= b <= 255
  | TOther _ _ => False
  end.

Lemma packB_ok v : 0 <= v <= 255 -> packB v = EOk [v].
Proof. intro. unfold packB, in_range. replace ((0 <=? v) && (v <=? 255)) with true by lia. reflexivity. Qed.
Lemma packH_ok v : 0 <= v <= 65535 -> packH v = EOk [v / 256; v mod 256].
Proof. intro. unfold packH, in_range. replace ((0 <=? v) && (v <=? 65535)) with true by lia. reflexivity. Qed.

Lemma param_encode_ok t : tlv_ok t -> param_encode t = EOk (tlv_bytes t).
Proof.
  destruct t as [v|v|v|v|v|b|v|tid sn|tid sap|b|b|T b]; cbn [tlv_ok param_encode]; intro H.
  - rewrite packB_ok by lia. reflexivity.
  - rewrite packH_ok by lia. reflexivity.
  - rewrite packH_ok by lia. reflexivity.
  - rewrite packB_ok by lia. reflexivity.
  - rewrite packB_ok by lia. reflexivity.
  - destruct H. replace (len b >? 255) with false by lia. reflexivity.
  - rewrite packB_ok by lia. reflexivity.
  - destruct H as (? & ? & ?). replace (len sn >? 254) with false by lia. rewrite packB_ok by lia.
    unfold tlv_bytes. cbn [tlv_T tlv_V ebind app]. rewrite len_cons. reflexivity.
  - rewrite !packB_ok by lia. reflexivity.
  - destruct H. replace (len b >? 255) with false by lia. reflexivity.
  - destruct H. replace (len b >? 255) with false by lia. reflexivity.
  - contradiction.
Qed.

Lemma tlv_interp_ok t : tlv_ok t -> tlv_interp (tlv_T t) (len (tlv_V t)) (tlv_V t) = Ok t.
Proof.
  destruct t; cbn [tlv_ok tlv_T tlv_V]; intro H; try reflexivity; try contradiction.
  all: unfold tlv_interp; cbn [Z.eqb Pos.eqb len length Z.of_nat Pos.of_succ_nat Pos.succ negb];
    rewrite ?land2047, ?land15, ?land7; f_equal; f_equal; lia.
Qed.

Lemma tlv_V_ok t : tlv_ok t -> bytes_ok (tlv_V t) /\ 0 <= len (tlv_V t) <= 255.
Proof.
  destruct t; cbn [tlv_ok tlv_V]; intro H;
    try (split; [repeat constructor; unfold byte_ok; lia | cbn; lia]);
    try (destruct H as [Hb Hl]; split; [exact Hb | pose proof (len_nonneg b); lia]).
  - destruct H as (Ht & Hb & Hl). split; [constructor; [unfold byte_ok; lia | exact Hb] | rewrite len_cons; pose proof (len_nonneg sn); lia].
Qed.
Lemma tlv_T_ok t : tlv_ok t -> 0 <= tlv_T t < 256.
Proof. destruct t; cbn; intro; try lia. Qed.
Lemma tlv_bytes_ok t : tlv_ok t -> bytes_ok (tlv_bytes t).
Proof.
  intro H. destruct (tlv_V_ok t H) as [Hv Hl]. pose proof (tlv_T_ok t H).
  unfold tlv_bytes. constructor; [unfold byte_ok; lia|]. constructor; [unfold byte_ok; lia | exact Hv].
Qed.
Lemma tlv_bytes_len t : len (tlv_bytes t) = 2 + len (tlv_V t).
Proof. unfold tlv_bytes. apply len2. Qed.

Definition tlvs_bytes (ts : list tlv) : list Z := concat (map tlv_bytes ts).
Lemma tlvs_bytes_ok ts : Forall tlv_ok ts -> bytes_ok (tlvs_bytes ts).
Proof. induction 1 as [|t r Ht Hr IH]; [constructor|]. unfold tlvs_bytes. cbn [map concat].
  apply bytes_ok_app. split; [apply tlv_bytes_ok, Ht | exact IH]. Qed.

Lemma tlvs_w_encs step : forall ts fuel st, Forall tlv_ok ts -> len (tlvs_bytes ts) <= Z.of_nat fuel ->
  tlvs_w fuel step (tlvs_bytes ts) st = Ok (fold_left step ts st).
Proof.
  induction ts as [|t r IH]; intros fuel st Hok Hf.
  - destruct fuel; reflexivity.
  - inversion Hok as [|? ? Ht Hr]; subst. unfold tlvs_bytes in *. cbn [map concat] in *.
    rewrite len_app, tlv_bytes_len in Hf. destruct (tlv_V_ok t Ht) as [Hv Hl].
    pose proof (len_nonneg (concat (map tlv_bytes r))) as Hn.
    destruct fuel as [|f]; [lia|].
    unfold tlv_bytes at 1. cbn [app tlvs_w]. rewrite len_app.
    replace (len (tlv_V t) >? len (tlv_V t) + len (concat (map tlv_bytes r))) with false by lia.
    rewrite take_len_app, drop_len_app.
    rewrite tlv_interp_ok by exact Ht. cbn [bind fold_left]. apply IH; [exact Hr | lia].
Qed.

Lemma tlvs_bytes_app a b : tlvs_bytes (a ++ b) = tlvs_bytes a ++ tlvs_bytes b.
Proof. unfold tlvs_bytes. rewrite map_app, concat_app. reflexivity. Qed.
Lemma tlvs_bytes_nil : tlvs_bytes [] = []. Proof. reflexivity. Qed.
Lemma tlvs_bytes_one t : tlvs_bytes [t] = tlv_bytes t. Proof. unfold tlvs_bytes. cbn [map concat]. apply app_nil_r. Qed.

Definition opt_list {A} (o : option A) (mk : A -> tlv) : list tlv := match o with Some v => [mk v] | None => [] end.
Lemma opt_tlv_ok lo hi o mk : optZ_ok lo hi o = true -> (forall v, lo <= v <= hi -> tlv_ok (mk v)) ->
  opt_tlv o mk = EOk (tlvs_bytes (opt_list o mk)) /\ Forall tlv_ok (opt_list o mk).
Proof.
  intros Ho Hmk. destruct o as [v|]; cbn [opt_tlv opt_list optZ_ok] in *.
  - unfold in_range in Ho. assert (Hv : tlv_ok (mk v)) by (apply Hmk; lia).
    rewrite tlvs_bytes_one. split; [apply param_encode_ok, Hv | constructor; [exact Hv | constructor]].
  - split; [reflexivity | constructor].
Qed.
Definition optb_list (o : option (list Z)) (mk : list Z -> tlv) : list tlv :=
  match o with Some (x :: b) => [mk (x :: b)] | _ => [] end.
Lemma optb_tlv_ok o mk : optb_ok o = true -> (forall v, bytes_ok v -> len v <= 255 -> tlv_ok (mk v)) ->
  optb_tlv o mk = EOk (tlvs_bytes (optb_list o mk)) /\ Forall tlv_ok (optb_list o mk).
Proof.
  intros Ho Hmk. destruct o as [[|x v]|]; cbn [optb_tlv optb_list optb_ok] in *.
  - split; [reflexivity | constructor].
  - apply andb_true_iff in Ho. destruct Ho as [Hb Hl]. apply bytes_okb_spec in Hb. unfold in_range in Hl.
    assert (Hv : tlv_ok (mk (x :: v))) by (apply Hmk; [exact Hb | lia]).
    rewrite tlvs_bytes_one. split; [apply param_encode_ok, Hv | constructor; [exact Hv | constructor]].
  - split; [reflexivity | constructor].
Qed.

Lemma emapM_ok {A} (f : A -> eres (list Z)) (g : A -> list Z) l : (forall x, In x l -> f x = EOk (g x)) ->
  emapM f l = EOk (map g l).
Proof.
  induction l as [|x r IH]; intro H; [reflexivity|]. rewrite emapM_cons, (H x (or_introl eq_refl)). cbn [ebind].
  rewrite IH by (intros; apply H; right; assumption). reflexivity.
Qed.

Lemma fuel_ok (l : list Z) : len l <= Z.of_nat (Z.to_nat (len l)).
Proof. pose proof (len_nonneg l). lia. Qed.

Lemma snl_fold rq rs : forall d s q0 r0,
  fold_left snl_step (map (fun x : Z * list Z => TSdreq (fst x) (snd x)) rq ++ map (fun x : Z * Z => TSdres (fst x) (snd x)) rs)
    (Snl d s q0 r0) = Snl d s (q0 ++ rq) (r0 ++ rs).
Proof.
  induction rq as [|[t n] rq IH]; intros d s q0 r0.
  - cbn [map app]. rewrite app_nil_r. revert r0. induction rs as [|[t a] rs IHs]; intro r0.
    + rewrite app_nil_r. reflexivity.
    + cbn [map fold_left snl_step fst snd]. rewrite IHs. rewrite <- app_assoc. reflexivity.
  - cbn [map app fold_left snl_step fst snd]. rewrite IH. rewrite <- app_assoc. reflexivity.
Qed.

Lemma bytes_ok2 a b l : byte_ok a -> byte_ok b -> bytes_ok l -> bytes_ok (a :: b :: l).
Proof. intros. constructor; [assumption|]. constructor; assumption. Qed.
Lemma bytes_ok1 x : 0 <= x <= 255 -> bytes_ok [x].
Proof. intro. constructor; [unfold byte_ok; lia | constructor]. Qed.

Ltac vsplit H :=
  unfold valid in H; cbn [validb] in H; unfold sap_ok, in_range in H;
  repeat match type of H with (_ && _ = true) => let H2 := fresh "V" in apply andb_true_iff in H; destruct H as [H H2] end.

(* A class other than AGF round-trips when (1) its information field [info] consists of bytes, (2) the class's decoder
   reads the PDU back from [info], (3) encode writes the header followed by [info]. *)
Lemma rt_frame agfh pt d s info q : 0 <= pt < 16 -> pt <> 2 -> 0 <= d <= 63 -> 0 <= s <= 63 ->
  bytes_ok info -> class_w pt d s info = Ok q ->
  (forall h, encode_header pt d s = EOk h -> encode q = EOk (h ++ info)) ->
  exists b, encode q = EOk b /\ bytes_ok b /\ dec_w agfh b = Ok q.
Proof.
  intros Hp H2 Hd Hs Hi Hdec Henc. destruct (header_rt pt d s Hp Hd Hs) as (a & b & Hh & Ha & Hb & <- & <- & Hpt).
  exists (a :: b :: info). split; [exact (Henc _ Hh)|]. split; [apply bytes_ok2; assumption|].
  unfold dec_w. rewrite Hpt. replace (pt =? 2) with false by lia. exact Hdec.
Qed.

Lemma class_tlvs step ts st : Forall tlv_ok ts ->
  tlvs_w (Z.to_nat (len (tlvs_bytes ts))) step (tlvs_bytes ts) st = Ok (fold_left step ts st).
Proof. intro F. apply tlvs_w_encs; [exact F | apply fuel_ok]. Qed.

Lemma cond_tlv_ok (c : bool) t : (c = true -> tlv_ok t) ->
  (if c then param_encode t else EOk []) = EOk (tlvs_bytes (if c then [t] else [])) /\ Forall tlv_ok (if c then [t] else []).
Proof.
  destruct c; intro H; [|split; [reflexivity | constructor]].
  rewrite tlvs_bytes_one, param_encode_ok by auto. split; [reflexivity | constructor; auto].
Qed.

(* all classes but AGF, with any decoder in the AGF slot *)
Lemma rt_nonagf agfh q : valid q -> is_agf q = false ->
  exists b, encode q = EOk b /\ bytes_ok b /\ dec_w agfh b = Ok q.
Proof.
  intros Hv Hq. destruct q; try discriminate Hq; clear Hq; vsplit Hv.
  - (* SYMM *)
    assert (dsap = 0) by lia. assert (ssap = 0) by lia. subst.
    apply (rt_frame agfh 0 0 0 []); try lia; [constructor | reflexivity |].
    intros h Hh. cbn [encode]. rewrite Hh, app_nil_r. reflexivity.
  - (* PAX *)
    assert (dsap = 0) by lia. assert (ssap = 0) by lia. subst.
    destruct (opt_tlv_ok 0 255 version TVersion V3) as [E1 F1]; [intros; cbn; lia|].
    destruct (opt_tlv_ok 0 2047 miux TMiux V2) as [E2 F2]; [intros; cbn; lia|].
    destruct (opt_tlv_ok 0 65535 wks TWks V1) as [E3 F3]; [intros; cbn; lia|].
    destruct (opt_tlv_ok 0 255 lto TLto V0) as [E4 F4]; [intros; cbn; lia|].
    destruct (opt_tlv_ok 0 7 opt TOpt V) as [E5 F5]; [intros; cbn; lia|].
    set (ts := opt_list version TVersion ++ opt_list miux TMiux ++ opt_list wks TWks ++ opt_list lto TLto ++ opt_list opt TOpt).
    assert (Fts : Forall tlv_ok ts) by (unfold ts; repeat (apply Forall_app; split); assumption).
    apply (rt_frame agfh 1 0 0 (tlvs_bytes ts)); try lia; [apply tlvs_bytes_ok, Fts | |].
    + unfold class_w. cbn [Z.eqb Pos.eqb negb orb]. cbv iota zeta. rewrite class_tlvs by exact Fts. f_equal.
      unfold ts. destruct version, miux, wks, lto, opt; reflexivity.
    + intros h Hh. cbn [encode Z.eqb negb orb]. cbv iota. rewrite Hh, E1, E2, E3, E4, E5. cbn [ebind].
      unfold ts. rewrite !tlvs_bytes_app. reflexivity.
  - (* UI *)
    apply bytes_okb_spec in V. apply (rt_frame agfh 3 dsap ssap data); try lia; [exact V | reflexivity |].
    intros h Hh. cbn [encode]. rewrite Hh. reflexivity.
  - (* CONNECT *)
    destruct (cond_tlv_ok (miu >? 128) (TMiux (miu - 128))) as [E1 F1]; [cbn; lia|].
    destruct (cond_tlv_ok (negb (rw =? 1)) (TRw rw)) as [E2 F2]; [cbn; lia|].
    destruct (optb_tlv_ok sn TSn V) as [E3 F3]; [intros; cbn; split; assumption|].
    set (ts := (if miu >? 128 then [TMiux (miu - 128)] else []) ++ (if negb (rw =? 1) then [TRw rw] else []) ++ optb_list sn TSn).
    assert (Fts : Forall tlv_ok ts) by (unfold ts; repeat (apply Forall_app; split); assumption).
    apply (rt_frame agfh 4 dsap ssap (tlvs_bytes ts)); try lia; [apply tlvs_bytes_ok, Fts | |].
    + unfold class_w. cbn [Z.eqb Pos.eqb]. cbv iota zeta. rewrite class_tlvs by exact Fts. f_equal.
      unfold ts. destruct (miu >? 128) eqn:E; destruct (rw =? 1) eqn:E'; destruct sn as [[|x l]|]; try discriminate V;
        cbn [negb app fold_left connect_step optb_list]; f_equal; lia.
    + intros h Hh. cbn [encode]. rewrite Hh, E1, E2, E3. cbn [ebind]. unfold ts. rewrite !tlvs_bytes_app. reflexivity.
  - (* DISC *)
    apply (rt_frame agfh 5 dsap ssap []); try lia; [constructor | reflexivity |].
    intros h Hh. cbn [encode]. rewrite Hh, app_nil_r. reflexivity.
  - (* CC *)
    destruct (cond_tlv_ok (miu >? 128) (TMiux (miu - 128))) as [E1 F1]; [cbn; lia|].
    destruct (cond_tlv_ok (negb (rw =? 1)) (TRw rw)) as [E2 F2]; [cbn; lia|].
    set (ts := (if miu >? 128 then [TMiux (miu - 128)] else []) ++ (if negb (rw =? 1) then [TRw rw] else [])).
    assert (Fts : Forall tlv_ok ts) by (unfold ts; apply Forall_app; split; assumption).
    apply (rt_frame agfh 6 dsap ssap (tlvs_bytes ts)); try lia; [apply tlvs_bytes_ok, Fts | |].
    + unfold class_w. cbn [Z.eqb Pos.eqb]. cbv iota zeta. rewrite class_tlvs by exact Fts. f_equal.
      unfold ts. destruct (miu >? 128) eqn:E; destruct (rw =? 1) eqn:E'; cbn [negb app fold_left cc_step]; f_equal; lia.
    + intros h Hh. cbn [encode]. rewrite Hh, E1, E2. cbn [ebind]. unfold ts. rewrite tlvs_bytes_app. reflexivity.
  - (* DM *)
    apply (rt_frame agfh 7 dsap ssap [reason]); try lia; [apply bytes_ok1; lia | reflexivity |].
    intros h Hh. cbn [encode]. rewrite Hh, rawB_ok by lia. reflexivity.
  - (* FRMR *)
    apply (rt_frame agfh 8 dsap ssap [flags * 16 + ptype; ns * 16 + nr; vs * 16 + vr; vsa * 16 + vra]); try lia.
    + repeat (constructor; [unfold byte_ok; lia|]). constructor.
    + unfold class_w. cbn [Z.eqb Pos.eqb]. cbv iota zeta. rewrite !shr4, !land15. f_equal. f_equal; lia.
    + intros h Hh. cbn [encode]. rewrite Hh, !lor_nibbles, !rawB_ok by lia. reflexivity.
  - (* SNL *)
    assert (dsap = 1) by lia. assert (ssap = 1) by lia. subst. rewrite forallb_forall in V, V0.
    set (ts := map (fun x : Z * list Z => TSdreq (fst x) (snd x)) sdreq ++ map (fun x : Z * Z => TSdres (fst x) (snd x)) sdres).
    assert (F1 : forall x, In x sdreq -> tlv_ok (TSdreq (fst x) (snd x))).
    { intros x Hx. specialize (V0 x Hx). apply andb_true_iff in V0. destruct V0 as [V0 V2]. apply andb_true_iff in V0.
      destruct V0 as [V0 V3]. apply bytes_okb_spec in V3. unfold in_range in V0. cbn. repeat split; try assumption; lia. }
    assert (F2 : forall x, In x sdres -> tlv_ok (TSdres (fst x) (snd x))).
    { intros x Hx. specialize (V x Hx). unfold in_range in V. cbn. lia. }
    assert (Fts : Forall tlv_ok ts).
    { unfold ts. apply Forall_app. split; apply Forall_forall; intros t Ht; apply in_map_iff in Ht; destruct Ht as (x & <- & Hx); auto. }
    apply (rt_frame agfh 9 1 1 (tlvs_bytes ts)); try lia; [apply tlvs_bytes_ok, Fts | |].
    + unfold class_w. cbn [Z.eqb Pos.eqb negb orb]. cbv iota zeta. rewrite class_tlvs by exact Fts. f_equal.
      unfold ts. rewrite snl_fold. reflexivity.
    + intros h Hh. cbn [encode]. rewrite Hh. cbn [ebind]. unfold econcat.
      rewrite (emapM_ok _ (fun x => tlv_bytes (TSdreq (fst x) (snd x)))) by (intros; apply param_encode_ok; auto).
      rewrite (emapM_ok _ (fun x => tlv_bytes (TSdres (fst x) (snd x)))) by (intros; apply param_encode_ok; auto).
      cbn [ebind]. unfold ts. rewrite tlvs_bytes_app. unfold tlvs_bytes. rewrite !map_map. reflexivity.
  - (* DPS *)
    assert (dsap = 0) by lia. assert (ssap = 0) by lia. subst.
    destruct (optb_tlv_ok ecpk TEcpk V0) as [E1 F1]; [intros; cbn; split; assumption|].
    destruct (optb_tlv_ok rn TRn V) as [E2 F2]; [intros; cbn; split; assumption|].
    set (ts := optb_list ecpk TEcpk ++ optb_list rn TRn).
    assert (Fts : Forall tlv_ok ts) by (unfold ts; apply Forall_app; split; assumption).
    apply (rt_frame agfh 10 0 0 (tlvs_bytes ts)); try lia; [apply tlvs_bytes_ok, Fts | |].
    + unfold class_w. cbn [Z.eqb Pos.eqb negb orb]. cbv iota zeta. rewrite class_tlvs by exact Fts. f_equal.
      unfold ts. destruct ecpk as [[|x l]|]; try discriminate V0; destruct rn as [[|y m]|]; try discriminate V; reflexivity.
    + intros h Hh. cbn [encode Z.eqb negb orb]. cbv iota. rewrite Hh, E1, E2. cbn [ebind].
      unfold ts. rewrite tlvs_bytes_app. reflexivity.
  - (* I *)
    apply bytes_okb_spec in V. apply (rt_frame agfh 12 dsap ssap ((ns * 16 + nr) :: data)); try lia.
    + constructor; [unfold byte_ok; lia | exact V].
    + unfold class_w. cbn [Z.eqb Pos.eqb]. cbv iota zeta. rewrite shr4, land15. f_equal. f_equal; lia.
    + intros h Hh. cbn [encode]. rewrite (encode_nheader_ok _ _ _ _ _ h Hh) by lia. cbn [ebind]. rewrite <- app_assoc. reflexivity.
  - (* RR *)
    apply (rt_frame agfh 13 dsap ssap [nr]); try lia; [apply bytes_ok1; lia | |].
    + unfold class_w. cbn [Z.eqb Pos.eqb]. cbv iota zeta. rewrite land15. f_equal. f_equal; lia.
    + intros h Hh. apply encode_nheader_ok; [exact Hh | lia | lia].
  - (* RNR *)
    apply (rt_frame agfh 14 dsap ssap [nr]); try lia; [apply bytes_ok1; lia | |].
    + unfold class_w. cbn [Z.eqb Pos.eqb]. cbv iota zeta. rewrite land15. f_equal. f_equal; lia.
    + intros h Hh. apply encode_nheader_ok; [exact Hh | lia | lia].
  - (* unknown PTYPE 1011 / 1111 *)
    apply bytes_okb_spec in V. apply (rt_frame agfh ptype dsap ssap payload); try lia; [exact V | |].
    + assert (Hc : ptype = 11 \/ ptype = 15) by lia. destruct Hc as [-> | ->]; reflexivity.
    + intros h Hh. cbn [encode]. rewrite Hh. reflexivity.
Qed.

Lemma agf_members_rt : forall ps,
  (forall q, In q ps -> valid q /\ is_agf q = false /\ pdu_len q <= 65535) ->
  exists encs body, emapM encode ps = EOk encs /\ agf_body encs = EOk body /\ bytes_ok body /\
    forall fuel acc, len body <= Z.of_nat fuel -> agf_w fuel body acc = Ok (acc ++ ps).
Proof.
  induction ps as [|q r IH]; intro H.
  - exists [], []. repeat split; [constructor|]. intros fuel acc _. rewrite app_nil_r. destruct fuel; reflexivity.
  - destruct IH as (encs & body & E1 & E2 & Hb & Hw); [intros; apply H; right; assumption|].
    destruct (H q (or_introl eq_refl)) as (Hv & Hq & Hl).
    destruct (rt_nonagf (fun _ => Err DecodeError) q Hv Hq) as (bq & Eq & Hbq & Hd).
    pose proof (len_encode q bq Eq) as Hlen. pose proof (len_nonneg bq) as Hn.
    exists (bq :: encs), ([len bq / 256; len bq mod 256] ++ bq ++ body). split; [|split; [|split]].
    + rewrite emapM_cons, Eq, E1. reflexivity.
    + cbn [agf_body]. unfold in_range. replace ((0 <=? len bq) && (len bq <=? 65535)) with true by lia.
      rewrite E2. reflexivity.
    + cbn [app]. apply bytes_ok2; [unfold byte_ok; lia | unfold byte_ok; lia |].
      apply bytes_ok_app. split; assumption.
    + intros fuel acc Hf. cbn [app] in *. rewrite len2, len_app in Hf. pose proof (len_nonneg body).
      destruct fuel as [|f]; [lia|]. cbn [agf_w].
      replace (len bq / 256 * 256 + len bq mod 256) with (len bq) by lia.
      rewrite len_app. replace (len bq >? len bq + len body) with false by lia.
      rewrite take_len_app, drop_len_app. fold sub_w. unfold sub_w at 1. rewrite Hd. cbn [bind].
      rewrite Hw by lia. rewrite <- app_assoc. reflexivity.
Qed.

Lemma rt_agf d s ps : valid (Agf d s ps) ->
  exists b, encode (Agf d s ps) = EOk b /\ bytes_ok b /\ decode_w b = Ok (Agf d s ps).
Proof.
  intro Hv. vsplit Hv. assert (d = 0) by lia. assert (s = 0) by lia. subst.
  destruct (header_rt 2 0 0) as (a & b & Hh & Ha & Hb & Hd & Hs & Hpt); try lia.
  destruct (agf_members_rt ps) as (encs & body & E1 & E2 & Hbody & Hw).
  { intros q Hq. rewrite forallb_forall in V. specialize (V q Hq).
    apply andb_true_iff in V. destruct V as [V V2]. apply andb_true_iff in V. destruct V as [V V3].
    repeat split; [exact V | destruct (is_agf q); [discriminate V3 | reflexivity] | lia]. }
  exists (a :: b :: body). split; [|split].
  - cbn [encode]. change (negb (0 =? 0) || negb (0 =? 0)) with false. cbv iota. rewrite Hh. cbn [ebind].
    rewrite E1. cbn [ebind]. rewrite E2. reflexivity.
  - apply bytes_ok2; assumption.
  - unfold decode_w, dec_w. rewrite Hd, Hs, Hpt. cbn [Z.eqb Pos.eqb]. cbv iota zeta.
    unfold agfdec_w. rewrite Hd, Hs. cbn [Z.eqb negb orb]. cbv iota.
    rewrite Hw by apply fuel_ok. reflexivity.
Qed.

Theorem decode_encode_w p : valid p -> exists b, encode p = EOk b /\ bytes_ok b /\ decode_w b = Ok p.
Proof.
  intro Hv. destruct (is_agf p) eqn:E.
  - destruct p; try discriminate E. apply rt_agf, Hv.
  - apply rt_nonagf; assumption.
Qed.

Theorem decode_encode p : valid p -> exists b, encode p = EOk b /\ decode b 0 (len b) = Ok p.
Proof.
  intro Hv. destruct (decode_encode_w p Hv) as (b & He & Hb & Hd).
  exists b. split; [exact He|]. rewrite decode_whole by exact Hb. exact Hd.
Qed.

Corollary decode_encode_at p pre post : valid p ->
  exists b, encode p = EOk b /\ decode (pre ++ b ++ post) (len pre) (len b) = Ok p.
Proof.
  intro Hv. destruct (decode_encode_w p Hv) as (b & He & Hb & Hd).
  exists b. split; [exact He|]. rewrite decode_window by exact Hb. exact Hd.
Qed.
