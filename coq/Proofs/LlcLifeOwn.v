(* C09 - single consumer: a socket accepted by a server's accept loop (SnepServer._listen,
   HandoverServer.listen) is referenced by that loop until it starts the serve thread, and then by
   that one serve thread only (the socket object lives in their local variables).  The model
   records this with the ghost flag [srv]: application threads cannot issue calls on such a socket.
   Invariant [Own]: at most one thread refers to a served socket.  Consequence: the recv() that a
   serve loop issues after poll('recv') answered True finds the data PDU still at the head of the
   queue (only the owner removes PDUs) or finds the socket closed; it returns data or raises
   nfc.llcp.Error, it never waits and never returns None - so `bytearray(client_socket.recv())` /
   `request += socket.recv()` cannot meet None at (or after) the end of the link. *)
From Coq Require Import ZArith List Bool Arith Lia.
From NV Require Import Base.Result Model.LlcLife Proofs.LlcLifeSeg Proofs.LlcLife.
Import ListNotations.

(* the objects a thread refers to *)
Definition tref (th : thread) : list nat :=
  (match ts th with
   | At o _ | Blocked o _ _ _ => [o]
   | Done (Ok (VSock o)) => [o]
   | _ => []
   end) ++
  (match mode th with MServe c _ | MClosing c _ => [c] | _ => [] end).

Definition shape (c : nat) (ph : nat) (x : tstate) : Prop :=
  match ph with
  | 0 => x = At c (PPoll0 PollRecv) \/ x = At c (PPoll1 PollRecv)
         \/ (exists b, x = Blocked c RecvReady (PPoll2 PollRecv) b) \/ exists r, x = Done r
  | 1 => x = At c PRecv0 \/ x = At c PRecv1 \/ exists r, x = Done r /\ (r = Ok VData \/ is_llcp r = true)
  | _ => (exists p, x = At c p) \/ (exists cd p b, x = Blocked c cd p b) \/ exists r, x = Done r
  end.

Definition mode_ok (g : gstate) (th : thread) : Prop :=
  match mode th with
  | MServe c ph =>
      srv (sk g c) = true /\ shape c ph (ts th)
      /\ (ph = 0 -> ts th = Done (Ok (VBool true)) -> ready (sk g c))
      /\ (ph = 1 -> (ts th = At c PRecv0 \/ ts th = At c PRecv1) -> ready (sk g c))
  | MListen ls => ls < nsk g /\ srv (sk g ls) = false /\ (forall c, ts th = Done (Ok (VSock c)) -> srv (sk g c) = true)
  | _ => True
  end.

Definition Own (g : gstate) : Prop :=
  (forall o, nsk g <= o -> srv (sk g o) = false)
  /\ (forall o, srv (sk g o) = true -> kd (sk g o) = DLC)
  /\ (forall t o, In o (tref (thr g t)) -> o < nsk g)
  /\ (forall t1 t2 o, srv (sk g o) = true -> In o (tref (thr g t1)) -> In o (tref (thr g t2)) -> t1 = t2)
  /\ (forall t, mode_ok g (thr g t)).

(* the part of mode_ok that ties the state x of a serve thread in phase ph to its socket *)
Definition serve_ok (c ph : nat) (x : tstate) (s : sock) : Prop :=
  shape c ph x /\ (ph = 0 -> x = Done (Ok (VBool true)) -> ready s)
  /\ (ph = 1 -> (x = At c PRecv0 \/ x = At c PRecv1) -> ready s).

Lemma promoted_tref th th' : promoted th th' -> tref th' = tref th.
Proof. intros [->|(o & c & p & E & ->)]; [reflexivity|]. unfold tref. cbn. rewrite E. reflexivity. Qed.

Lemma promoted_shape c ph th th' : promoted th th' -> shape c ph (ts th) -> shape c ph (ts th').
Proof. intros [->|(o & cd & p & E & ->)] H; [exact H|]. cbn. rewrite E in H.
  destruct ph as [|[|ph]]; cbn in *.
  - destruct H as [H|[H|[(b & H)|(r & H)]]]; try discriminate. inversion H; subst. right; right; left. eexists; reflexivity.
  - destruct H as [H|[H|(r & H & _)]]; discriminate.
  - destruct H as [(q & H)|[(cd' & q & b & H)|(r & H)]]; try discriminate. inversion H; subst.
    right; left. do 3 eexists. reflexivity. Qed.

Lemma mode_ok_promoted g th th' : promoted th th' -> mode_ok g th -> mode_ok g th'.
Proof.
  intros Hp M. destruct Hp as [->|(o & cd & p & E & ->)]; [exact M|].
  unfold mode_ok in *. cbn. destruct (mode th) as [|ls|c ph|o' how|how]; auto.
  - destruct M as (A0 & A & _). repeat split; auto. discriminate.
  - destruct M as (A & B & _). split; [exact A|]. split; [apply (promoted_shape c ph th (set_ts th (Blocked o cd p true))); [right; eauto|exact B]|].
    split; intros _ Hd; [discriminate|destruct Hd; discriminate].
Qed.

(* mode_ok looks at g only through nsk, and srv and ready of the sockets the thread refers to *)
Lemma mode_ok_mono g g' th :
  mode_ok g th -> nsk g <= nsk g' ->
  (forall o, o < nsk g -> srv (sk g' o) = srv (sk g o)) ->
  (forall o, In o (tref th) -> o < nsk g) ->
  (forall c, In c (tref th) -> srv (sk g c) = true -> ready (sk g c) -> ready (sk g' c)) ->
  mode_ok g' th.
Proof.
  unfold mode_ok, tref. intros M Hn Hs Hlt Hr. destruct (mode th) as [|ls|c ph|o how|how]; auto.
  - destruct M as (A0 & A & B). split; [lia|]. split; [rewrite Hs; auto|].
    intros c Hc. rewrite Hs; [auto|]. apply Hlt. rewrite Hc. left; reflexivity.
  - destruct M as (A & B & C & D).
    assert (Hin : forall l, In c (l ++ [c])) by (intro; apply in_or_app; right; left; reflexivity).
    rewrite Hs by auto. split; [exact A|]. split; [exact B|]. split; intros; apply Hr; auto.
Qed.

Lemma in_single {A} (x y : A) : In x [y] -> x = y.
Proof. intros [H|[]]. auto. Qed.

Lemma own_general g g' t :
  Own g -> nsk g <= nsk g' -> nsk g' <= S (nsk g) ->
  (forall o, o < nsk g -> srv (sk g' o) = srv (sk g o) /\ kd (sk g' o) = kd (sk g o)) ->
  (forall o, nsk g' <= o -> srv (sk g' o) = false) ->
  (srv (sk g' (nsk g)) = true -> kd (sk g' (nsk g)) = DLC) ->
  (forall t', t' <> t -> promoted (thr g t') (thr g' t')) ->
  (forall t' c, t' <> t -> In c (tref (thr g t')) -> srv (sk g c) = true -> ready (sk g c) -> ready (sk g' c)) ->
  (forall o, In o (tref (thr g' t)) ->
     (o < nsk g /\ (srv (sk g o) = true -> forall t', In o (tref (thr g t')) -> t' = t))
     \/ (o = nsk g /\ nsk g' = S (nsk g))) ->
  mode_ok g' (thr g' t) ->
  Own g'.
Proof.
  intros (W1 & W2 & W5 & W3 & W4) Hn1 Hn2 Hold Hnew Hkd Hp Hr Ht Hm.
  assert (Htr : forall t', t' <> t -> tref (thr g' t') = tref (thr g t')) by (intros; apply promoted_tref; auto).
  split; [exact Hnew|]. split; [|split; [|split]].
  - intros o Ho. destruct (le_lt_dec (nsk g) o) as [Hge|Hlt].
    + destruct (Nat.eq_dec o (nsk g)) as [->|N]; [auto|]. rewrite Hnew in Ho by lia. discriminate.
    + destruct (Hold o Hlt) as (Es & Ek). rewrite Ek. apply W2. congruence.
  - intros t' o Hin. destruct (Nat.eq_dec t' t) as [->|N].
    + destruct (Ht o Hin) as [(H & _)|(-> & H)]; lia.
    + rewrite Htr in Hin by assumption. specialize (W5 _ _ Hin). lia.
  - (* a thread other than t that refers to o did so before: o is old, and t may not refer to it as well *)
    assert (Hone : forall t' o, srv (sk g' o) = true -> In o (tref (thr g' t)) -> In o (tref (thr g' t')) -> t' = t).
    { intros t' o Ho H1 H2. destruct (Nat.eq_dec t' t) as [|N]; [assumption|].
      rewrite Htr in H2 by assumption. pose proof (W5 _ _ H2) as Hlt. rewrite (proj1 (Hold o Hlt)) in Ho.
      destruct (Ht o H1) as [(_ & H)|(-> & _)]; [auto|lia]. }
    intros t1 t2 o Ho H1 H2.
    destruct (Nat.eq_dec t1 t) as [->|N1]; [symmetry; exact (Hone _ _ Ho H1 H2)|].
    destruct (Nat.eq_dec t2 t) as [->|N2]; [exact (Hone _ _ Ho H2 H1)|].
    rewrite Htr in H1, H2 by assumption. rewrite (proj1 (Hold o (W5 _ _ H1))) in Ho. exact (W3 _ _ _ Ho H1 H2).
  - intro t'. destruct (Nat.eq_dec t' t) as [->|N]; [exact Hm|].
    apply (mode_ok_promoted _ _ _ (Hp t' N)).
    exact (mode_ok_mono g g' _ (W4 t') Hn1 (fun o Ho => proj1 (Hold o Ho)) (W5 t') (fun c => Hr t' c N)).
Qed.

Lemma own_sole g t o : Own g -> In o (tref (thr g t)) -> srv (sk g o) = true -> forall t', In o (tref (thr g t')) -> t' = t.
Proof. intros (_ & _ & _ & W3 & _) Hin Hs t' Hin'. eauto. Qed.

(* thread t alone changes: it may refer to what is not served, and to what no other thread refers to *)
Lemma own_upd g t th :
  Own g ->
  (forall o, In o (tref th) -> o < nsk g /\ (srv (sk g o) = true -> forall t', In o (tref (thr g t')) -> t' = t)) ->
  mode_ok g th -> Own (with_thr g (upd (thr g) t th)).
Proof.
  intros HO Ht Hm. pose proof HO as (W1 & W2 & _). apply (own_general g _ t HO); cbn; auto.
  - intros t' N. rewrite upd_other by assumption. apply promoted_refl.
  - rewrite upd_same. auto.
  - rewrite upd_same. exact Hm.
Qed.

Lemma own_drop g t th :
  Own g -> incl (tref th) (tref (thr g t)) -> mode_ok g th -> Own (with_thr g (upd (thr g) t th)).
Proof.
  intros HO Hi Hm. pose proof HO as (_ & _ & W5 & _). apply own_upd; auto.
  intros o Hin. apply Hi in Hin. split; [eauto|apply own_sole; assumption].
Qed.

Lemma own_exit g t r how : Own g -> ts (thr g t) = Done r -> Own (with_thr g (upd (thr g) t (mkThread (Done r) (MExit how)))).
Proof. intros HO Ets. apply own_drop; [exact HO| |exact I]. unfold tref. rewrite Ets. cbn. rewrite app_nil_r. apply incl_appl, incl_refl. Qed.

(* goto_call: the thread keeps referring to the object its mode names *)
Lemma own_goto_call g t o p md r :
  Own g -> ts (thr g t) = Done r ->
  (match md with MServe c _ | MClosing c _ => c = o | _ => False end) ->
  (srv (sk g o) = true -> In o (tref (thr g t))) ->
  (ref_ok g o p = true -> mode_ok g (mkThread (At o p) md)) ->
  Own (goto_call g t o p md r).
Proof.
  intros HO Ets Hmd Href Hok. unfold goto_call. destruct (ref_ok g o p) eqn:Er; [|apply own_exit; assumption].
  apply own_upd; auto. intros o' Hin.
  assert (o' = o) by (unfold tref in Hin; destruct md; cbn in Hin; try contradiction; subst; destruct Hin as [H|[H|[]]]; auto).
  subst o'. apply andb_true_iff in Er. split; [apply Nat.ltb_lt, Er|]. intro Hs. apply own_sole; auto.
Qed.

Lemma own_next g t w r : Own g -> ts (thr g t) = Done r -> Own (next_of g t w (mode (thr g t)) r).
Proof.
  intros HO Ets. pose proof HO as (W1 & W2 & W5 & W3 & W4).
  pose proof (W4 t) as M. unfold mode_ok in M. unfold next_of.
  destruct (mode (thr g t)) as [|ls|c ph|o how|how] eqn:Em.
  - (* MApp *) apply own_drop; [exact HO|intros o []|exact I].
  - (* MListen *)
    destruct M as (Mlt & Mls & Mv).
    assert (Hclose : forall how, Own (goto_call g t ls PClose0 (MClosing ls how) r)).
    { intro how. apply own_goto_call; [exact HO|exact Ets|reflexivity|intro X; congruence|intros _; exact I]. }
    destruct r as [[| | |c|]|[]|c|]; try apply Hclose.
    destruct (is_free g w t) eqn:Ef; [|exact HO].
    destruct (ref_ok g c (PPoll0 PollRecv) && ref_ok g ls PAcc1) eqn:Er; [|apply own_exit; assumption].
    (* the serve thread is started: first t lets go of c, then w takes it *)
    apply andb_true_iff in Ef. destruct Ef as (Nwt & Ew). apply negb_true_iff, Nat.eqb_neq in Nwt.
    assert (Hc : In c (tref (thr g t))) by (unfold tref; rewrite Ets; left; reflexivity).
    pose proof (Mv c Ets) as Hsc.
    set (g1 := with_thr g (upd (thr g) t (mkThread (At ls PAcc1) (MListen ls)))).
    assert (H1 : Own g1).
    { apply own_upd; [exact HO| |].
      - intros o Hin. apply in_single in Hin. subst o. split; [exact Mlt|congruence].
      - repeat split; auto. discriminate. }
    apply (own_upd g1 w (mkThread (At c (PPoll0 PollRecv)) (MServe c 0)) H1).
    + intros o Hin. assert (o = c) by (destruct Hin as [<-|[<-|[]]]; reflexivity). subst o.
      split; [eauto|]. intros _ t' Hin'. exfalso. unfold g1 in Hin'. cbn in Hin'.
      destruct (Nat.eq_dec t' t) as [->|N]; [rewrite upd_same in Hin'; apply in_single in Hin'; congruence|].
      rewrite upd_other in Hin' by assumption. apply N. eapply W3; eauto.
    + split; [exact Hsc|]. split; [left; reflexivity|]. split; intros; discriminate.
  - (* MServe *)
    destruct M as (Ms & Msh & M0 & M1).
    assert (Hc : In c (tref (thr g t))) by (unfold tref; rewrite Em; apply in_or_app; right; left; reflexivity).
    assert (Hgo : forall p md, (match md with MServe c' _ | MClosing c' _ => c' = c | _ => False end) ->
                    (ref_ok g c p = true -> mode_ok g (mkThread (At c p) md)) -> Own (goto_call g t c p md r)).
    { intros p md Hmd Hok. apply own_goto_call; [exact HO|exact Ets|destruct md; try contradiction; auto|intros _; exact Hc|exact Hok]. }
    (* by result and phase: into close(), or on to recv (socket ready: M0), send, poll *)
    destruct r as [[|[|]| |c'|]|[]|c'|]; try destruct ph as [|[|ph]];
      apply Hgo; try reflexivity; intros _; try exact I.
    all: split; [exact Ms|]; split; [cbn; eauto|]; split; [discriminate|auto; discriminate].
  - (* MClosing *) apply own_exit; assumption.
  - exact HO.
Qed.

Lemma own_frame g g' :
  Own g -> nsk g' = nsk g ->
  (forall o, srv (sk g' o) = srv (sk g o) /\ kd (sk g' o) = kd (sk g o) /\ (ready (sk g o) -> ready (sk g' o))) ->
  (forall t, promoted (thr g t) (thr g' t)) ->
  Own g'.
Proof.
  intros HO En Hs Ht. pose proof HO as (W1 & W2 & W5 & _ & W4).
  apply (own_general g g' 0 HO); try lia; auto.
  - intros o Ho. split; apply Hs.
  - intros o Ho. rewrite (proj1 (Hs o)). apply W1. lia.
  - rewrite (proj1 (Hs _)), (proj1 (proj2 (Hs _))). apply W2.
  - intros t' c _ _ _. apply Hs.
  - intros o Hin. left. rewrite (promoted_tref _ _ (Ht 0)) in Hin. split; [eauto|apply own_sole; assumption].
  - apply (mode_ok_promoted _ _ _ (Ht 0)).
    apply (mode_ok_mono g g' _ (W4 0)); [lia|intros; apply Hs|apply W5|intros; apply Hs; assumption].
Qed.

(* what the link does to a socket keeps it ready: it is shut down, or its state stays (or goes from
   ESTABLISHED to CLOSE_WAIT) and its receive queue stays or grows at the end *)
Lemma ready_mono s s' :
  st s' = SHUTDOWN
  \/ (st s' = st s \/ st s = ESTABLISHED /\ st s' = CLOSE_WAIT) /\ (rq s' = rq s \/ exists x, rq s' = rq s ++ [x]) ->
  ready s -> ready s'.
Proof.
  intros [H|(Hst & Hrq)] R; [left; exact H|]. destruct R as [R|(He & r & Hr)].
  - left. destruct Hst as [->|(E & _)]; congruence.
  - right. unfold est_or_cw in *. split.
    + destruct Hst as [E|(_ & E)]; rewrite E; [exact He|reflexivity].
    + destruct Hrq as [->|(x & ->)]; rewrite Hr; cbn; eauto.
Qed.

Lemma own_on_sock g o s' thr' v tm h l :
  Own g -> srv s' = srv (sk g o) -> kd s' = kd (sk g o) -> (ready (sk g o) -> ready s') ->
  (forall t, promoted (thr g t) (thr' t)) -> Own (mkG v (upd (sk g) o s') (nsk g) thr' tm h l).
Proof.
  intros HO Es Ek Hr Hp. apply (own_frame g); auto. intro o'. cbn. unfold upd.
  destruct (Nat.eqb_spec o' o) as [->|N]; auto.
Qed.

Lemma own_link g l : Own g ->
  match l with TIssue _ _ | TRun _ _ | TNext _ _ => True | _ => Own (step g l) end.
Proof.
  intro HO. destruct l as [t op|t orc|t w|o x w|o d w|o n w|o| |t| |o| | |]; auto; cbn [step].
  - (* LEnq *)
    destruct (is_run (lpc g) && intab (sk g o) && Nat.ltb o (nsk g)); [|exact HO].
    destruct (kd (sk g o)) eqn:Ek; [| | |exact HO].
    1, 2: destruct (Nat.ltb (length (rq (sk g o))) (rbuf (sk g o))); [|exact HO].
    3: destruct (st (sk g o)) eqn:Est; destruct x; try exact HO;
         try (destruct (Nat.ltb (length (rq (sk g o))) (rbuf (sk g o)))); try exact HO.
    all: apply own_on_sock; auto with prom; apply ready_mono; cbn; eauto 7.
  - (* LDeq *)
    destruct (is_run (lpc g) && intab (sk g o) && Nat.ltb o (nsk g) && Nat.ltb 0 (sq (sk g o))); [|exact HO].
    destruct (kd (sk g o)) eqn:Ek; destruct d; try (destruct (is_est (sk g o))); try (destruct (sstate_eqb (st (sk g o)) CLOSE_WAIT));
      apply own_on_sock; auto with prom; apply ready_mono; cbn; eauto 7.
  - (* LAck *)
    destruct (is_run (lpc g) && intab (sk g o) && Nat.ltb o (nsk g) && is_est (sk g o) && Nat.ltb 0 n); [|exact HO].
    destruct (kd (sk g o)) eqn:Ek; try exact HO. apply own_on_sock; auto with prom.
  - (* LFrmr *)
    destruct (is_run (lpc g) && intab (sk g o) && Nat.ltb o (nsk g) && is_est (sk g o)); [|exact HO].
    destruct (kd (sk g o)) eqn:Ek; try exact HO. apply own_on_sock; auto with prom. apply ready_mono; cbn; auto.
  - (* LSdRes *)
    destruct (is_run (lpc g) && negb (is_shut (sk g 0))); [|exact HO].
    apply (own_frame g); cbn; auto with prom.
  - (* LTimeout *)
    destruct (ts (thr g t)) as [|o p|o c p [|]|r] eqn:Ets; try exact HO.
    apply (own_frame g); auto. intro t'. cbn. unfold upd. destruct (Nat.eqb_spec t' t) as [->|N]; [|left; reflexivity].
    right. exists o, c, p. auto.
  - (* LTermBegin *)
    destruct (is_run (lpc g)); [|exact HO]. apply (own_frame g); cbn; auto with prom.
  - (* LTermPop *)
    destruct (lpc g); try exact HO. destruct (intab (sk g o) && Nat.ltb 0 o && Nat.ltb o (nsk g)); [|exact HO].
    apply own_on_sock; auto with prom.
  - (* LTermClose *)
    destruct (lpc g) as [| |o|]; try exact HO.
    apply own_on_sock; auto with prom. apply ready_mono; cbn; auto.
  - (* LTermSd *)
    destruct (lpc g); try exact HO. destruct (term g); [exact HO|].
    apply own_on_sock; auto with prom. apply ready_mono; cbn; auto.
  - (* LTermEnd *)
    destruct (lpc g); try exact HO. destruct (term g && all_out_of_table g); [|exact HO].
    apply (own_frame g); cbn; auto with prom.
Qed.

Lemma own_issue g t op : Own g -> Own (step g (TIssue t op)).
Proof.
  intro HO. pose proof HO as (W1 & W2 & W5 & W3 & W4). cbn [step].
  destruct (ts (thr g t)) eqn:Ets; try exact HO. destruct (mode (thr g t)) eqn:Em; try exact HO.
  assert (Hat : forall o p md, ref_ok g o p = true -> srv (sk g o) = false -> (md = MApp \/ (md = MListen o)) ->
            Own (with_thr g (upd (thr g) t (mkThread (At o p) md)))).
  { intros o p md Er Hs Hmd. apply andb_true_iff in Er. destruct Er as (Er & _). apply Nat.ltb_lt in Er.
    apply own_upd; [exact HO| |].
    - intros o' Hin. assert (o' = o) by (destruct Hmd as [->| ->]; apply in_single in Hin; exact Hin).
      subst o'. split; [exact Er|congruence].
    - destruct Hmd as [->| ->]; [exact I|]. repeat split; auto. discriminate. }
  destruct op as [o|o e|o dw|o|o|o|o|o| |k|ls]; cbn [entry];
    try (match goal with
         | |- Own (if ref_ok g ?o ?p && negb (srv (sk g ?o)) then _ else _) =>
             destruct (ref_ok g o p) eqn:Er; [|exact HO]; destruct (srv (sk g o)) eqn:Es; [exact HO|]; cbn [negb andb];
             unfold set_ts; rewrite Em; apply Hat; auto
         end).
  - (* ONew *)
    assert (Hnew : forall k,
      Own (mkG (var g) (upd (sk g) (nsk g) (fresh k)) (S (nsk g))
               (upd (thr g) t (set_ts (thr g t) (Done (Ok (VSock (nsk g)))))) (term g) (llc_held g) (lpc g))).
    { intro k0. apply (own_general g _ t HO); cbn; try lia.
      - intros o Ho. rewrite upd_other by lia. auto.
      - intros o Ho. rewrite upd_other by lia. apply W1. lia.
      - rewrite upd_same. destruct k0; cbn; discriminate.
      - intros t' N. rewrite upd_other by assumption. left; reflexivity.
      - intros t' c N Hin _ R. specialize (W5 _ _ Hin). rewrite upd_other by lia. exact R.
      - rewrite upd_same. intros o Hin. unfold tref in Hin. cbn in Hin. rewrite Em in Hin. cbn in Hin.
        destruct Hin as [<-|[]]. right. auto.
      - rewrite upd_same. unfold mode_ok. cbn. rewrite Em. exact I. }
    destruct k; try exact HO; apply Hnew.
  - (* OServer *)
    destruct (ref_ok g ls PAcc1) eqn:Er; [|exact HO]. destruct (srv (sk g ls)) eqn:Es; [exact HO|]. cbn [negb andb].
    apply Hat; auto.
Qed.

Lemma poll0_not_true s tm orc : o_act (seg Fixed (PPoll0 PollRecv) s tm orc) <> ARet (Ok (VBool true)).
Proof. destruct s as [k x b i tb q n rb sb sl ak sv]. unfold seg, out, eret. cbn. destruct (negb (b && i)); cbn; discriminate. Qed.

Lemma serve_at c ph o p x :
  shape c ph x -> resumes x o p ->
  c = o /\ (ph = 0 -> p = PPoll0 PollRecv \/ p = PPoll1 PollRecv \/ p = PPoll2 PollRecv)
        /\ (ph = 1 -> (p = PRecv0 \/ p = PRecv1) /\ x = At o p).
Proof.
  intros Hs Hx. destruct ph as [|[|ph]]; cbn in Hs.
  - destruct Hs as [E|[E|[(b & E)|(r & E)]]]; destruct Hx as [->|(cd & ->)]; inversion E; subst;
      (split; [reflexivity|split; [auto|intro; discriminate]]).
  - destruct Hs as [E|[E|(r & E & _)]]; destruct Hx as [->|(cd & ->)]; inversion E; subst;
      (split; [reflexivity|split; [intro; discriminate|auto]]).
  - destruct Hs as [(q & E)|[(cd' & q & b & E)|(r & E)]]; destruct Hx as [->|(cd & ->)]; inversion E; subst;
      (split; [reflexivity|split; intro; discriminate]).
Qed.

(* the acting thread t moves to state x on its object o, which becomes s' *)
Lemma own_act g t o s' x thr1 :
  Own g -> In o (tref (thr g t)) ->
  srv s' = srv (sk g o) -> kd s' = kd (sk g o) ->
  (forall t', promoted (thr g t') (thr1 t')) -> mode (thr1 t) = mode (thr g t) ->
  (match x with At o' _ | Blocked o' _ _ _ => o' = o | Done (Ok (VSock _)) => False | _ => True end) ->
  (forall c ph, mode (thr g t) = MServe c ph -> c = o /\ serve_ok c ph x s') ->
  Own (mkG (var g) (upd (sk g) o s') (nsk g) (upd thr1 t (set_ts (thr1 t) x)) (term g) (llc_held g) (lpc g)).
Proof.
  intros HO Hin Es Ek Hp Eme Hx Hsv. pose proof HO as (W1 & W2 & W5 & W3 & W4).
  pose proof (W5 _ _ Hin) as Ho.
  apply (own_general g _ t HO); cbn; try lia.
  - intros o' Ho'. unfold upd. destruct (Nat.eqb_spec o' o) as [->|N]; auto.
  - intros o' Ho'. rewrite upd_other by lia. apply W1. lia.
  - rewrite upd_other by lia. rewrite (W1 (nsk g)) by lia. discriminate.
  - intros t' N. rewrite upd_other by assumption. apply Hp.
  - intros t' c N Hc Hsc R. unfold upd. destruct (Nat.eqb_spec c o) as [->|Nc]; [|exact R].
    exfalso. apply N. eapply W3; eauto.
  - rewrite upd_same. intros o' Hin'. left.
    assert (In o' (tref (thr g t))); [|split; [eauto|intro; apply own_sole; assumption]].
    unfold tref in Hin'. cbn in Hin'. rewrite Eme in Hin'. apply in_app_or in Hin'. destruct Hin' as [Hxx|Hmd].
    + assert (o' = o); [|subst; exact Hin].
      destruct x as [|o2 p2|o2 c2 p2 b2|[[| | |c2|]| | |]]; cbn in Hxx; try contradiction; apply in_single in Hxx; congruence.
    + unfold tref. apply in_or_app. right. exact Hmd.
  - rewrite upd_same. unfold mode_ok. cbn. rewrite Eme. pose proof (W4 t) as M. unfold mode_ok in M.
    destruct (mode (thr g t)) as [|ls|c ph|o2 how|how] eqn:Emd; auto.
    + destruct M as (A0 & A & B). split; [exact A0|]. split.
      * unfold upd. destruct (Nat.eqb_spec ls o) as [->|N]; [congruence|exact A].
      * intros c Hc. subst x. contradiction.
    + destruct M as (A & B & C & D). destruct (Hsv c ph eq_refl) as (-> & S1 & S2 & S3).
      rewrite upd_same. split; [congruence|]. split; [exact S1|]. split; auto.
Qed.

(* the state of a thread after a segment on object o with outcome a (n: the index an accepted socket gets) *)
Definition after (o n : nat) (a : act) : tstate :=
  match a with
  | AGoto q => At o q
  | AWait c q => Blocked o c q false
  | ARet x => Done x
  | AAlloc _ => Done (Ok (VSock n))
  end.

(* phase 0 polls (and answers True only on a ready socket), phase 1 receives from a ready socket, neither accepts *)
Lemma serve_seg c ph p s tm orc n :
  kd s = DLC ->
  (ph = 0 -> p = PPoll0 PollRecv \/ p = PPoll1 PollRecv \/ p = PPoll2 PollRecv) ->
  (ph = 1 -> (p = PRecv0 \/ p = PRecv1) /\ ready s) ->
  let r := seg Fixed p s tm orc in
  (ph < 2 -> forall s', o_act r <> AAlloc s') /\ serve_ok c ph (after c n (o_act r)) (o_sock r).
Proof.
  intros Kd P0 P1 r. destruct ph as [|[|ph]].
  - pose proof (seg_poll_shape s tm orc p (P0 eq_refl)) as X. fold r in X.
    destruct (o_act r) as [q|cd q|v|snew] eqn:Ea; cbn; [subst q|destruct X as (-> & ->)| |destruct X].
    + split; [discriminate|]. split; [right; left; reflexivity|]. split; intros; discriminate.
    + split; [discriminate|]. split; [right; right; left; eexists; reflexivity|]. split; intros; discriminate.
    + split; [discriminate|]. split; [right; right; right; eexists; reflexivity|]. split; [|intros; discriminate].
      intros _ [= ->]. destruct (P0 eq_refl) as [->|Hp]; [destruct (poll0_not_true s tm orc Ea)|].
      apply (seg_poll_true PollRecv s tm orc p); auto.
  - destruct (P1 eq_refl) as (Pp & Rd). pose proof (seg_recv_ready s tm orc p Pp Kd Rd) as X. fold r in X.
    destruct (o_act r) as [q|cd q|v|snew] eqn:Ea; cbn; try contradiction.
    + destruct X as (-> & ->). split; [discriminate|]. split; [right; left; reflexivity|]. split; [intros; discriminate|auto].
    + split; [discriminate|]. split; [right; right; eexists; split; [reflexivity|exact X]|].
      split; [intros; discriminate|intros _ [H|H]; discriminate].
  - split; [lia|]. split; [|split; intros; discriminate].
    destruct (o_act r); cbn; [left|right; left|right; right|right; right]; repeat eexists.
Qed.

Lemma own_run g t o p orc :
  Own g -> var g = Fixed -> resumes (ts (thr g t)) o p ->
  Own (run_seg g t o p orc).
Proof.
  intros HO Gv Hts. pose proof HO as (W1 & W2 & W5 & W3 & W4).
  assert (Hin : In o (tref (thr g t))) by (unfold tref; destruct Hts as [E|(c & E)]; rewrite E; left; reflexivity).
  pose proof (W5 _ _ Hin) as Ho.
  unfold run_seg. rewrite Gv. set (s := sk g o). set (r := seg Fixed p s (term g) orc).
  pose proof (seg_srv Fixed p s (term g) orc) as Rs. pose proof (seg_kd Fixed p s (term g) orc) as Rk. fold r in Rs, Rk.
  assert (Eme : mode (wake_all (thr g) o (o_nall r) t) = mode (thr g t)) by apply wake_all_mode.
  assert (Hserve : forall c ph, mode (thr g t) = MServe c ph ->
            c = o /\ (ph < 2 -> forall s', o_act r <> AAlloc s') /\ serve_ok c ph (after c (nsk g) (o_act r)) (o_sock r)).
  { intros c ph Em. pose proof (W4 t) as M. unfold mode_ok in M. rewrite Em in M. destruct M as (A & B & C & D).
    destruct (serve_at c ph o p _ B Hts) as (-> & P0 & P1). split; [reflexivity|].
    apply serve_seg; [apply W2; exact A|exact P0|].
    intro Hph. destruct (P1 Hph) as (Pp & Pe). split; [exact Pp|]. apply D; auto.
    destruct Pp as [->| ->]; [left|right]; exact Pe. }
  assert (Hact : forall x, after o (nsk g) (o_act r) = x ->
            (match x with At o' _ | Blocked o' _ _ _ => o' = o | Done (Ok (VSock _)) => False | _ => True end) ->
            Own (mkG Fixed (upd (sk g) o (o_sock r)) (nsk g)
                     (upd (wake_all (thr g) o (o_nall r)) t (set_ts (wake_all (thr g) o (o_nall r) t) x))
                     (term g) (llc_held g) (lpc g))).
  { intros x Ex Hx. rewrite <- Gv. apply (own_act g t o (o_sock r) x); auto using wake_all_promoted.
    intros c ph Em. destruct (Hserve c ph Em) as (-> & _ & H). rewrite Ex in H. split; [reflexivity|exact H]. }
  destruct (o_act r) as [q|cd q|x|snew] eqn:Ea.
  - apply Hact; reflexivity.
  - apply Hact; reflexivity.
  - apply Hact; [reflexivity|]. destruct x as [[| | |c2|]| | |]; auto. exact (seg_ret_not_sock Fixed p s (term g) orc c2 Ea).
  - (* AAlloc: the accepted connection *)
    pose proof (seg_alloc p s (term g) orc snew Ea) as ->.
    apply (own_general g _ t HO); cbn; try lia.
    + intros o' Ho'. rewrite upd_other by lia. unfold upd. destruct (Nat.eqb_spec o' o) as [->|N]; auto.
    + intros o' Ho'. rewrite upd_other by lia. rewrite upd_other by lia. apply W1. lia.
    + rewrite upd_same. intros _. reflexivity.
    + intros t' N. rewrite upd_other by assumption. apply wake_all_promoted.
    + intros t' c N Hc Hsc R. specialize (W5 _ _ Hc). rewrite upd_other by lia.
      unfold upd. destruct (Nat.eqb_spec c o) as [->|Nc]; [|exact R]. exfalso. apply N. eapply W3; eauto.
    + rewrite upd_same. intros o' Hin'. unfold tref in Hin'. cbn in Hin'. rewrite Eme in Hin'.
      destruct Hin' as [Hxx|Hmd].
      * subst. right. auto.
      * assert (In o' (tref (thr g t))) by (unfold tref; apply in_or_app; right; exact Hmd).
        left. split; [eauto|intro; apply own_sole; assumption].
    + rewrite upd_same. unfold mode_ok. cbn. rewrite Eme. pose proof (W4 t) as M. unfold mode_ok in M.
      destruct (mode (thr g t)) as [|ls|c ph|o2 how|how] eqn:Emd; auto.
      * destruct M as (A0 & A & B). split; [lia|]. split.
        -- rewrite upd_other by lia. unfold upd. destruct (Nat.eqb_spec ls o) as [->|N]; [rewrite Rs; exact A|exact A].
        -- intros c Hc. inversion Hc; subst. rewrite upd_same. reflexivity.
      * destruct M as (A & _). destruct (Hserve c ph eq_refl) as (-> & Hph & Hsh & _).
        destruct ph as [|[|ph]]; [destruct (Hph ltac:(lia) _ eq_refl)..|].
        rewrite upd_other by lia. rewrite upd_same. split; [rewrite Rs; exact A|].
        split; [exact Hsh|]. split; intros; discriminate.
Qed.

Lemma own_step g l : Inv g -> Own g -> Own (step g l).
Proof.
  intros ((Gv & _) & _) HO. destruct l as [t op|t orc|t w|o x w|o d w|o n w|o| |t| |o| | |];
    try (match goal with |- Own (step g ?l) => exact (own_link g l HO) end).
  - apply own_issue. exact HO.
  - cbn [step]. destruct (ts (thr g t)) as [|o p|o c p [|]|r] eqn:Ets; try exact HO;
      (destruct (runnable_point g p); [|exact HO]); apply own_run; auto; try (left; exact Ets); right; exists c; exact Ets.
  - cbn [step]. destruct (ts (thr g t)) as [|o p|o c p b|r] eqn:Ets; try exact HO. apply own_next; auto.
Qed.

Lemma own_init : Own (init Fixed).
Proof.
  split; [|split; [|split; [|split]]]; cbn.
  - intros o _. destruct (Nat.eqb o 0); reflexivity.
  - intros o H. destruct (Nat.eqb o 0); discriminate.
  - intros t o H. destruct H.
  - intros t1 t2 o _ H. destruct H.
  - intro t. exact I.
Qed.

Theorem reach_own sched : Own (run (init Fixed) sched).
Proof.
  assert (H : forall s g, Inv g -> Own g -> Inv (run g s) /\ Own (run g s)).
  { induction s as [|l r IH]; intros g HI HO; [auto|]. cbn. apply IH; [apply step_inv; exact HI|apply own_step; auto]. }
  apply (H sched (init Fixed) init_inv own_init).
Qed.

(* The recv() a serve loop issues after poll('recv') answered True never waits and never returns None:
   for all schedules, a thread in phase 1 of a serve loop is about to call / inside recv() on a ready
   socket, or has its result, which is data or nfc.llcp.Error.  Hence next_of never takes the
   `bytearray(None)` / `request += None` exit (ExCrash) for this call. *)
Theorem serve_recv_never_none : forall sched t c,
  let g := run (init Fixed) sched in
  mode (thr g t) = MServe c 1 ->
  ts (thr g t) = At c PRecv0 \/ ts (thr g t) = At c PRecv1
  \/ exists r, ts (thr g t) = Done r /\ (r = Ok VData \/ is_llcp r = true).
Proof.
  intros sched t c g Em. destruct (reach_own sched) as (_ & _ & _ & _ & W4). fold g in W4.
  pose proof (W4 t) as M. unfold mode_ok in M. rewrite Em in M. destruct M as (_ & B & _). exact B.
Qed.

(* single consumer, for all schedules: at most one thread refers to a socket accepted by a server loop *)
Theorem served_socket_single_consumer : forall sched t1 t2 o,
  let g := run (init Fixed) sched in
  srv (sk g o) = true -> In o (tref (thr g t1)) -> In o (tref (thr g t2)) -> t1 = t2.
Proof. intros sched t1 t2 o g. destruct (reach_own sched) as (_ & _ & _ & W3 & _). apply W3. Qed.

(* and the exit kind: with the result of that recv() the loop goes on (data) or leaves through its
   nfc.llcp.Error handler *)
Lemma serve_recv_exit g t w c r :
  mode (thr g t) = MServe c 1 -> ts (thr g t) = Done r -> (r = Ok VData \/ is_llcp r = true) ->
  match mode (thr (step g (TNext t w)) t) with
  | MServe _ 2 | MClosing _ ExHandler => True
  | MExit ExCrash => ref_ok g c (PSend0 false) = false \/ ref_ok g c PClose0 = false
  | _ => False
  end.
Proof.
  intros Em Ets Hr. cbn [step]. rewrite Ets, Em. unfold next_of, goto_call, with_thr.
  destruct Hr as [->|Hr].
  - destruct (ref_ok g c (PSend0 false)) eqn:E; cbn; rewrite upd_same; cbn; auto.
  - destruct r as [|[]| |]; try discriminate. destruct (ref_ok g c PClose0) eqn:E; cbn; rewrite upd_same; cbn; auto.
Qed.
