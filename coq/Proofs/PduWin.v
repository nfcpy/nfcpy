(* Window form of the LLCP PDU decoder and locality:
     decode (pre ++ w ++ post) (len pre) (len w) = decode_w w        (theorem decode_window)
   i.e. the decoder reads the PDU's own bytes only; decode_w is the same decoder written by pattern matching on the
   PDU's bytes.  All further theorems are proved on decode_w. *)
From Coq Require Import ZArith List Bool Lia ZifyBool.
From NV Require Import Base.Result Base.Bytes Model.Pdu Proofs.PduBase.
Import ListNotations.
Open Scope Z_scope.
Ltac Zify.zify_post_hook ::= Z.to_euclidean_division_equations.

Fixpoint tlvs_w (fuel : nat) (step : pdu -> tlv -> pdu) (w : list Z) (st : pdu) : res pdu :=
  match w with
  | T :: L :: rest =>
      match fuel with
      | O => Hang
      | S f => if L >? len rest then Err DecodeError else
               do t <- tlv_interp T L (take L rest);
               tlvs_w f step (drop L rest) (step st t)
      end
  | _ => Ok st
  end.

(* the 14 classes other than AGF, on the header fields and the information field *)
Definition class_w (ptype dsap ssap : Z) (info : list Z) : res pdu :=
  let nz := negb (dsap =? 0) || negb (ssap =? 0) in
  let fuel := Z.to_nat (len info) in
  if ptype =? 0 then if nz then Err DecodeError else match info with [] => Ok (Symm dsap ssap) | _ => Err DecodeError end
  else if ptype =? 1 then if nz then Err DecodeError else tlvs_w fuel pax_step info (Pax dsap ssap None None None None None)
  else if ptype =? 3 then Ok (UI dsap ssap info)
  else if ptype =? 4 then tlvs_w fuel connect_step info (Connect dsap ssap 128 1 None)
  else if ptype =? 5 then Ok (Disc dsap ssap)
  else if ptype =? 6 then tlvs_w fuel cc_step info (CC dsap ssap 128 1)
  else if ptype =? 7 then match info with [r] => Ok (DM dsap ssap r) | _ => Err DecodeError end
  else if ptype =? 8 then
    match info with
    | [b0; b1; b2; b3] => Ok (Frmr dsap ssap (Z.shiftr b0 4) (Z.land b0 15) (Z.shiftr b1 4) (Z.land b1 15)
                                   (Z.shiftr b2 4) (Z.land b2 15) (Z.shiftr b3 4) (Z.land b3 15))
    | _ => Err DecodeError
    end
  else if ptype =? 9 then if negb (dsap =? 1) || negb (ssap =? 1) then Err DecodeError
                          else tlvs_w fuel snl_step info (Snl dsap ssap [] [])
  else if ptype =? 10 then if nz then Err DecodeError else tlvs_w fuel dps_step info (Dps dsap ssap None None)
  else if ptype =? 12 then match info with q :: data => Ok (Info dsap ssap (Z.shiftr q 4) (Z.land q 15) data)
                                         | [] => Err DecodeError end
  else if ptype =? 13 then match info with q :: _ => Ok (RR dsap ssap (Z.land q 15)) | [] => Err DecodeError end
  else if ptype =? 14 then match info with q :: _ => Ok (RNR dsap ssap (Z.land q 15)) | [] => Err DecodeError end
  else Ok (Unknown ptype dsap ssap info).

(* [agf] decodes a PDU of PTYPE 0010 from its bytes *)
Definition dec_w (agf : list Z -> res pdu) (w : list Z) : res pdu :=
  match w with
  | a :: b :: info =>
      let ptype := Z.land (Z.shiftr (a * 256 + b) 6) 15 in
      if ptype =? 2 then agf w else class_w ptype (Z.shiftr a 2) (Z.land b 63) info
  | _ => Err DecodeError
  end.

Definition sub_w : list Z -> res pdu := dec_w (fun _ => Err DecodeError).

Fixpoint agf_w (fuel : nat) (w : list Z) (acc : list pdu) : res (list pdu) :=
  match w with
  | [] => Ok acc
  | _ => match fuel with
         | O => Hang
         | S f => match w with
                  | h :: l :: rest =>
                      let n := h * 256 + l in
                      if n >? len rest then Err DecodeError else
                      do p <- sub_w (take n rest);
                      agf_w f (drop n rest) (acc ++ [p])
                  | _ => Err DecodeError
                  end
         end
  end.
Definition agfdec_w (w : list Z) : res pdu :=
  match w with
  | a :: b :: info =>
      let dsap := Z.shiftr a 2 in let ssap := Z.land b 63 in
      if negb (dsap =? 0) || negb (ssap =? 0) then Err DecodeError else
      do l <- agf_w (Z.to_nat (len info)) info []; Ok (Agf dsap ssap l)
  | _ => Err DecodeError
  end.
Definition decode_w : list Z -> res pdu := dec_w agfdec_w.

Lemma rd_head pre (x y : Z) rest post :
  rd (pre ++ (x :: y :: rest) ++ post) (len pre) = Some x /\ rd (pre ++ (x :: y :: rest) ++ post) (len pre + 1) = Some y.
Proof.
  pose proof (len_nonneg rest). rewrite <- (Z.add_0_r (len pre)) at 1. rewrite !rd_mid by (rewrite len2; lia). split; reflexivity.
Qed.
Lemma rd_c1 (x0 x1 : Z) l : rd (x0 :: x1 :: l) 1 = Some x1. Proof. reflexivity. Qed.
Lemma rd_c2 (x0 x1 x2 : Z) l : rd (x0 :: x1 :: x2 :: l) 2 = Some x2. Proof. reflexivity. Qed.
Lemma rd_c3 (x0 x1 x2 x3 : Z) l : rd (x0 :: x1 :: x2 :: x3 :: l) 3 = Some x3. Proof. reflexivity. Qed.
Lemma rd_c4 (x0 x1 x2 x3 x4 : Z) l : rd (x0 :: x1 :: x2 :: x3 :: x4 :: l) 4 = Some x4. Proof. reflexivity. Qed.
Lemma rd_c5 (x0 x1 x2 x3 x4 x5 : Z) l : rd (x0 :: x1 :: x2 :: x3 :: x4 :: x5 :: l) 5 = Some x5. Proof. reflexivity. Qed.
Lemma drop2 {A} (a b : A) l : drop 2 (a :: b :: l) = l. Proof. reflexivity. Qed.
Lemma drop3 {A} (a b c : A) l : drop 3 (a :: b :: c :: l) = l. Proof. reflexivity. Qed.

Lemma tlv_loop_eq fuel step data offset size st :
  tlv_loop fuel step data offset size st =
  if size <? 2 then Ok st else
  match fuel with
  | O => Hang
  | S f => do (L, t) <- param_decode data offset size;
           tlv_loop f step data (offset + 2 + L) (size - 2 - L) (step st t)
  end.
Proof. destruct fuel; reflexivity. Qed.
Lemma agf_loop_eq fuel data offset size acc :
  agf_loop fuel data offset size acc =
  if size <=? 0 then Ok acc else
  match fuel with
  | O => Hang
  | S f =>
      if size <? 2 then Err DecodeError else
      match rd data offset, rd data (offset + 1) with
      | Some h, Some l =>
          let n := h * 256 + l in
          if n >? size - 2 then Err DecodeError else
          do p <- decode_sub data (offset + 2) n;
          agf_loop f data (offset + 2 + n) (size - 2 - n) (acc ++ [p])
      | _, _ => Err DecodeError
      end
  end.
Proof. destruct fuel; reflexivity. Qed.

Lemma param_decode_w pre T L rest post :
  param_decode (pre ++ (T :: L :: rest) ++ post) (len pre) (len (T :: L :: rest)) =
  if L >? len rest then Err DecodeError else do t <- tlv_interp T L (take L rest); Ok (L, t).
Proof.
  unfold param_decode. pose proof (len_nonneg rest) as Hr. pose proof (len_nonneg post) as Hp.
  destruct (rd_head pre T L rest post) as [-> ->]. rewrite !len_app, len2.
  destruct (L >? len rest) eqn:E.
  - destruct (len pre + 2 + L >? len pre + (2 + len rest + len post)); [reflexivity|].
    replace (2 + L >? 2 + len rest) with true by lia. reflexivity.
  - replace (len pre + 2 + L >? len pre + (2 + len rest + len post)) with false by lia.
    replace (2 + L >? 2 + len rest) with false by lia.
    replace (len pre + 2 + L) with (len pre + (2 + L)) by lia.
    rewrite slice_mid by (rewrite ?len2; lia).
    rewrite slice_take_drop, Z.add_simpl_l by lia. rewrite drop2. reflexivity.
Qed.

Lemma tlv_loop_w fuel step : forall pre w post off size st, bytes_ok w -> off = len pre -> size = len w ->
  tlv_loop fuel step (pre ++ w ++ post) off size st = tlvs_w fuel step w st.
Proof.
  induction fuel as [|f IH]; intros pre w post off size st Hw -> ->; rewrite tlv_loop_eq;
    (destruct w as [|T [|L rest]]; [reflexivity | reflexivity |]); pose proof (len_nonneg rest) as Hr;
    replace (len (T :: L :: rest) <? 2) with false by (rewrite len2; lia).
  - reflexivity.
  - destruct (bytes_ok2_inv _ _ _ Hw) as (_ & HL & Hrest).
    rewrite param_decode_w. cbn [tlvs_w].
    destruct (L >? len rest) eqn:E; [reflexivity|].
    destruct (tlv_interp T L (take L rest)) as [t| | |]; cbn [bind]; try reflexivity.
    rewrite (rewindow pre T L rest post L).
    apply IH; [apply bytes_ok_drop, Hrest | rewrite !len_app, len_take by lia; reflexivity | rewrite len2, len_drop by lia; lia].
Qed.

Section Window.
Variables (pre post : list Z) (a b : Z) (info : list Z).
Let w := a :: b :: info.
Let data := pre ++ w ++ post.
Let dsap := Z.shiftr a 2.
Let ssap := Z.land b 63.

Lemma header_w : decode_header data (len pre) (len w) = Ok (dsap, ssap).
Proof.
  unfold decode_header, rdc, data, w. pose proof (len_nonneg info).
  rewrite len2. replace (2 + len info <? 2) with false by lia.
  destruct (rd_head pre a b info post) as [-> ->]. reflexivity.
Qed.

Lemma slice_info : slice data (len pre + 2) (len pre + len w) = info.
Proof.
  unfold data. pose proof (len_nonneg info). rewrite slice_mid by (unfold w; rewrite ?len2; lia).
  rewrite slice_drop by lia. reflexivity.
Qed.

Lemma dec_symm_w : dec_symm data (len pre) (len w) =
  if negb (dsap =? 0) || negb (ssap =? 0) then Err DecodeError
  else match info with [] => Ok (Symm dsap ssap) | _ => Err DecodeError end.
Proof.
  unfold dec_symm. rewrite header_w. cbn [bind]. fold dsap ssap.
  destruct (negb (dsap =? 0) || negb (ssap =? 0)); [reflexivity|].
  unfold w. rewrite len2. destruct info as [|x l]; [reflexivity|].
  rewrite len_cons. pose proof (len_nonneg l). replace (2 + (1 + len l) >=? 3) with true by lia. reflexivity.
Qed.

Lemma tlv_pdu_w step st : bytes_ok info ->
  tlv_loop (Z.to_nat (len w - 2)) step data (len pre + 2) (len w - 2) st = tlvs_w (Z.to_nat (len info)) step info st.
Proof.
  intro Hi. unfold w. rewrite len2. replace (2 + len info - 2) with (len info) by lia.
  change data with (pre ++ [a; b] ++ info ++ post). rewrite app_assoc.
  apply tlv_loop_w; [exact Hi | rewrite len_app; reflexivity | reflexivity].
Qed.

Lemma dec_ui_w : dec_ui data (len pre) (len w) = Ok (UI dsap ssap info).
Proof. unfold dec_ui. rewrite header_w. cbn [bind]. rewrite slice_info. reflexivity. Qed.
Lemma dec_disc_w : dec_disc data (len pre) (len w) = Ok (Disc dsap ssap).
Proof. unfold dec_disc. rewrite header_w. reflexivity. Qed.

End Window.

Lemma dec_dm_w pre post a b info :
  dec_dm (pre ++ (a :: b :: info) ++ post) (len pre) (len (a :: b :: info)) =
  match info with [r] => Ok (DM (Z.shiftr a 2) (Z.land b 63) r) | _ => Err DecodeError end.
Proof.
  unfold dec_dm. destruct info as [|r [|r2 l]].
  - reflexivity.
  - change (len [a; b; r] =? 3) with true. cbn [negb]. rewrite header_w. cbn [bind]. unfold rdc.
    rewrite rd_mid by (cbn; lia). reflexivity.
  - rewrite !len_cons. pose proof (len_nonneg l). replace (1 + (1 + (1 + (1 + len l))) =? 3) with false by lia. reflexivity.
Qed.

Lemma dec_frmr_w pre post a b info :
  dec_frmr (pre ++ (a :: b :: info) ++ post) (len pre) (len (a :: b :: info)) =
  match info with
  | [b0; b1; b2; b3] => Ok (Frmr (Z.shiftr a 2) (Z.land b 63) (Z.shiftr b0 4) (Z.land b0 15) (Z.shiftr b1 4) (Z.land b1 15)
                                 (Z.shiftr b2 4) (Z.land b2 15) (Z.shiftr b3 4) (Z.land b3 15))
  | _ => Err DecodeError
  end.
Proof.
  unfold dec_frmr. destruct info as [|b0 [|b1 [|b2 [|b3 [|b4 l]]]]]; try reflexivity.
  - change (len [a; b; b0; b1; b2; b3] =? 6) with true. cbn [negb]. rewrite header_w. cbn [bind]. unfold rdc.
    rewrite !rd_mid by (cbn; lia). reflexivity.
  - rewrite !len_cons. pose proof (len_nonneg l).
    replace (1 + (1 + (1 + (1 + (1 + (1 + (1 + len l)))))) =? 6) with false by lia. reflexivity.
Qed.

Lemma nheader_w pre post a b q info :
  decode_nheader (pre ++ (a :: b :: q :: info) ++ post) (len pre) (len (a :: b :: q :: info)) =
  Ok (Z.shiftr a 2, Z.land b 63, Z.shiftr q 4, Z.land q 15).
Proof.
  unfold decode_nheader, rdc. pose proof (len_nonneg info). rewrite !len_cons.
  replace (1 + (1 + (1 + len info)) <? 3) with false by lia.
  destruct (rd_head pre a b (q :: info) post) as [-> ->]. rewrite rd_mid by (rewrite !len_cons; lia). reflexivity.
Qed.
Lemma nheader_short pre post a b :
  decode_nheader (pre ++ [a; b] ++ post) (len pre) (len [a; b]) = Err DecodeError.
Proof. reflexivity. Qed.

Lemma dec_info_w pre post a b info :
  dec_info (pre ++ (a :: b :: info) ++ post) (len pre) (len (a :: b :: info)) =
  match info with q :: d => Ok (Info (Z.shiftr a 2) (Z.land b 63) (Z.shiftr q 4) (Z.land q 15) d) | [] => Err DecodeError end.
Proof.
  unfold dec_info. destruct info as [|q d]; [reflexivity|]. rewrite nheader_w. cbn [bind].
  pose proof (len_nonneg d).
  replace (len pre + 3) with (len pre + (2 + 1)) by lia.
  rewrite slice_mid by (rewrite ?len_cons; lia). rewrite slice_drop by lia. reflexivity.
Qed.
Lemma dec_rr_w pre post a b info :
  dec_rr (pre ++ (a :: b :: info) ++ post) (len pre) (len (a :: b :: info)) =
  match info with q :: _ => Ok (RR (Z.shiftr a 2) (Z.land b 63) (Z.land q 15)) | [] => Err DecodeError end.
Proof. unfold dec_rr. destruct info as [|q d]; [reflexivity|]. rewrite nheader_w. reflexivity. Qed.
Lemma dec_rnr_w pre post a b info :
  dec_rnr (pre ++ (a :: b :: info) ++ post) (len pre) (len (a :: b :: info)) =
  match info with q :: _ => Ok (RNR (Z.shiftr a 2) (Z.land b 63) (Z.land q 15)) | [] => Err DecodeError end.
Proof. unfold dec_rnr. destruct info as [|q d]; [reflexivity|]. rewrite nheader_w. reflexivity. Qed.

Lemma dec_unknown_w pre post a b info :
  dec_unknown (pre ++ (a :: b :: info) ++ post) (len pre) (len (a :: b :: info)) =
  Ok (Unknown (Z.land (Z.lor (Z.shiftl a 2) (Z.shiftr b 6)) 15) (Z.shiftr a 2) (Z.land b 63) info).
Proof.
  unfold dec_unknown. rewrite header_w. cbn [bind]. unfold rdc. pose proof (len_nonneg info).
  destruct (rd_head pre a b info post) as [-> ->]. cbn [bind]. rewrite slice_info. reflexivity.
Qed.

Lemma decode_gen_w agf agfw pre w post : bytes_ok w ->
  agf (pre ++ w ++ post) (len pre) (len w) = agfw w ->
  decode_gen agf (pre ++ w ++ post) (len pre) (len w) = dec_w agfw w.
Proof.
  intros Hw Hagf. unfold decode_gen. rewrite !len_app. pose proof (len_nonneg post).
  replace (len pre + len w >? len pre + (len w + len post)) with false by lia.
  destruct w as [|a [|b info]]; [reflexivity | reflexivity |].
  pose proof (len_nonneg info). rewrite len2 at 1. replace (2 + len info <? 2) with false by lia.
  unfold rdc. destruct (rd_head pre a b info post) as [-> ->]. cbn [bind]. cbv zeta. unfold dec_w.
  destruct (bytes_ok2_inv _ _ _ Hw) as (Ha & Hb & Hi).
  set (ptype := Z.land (Z.shiftr (a * 256 + b) 6) 15).
  destruct (ptype =? 2) eqn:E2. { apply Z.eqb_eq in E2. rewrite E2. exact Hagf. }
  unfold class_w. cbv zeta.
  destruct (ptype =? 0); [apply dec_symm_w|].
  destruct (ptype =? 1).
  { unfold dec_pax. rewrite header_w. cbn [bind].
    destruct (negb (Z.shiftr a 2 =? 0) || negb (Z.land b 63 =? 0)); [reflexivity|]. apply tlv_pdu_w, Hi. }
  destruct (ptype =? 3); [apply dec_ui_w|].
  destruct (ptype =? 4).
  { unfold dec_connect. rewrite header_w. cbn [bind]. apply tlv_pdu_w, Hi. }
  destruct (ptype =? 5); [apply dec_disc_w|].
  destruct (ptype =? 6).
  { unfold dec_cc. rewrite header_w. cbn [bind]. apply tlv_pdu_w, Hi. }
  destruct (ptype =? 7); [apply dec_dm_w|].
  destruct (ptype =? 8); [apply dec_frmr_w|].
  destruct (ptype =? 9).
  { unfold dec_snl. rewrite header_w. cbn [bind].
    destruct (negb (Z.shiftr a 2 =? 1) || negb (Z.land b 63 =? 1)); [reflexivity|]. apply tlv_pdu_w, Hi. }
  destruct (ptype =? 10).
  { unfold dec_dps. rewrite header_w. cbn [bind].
    destruct (negb (Z.shiftr a 2 =? 0) || negb (Z.land b 63 =? 0)); [reflexivity|]. apply tlv_pdu_w, Hi. }
  destruct (ptype =? 12); [apply dec_info_w|].
  destruct (ptype =? 13); [apply dec_rr_w|].
  destruct (ptype =? 14); [apply dec_rnr_w|].
  rewrite dec_unknown_w. rewrite ptype_alt by assumption. reflexivity.
Qed.

Lemma decode_sub_w pre w post off size : bytes_ok w -> off = len pre -> size = len w ->
  decode_sub (pre ++ w ++ post) off size = sub_w w.
Proof. intros Hw -> ->. apply decode_gen_w; [exact Hw | reflexivity]. Qed.

Lemma agf_loop_w fuel : forall pre w post off size acc, bytes_ok w -> off = len pre -> size = len w ->
  agf_loop fuel (pre ++ w ++ post) off size acc = agf_w fuel w acc.
Proof.
  induction fuel as [|f IH]; intros pre w post off size acc Hw -> ->; rewrite agf_loop_eq.
  - destruct w as [|h r]; [reflexivity|]. rewrite len_cons. pose proof (len_nonneg r).
    replace (1 + len r <=? 0) with false by lia. reflexivity.
  - destruct w as [|h [|l rest]]; [reflexivity | reflexivity |].
    destruct (bytes_ok2_inv _ _ _ Hw) as (Hh & Hl & Hrest). pose proof (len_nonneg rest) as Hr.
    rewrite len2. replace (2 + len rest <=? 0) with false by lia. replace (2 + len rest <? 2) with false by lia.
    destruct (rd_head pre h l rest post) as [-> ->]. cbv zeta. cbn [agf_w].
    replace (2 + len rest - 2) with (len rest) by lia.
    set (n := h * 256 + l). assert (Hn : 0 <= n) by (unfold n; lia).
    destruct (n >? len rest) eqn:E; [reflexivity|].
    rewrite (rewindow pre h l rest post n), <- (app_assoc (pre ++ [h; l])).
    rewrite decode_sub_w; [|apply bytes_ok_take, Hrest | rewrite len_app; reflexivity | rewrite len_take; lia].
    destruct (sub_w (take n rest)) as [p| | |]; cbn [bind]; try reflexivity.
    rewrite app_assoc.
    apply IH; [apply bytes_ok_drop, Hrest | rewrite !len_app, len_take by lia; reflexivity | rewrite len_drop by lia; lia].
Qed.

Lemma dec_agf_w pre w post : bytes_ok w -> dec_agf (pre ++ w ++ post) (len pre) (len w) = agfdec_w w.
Proof.
  intro Hw. destruct w as [|a [|b info]]; [reflexivity | reflexivity |].
  unfold dec_agf, agfdec_w. rewrite header_w. cbn [bind].
  destruct (negb (Z.shiftr a 2 =? 0) || negb (Z.land b 63 =? 0)); [reflexivity|].
  rewrite len2. replace (2 + len info - 2) with (len info) by lia.
  change (pre ++ (a :: b :: info) ++ post) with (pre ++ [a; b] ++ info ++ post). rewrite app_assoc.
  rewrite agf_loop_w; [reflexivity | apply (bytes_ok2_inv _ _ _ Hw) | rewrite len_app; reflexivity | reflexivity].
Qed.

Theorem decode_window pre w post : bytes_ok w -> decode (pre ++ w ++ post) (len pre) (len w) = decode_w w.
Proof. intro Hw. unfold decode, decode_w. apply decode_gen_w; [exact Hw | apply dec_agf_w, Hw]. Qed.

Corollary decode_whole w : bytes_ok w -> decode w 0 (len w) = decode_w w.
Proof. intro Hw. pose proof (decode_window [] w [] Hw) as H. rewrite app_nil_r in H. exact H. Qed.

(* a PDU is decoded from its own bytes only: the bytes before and after the window (offset, size) are irrelevant *)
Theorem decode_local pre w post : bytes_ok w ->
  decode (pre ++ w ++ post) (len pre) (len w) = decode w 0 (len w).
Proof. intro Hw. rewrite decode_window, decode_whole by exact Hw. reflexivity. Qed.

Theorem decode_char data off size : 0 <= off -> bytes_ok data ->
  decode data off size =
  if (off + size >? len data) || (size <? 2) then Err DecodeError else decode_w (slice data off (off + size)).
Proof.
  intros Ho Hd. destruct (off + size >? len data) eqn:E1.
  { unfold decode, decode_gen. rewrite E1. reflexivity. }
  destruct (size <? 2) eqn:E2.
  { unfold decode, decode_gen. rewrite E1, E2. reflexivity. }
  cbn [orb]. destruct (split_window data off size) as (pre & w & post & -> & Hp & Hw); try lia.
  assert (Hbw : bytes_ok w) by (apply bytes_ok_app in Hd; destruct Hd as [_ Hd]; apply bytes_ok_app in Hd; apply Hd).
  rewrite <- Hp, <- Hw. rewrite decode_window by exact Hbw.
  assert (Hs : slice (pre ++ w ++ post) (len pre + 0) (len pre + len w) = w).
  { rewrite slice_mid by lia. rewrite slice_take. apply take_all. lia. }
  rewrite Z.add_0_r in Hs. rewrite Hs. reflexivity.
Qed.

Corollary decode_ok_w data off size p : 0 <= off -> bytes_ok data -> decode data off size = Ok p ->
  bytes_ok (slice data off (off + size)) /\ decode_w (slice data off (off + size)) = Ok p.
Proof.
  intros Ho Hd. rewrite decode_char by assumption.
  destruct ((off + size >? len data) || (size <? 2)); [discriminate|]. split; [apply bytes_ok_slice, Hd | assumption].
Qed.
