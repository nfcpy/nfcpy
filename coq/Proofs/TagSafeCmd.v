(* C08, Type 2: the demand of the reader (hence the number of READ / SECTOR SELECT commands) is bounded by an
   explicit function of the size of the data area, whatever the memory holds and however much of it the tag
   delivers.  Reserved ranges are counted: every control TLV adds at most 256 reserved bytes, control TLVs
   below the end of the data area take 5 bytes each. *)
From Coq Require Import ZArith List Bool Lia ZifyBool.
From NV Require Import Base.Result Base.Bytes Model.TlvMem Model.T2T Model.TagReadAny Proofs.TlvLib Proofs.TagSafeTlv.
Import ListNotations.
Open Scope Z_scope.
Ltac Zify.zify_post_hook ::= Z.to_euclidean_division_equations.

Definition rsize (r : Z * Z) : Z := Z.max 0 (snd r - fst r).
Fixpoint skip_size (rs : ranges) : Z := match rs with [] => 0 | r :: rs' => rsize r + skip_size rs' end.

Lemma skip_size_nonneg rs : 0 <= skip_size rs.
Proof. induction rs; cbn [skip_size]; unfold rsize in *; lia. Qed.

(* reserved addresses in [a, a + n) are at most the sizes of the ranges: one more range [lo, hi) reserves at most the
   addresses of [max a lo, hi) *)
Lemma cov_cons r rs : forall n a, count_free rs a n - count_free (r :: rs) a n <= Z.max 0 (snd r - Z.max a (fst r)).
Proof.
  induction n as [|n IH]; intro a; [cbn [count_free]; lia|].
  cbn [count_free in_skip existsb]. specialize (IH (a + 1)). unfold in_range at 1. destruct r as [lo hi]. cbn [fst snd] in *.
  unfold in_skip in *. destruct ((lo <=? a) && (a <? hi)) eqn:E; cbn [orb]; [destruct (existsb (in_range a) rs)|]; lia.
Qed.
Lemma cov_le rs : forall n a, Z.of_nat n - count_free rs a n <= skip_size rs.
Proof.
  induction rs as [|r rs IH]; intros n a.
  - cbn [skip_size]. assert (H : count_free [] a n = Z.of_nat n); [|lia].
    revert a. induction n as [|n IHn]; intro a; [reflexivity|]. cbn [count_free in_skip existsb]. rewrite IHn. lia.
  - cbn [skip_size]. pose proof (cov_cons r rs n a). pose proof (IH n a). unfold rsize. lia.
Qed.
Lemma run_le skip a n : count_free skip a n = 0 -> Z.of_nat n <= skip_size skip.
Proof. intro H. pose proof (cov_le skip n a). lia. Qed.

Lemma read_val_end skip suf a k v e : read_val skip a suf k = Ok (v, e) -> e <= a + Z.of_nat k + skip_size skip.
Proof.
  intro H. destruct (read_val_outcome skip suf a k) as [(v' & e' & E & _ & C) | [E _]]; rewrite H in E; [|discriminate].
  injection E as _ <-. pose proof (cov_le skip (Z.to_nat (e - a)) a). lia.
Qed.
Lemma read_val_fail_len skip suf a k e0 : read_val skip a suf k = Err e0 -> len suf < Z.of_nat k + skip_size skip.
Proof.
  intro H. destruct (read_val_outcome skip suf a k) as [(v' & e' & E & _) | [_ C]]; [rewrite H in E; discriminate|].
  pose proof (cov_le skip (length suf) a). unfold len. lia.
Qed.

(* addresses [off0, e) of which [off0, off) are all reserved and at most [free] are free: e is near off0 *)
Lemma span_le skip off0 off e free : off0 <= off <= e -> count_free skip off0 (Z.to_nat (off - off0)) = 0 ->
  count_free skip off (Z.to_nat (e - off)) <= free -> e <= off0 + free + skip_size skip.
Proof.
  intros H H0 Hf. pose proof (cov_le skip (Z.to_nat (e - off0)) off0) as C.
  rewrite (cf_split skip off0 off e) in C by lia. lia.
Qed.

(* one TLV read at [off] behind a run of reserved bytes that began at [off0]: at most the header, 65535 value bytes
   and the reserved bytes are asked for, counted from [off0] *)
Lemma read_tlv_d_bound em off0 off skip : bytes_ok em -> 0 <= off0 <= off ->
  count_free skip off0 (Z.to_nat (off - off0)) = 0 ->
  read_tlv_d em off skip <= off0 + 65540 + skip_size skip.
Proof.
  intros Hb Ho Hrun. rewrite read_tlv_d_eq. pose proof (run_le skip off0 _ Hrun). pose proof (skip_size_nonneg skip).
  destruct (read_tlv_cases em off skip Hb ltac:(lia)) as [(t & l & v & e & -> & _ & _ & _ & He & C) | [-> C]].
  - pose proof (span_le skip off0 off e 65539). lia.
  - unfold tag_err. destruct (Z.le_gt_cases off (len em + 1)); [pose proof (span_le skip off0 off (len em + 1) 65539)|]; lia.
Qed.

(* control TLVs reserve at most 256 bytes each *)
Definition small (rs : ranges) : Prop := Forall (fun r => rsize r <= 256) rs.
Lemma skip_size_small rs : small rs -> skip_size rs <= 256 * len rs.
Proof.
  induction rs as [|r rs IH]; intro H; [cbn; lia|]. inversion H; subst. cbn [skip_size]. rewrite len_cons. specialize (IH H3). lia.
Qed.

Lemma ctl_next f clip v skip skip' : (f = lock_byte_range \/ f = rsvd_byte_range) -> bytes_ok v ->
  (do r <- ctl_range f clip v; Ok (Next (r :: skip))) = Ok (Next skip') -> exists r, skip' = r :: skip /\ rsize r <= 256.
Proof.
  intros Hf Hb. destruct v as [|d0 [|d1 [|d2 v]]]; try discriminate. cbn [ctl_range bind]. intro H. injection H as <-.
  eexists. split; [reflexivity|].
  inversion Hb as [|? ? B0 Hb1]; subst. inversion Hb1 as [|? ? B1 Hb2]; subst. unfold byte_ok in *.
  unfold rsize, clip_range. cbn [fst snd].
  destruct Hf as [-> | ->]; unfold lock_byte_range, rsvd_byte_range; cbn [fst snd]; destruct (0 <? d1) eqn:E;
    set (base := Z.shiftr d0 4 * 2 ^ Z.land d2 15 + Z.land d0 15); clearbody base; lia.
Qed.
Lemma t2_dispatch_next skip t l v skip' : bytes_ok v -> t2_dispatch skip t l v = Ok (Next skip') ->
  skip' = skip \/ (l = 3 /\ exists r, skip' = r :: skip /\ rsize r <= 256).
Proof.
  intros Hb. unfold t2_dispatch. destruct (t =? 0); [intro H; injection H as <-; auto|].
  destruct (t =? 1).
  { destruct (Z.eqb_spec l 3); [intro H; right; eauto using ctl_next | intro H; injection H as <-; auto]. }
  destruct (t =? 2).
  { destruct (Z.eqb_spec l 3); [intro H; right; eauto using ctl_next | intro H; injection H as <-; auto]. }
  destruct (t =? 3); [discriminate|]. destruct (t =? 254); [discriminate|]. intro H; injection H as <-; auto.
Qed.

Definition SB (dend : Z) : Z := 256 * ((dend - 16) / 5 + 1).
Lemma SB_le dend n off0 : 5 * n <= off0 - 16 -> off0 < dend -> 256 * n <= SB dend - 256.
Proof. unfold SB. lia. Qed.

(* invariant of the walk: a run of reserved bytes leads from [off0] to [off] ([off0] = [off] outside a run), a run
   begins below [dend]; below [off0] every control TLV took 5 bytes of offset *)
Definition winv (dend : Z) (skip : ranges) (off : Z) (inner : bool) : Prop :=
  exists off0, 16 <= off0 <= off /\ 5 * len skip <= off0 - 16 /\ count_free skip off0 (Z.to_nat (off - off0)) = 0 /\
               (inner = true -> off0 < dend).

Lemma t2_walk_d_bound : forall fuel em dend skip off inner hw d, bytes_ok em -> small skip ->
  winv dend skip off inner -> d <= t2_demand_bound dend ->
  snd (t2_walk_d fuel em dend skip off inner hw d) <= t2_demand_bound dend.
Proof.
  induction fuel as [|f IH]; intros em dend skip off inner hw d Hb Hsm (off0 & H0 & H5 & Hrun & Hin) Hdd; [exact Hdd|].
  assert (HB : t2_demand_bound dend = dend + 65541 + SB dend) by reflexivity.
  pose proof (skip_size_small skip Hsm) as Hs. pose proof (run_le _ _ _ Hrun) as Hr.
  pose proof (SB_le dend (len skip) off0 H5) as Hsb.
  cbn [t2_walk_d]. destruct (len em <=? off) eqn:Elen.
  { cbn [snd]. destruct (inner || (off <? dend)) eqn:E; [|exact Hdd].
    assert (off0 < dend) by (destruct inner; [auto | cbn in E; lia]). lia. }
  destruct (negb inner && (dend <=? off)) eqn:Eexit; [exact Hdd|].
  (* a TLV starts below dend, or at the end of a run that began below dend *)
  assert (Hlt : off0 < dend) by (destruct inner; [auto | cbn in Eexit; lia]).
  destruct (in_skip skip off) eqn:Es.
  { apply IH; auto. exists off0. split; [lia|]. split; [exact H5|]. split; [|auto].
    rewrite (cf_split skip off0 off (off + 1)), Hrun by lia. replace (off + 1 - off) with 1 by lia.
    change (Z.to_nat 1) with 1%nat. cbn [count_free]. rewrite Es. reflexivity. }
  pose proof (read_tlv_d_bound em off0 off skip Hb ltac:(lia) Hrun) as Hd.
  assert (Hd' : Z.max d (read_tlv_d em off skip) <= t2_demand_bound dend) by lia.
  destruct (read_tlv_cases em off skip Hb ltac:(lia)) as [(t & l & v & e & -> & Hl & _ & Bv & _) | [-> _]]; [|exact Hd'].
  destruct (t2_dispatch skip t l v) as [[skip'| |]| | |] eqn:Ed; try exact Hd'.
  destruct (t2_dispatch_next _ _ _ _ _ Bv Ed) as [-> | (-> & r & -> & Hr256)].
  - apply IH; auto. exists (off + l + 1 + (if l <? 255 then 1 else 3)). rewrite Z.sub_diag.
    destruct (l <? 255); repeat split; try lia; discriminate.
  - change (3 <? 255) with true. cbv iota. apply IH; auto; [constructor; auto|]. exists (off + 3 + 1 + 1).
    rewrite Z.sub_diag, len_cons. repeat split; try lia; discriminate.
Qed.

(* Type 2: the demand is bounded by the explicit function of the data area size, for every memory *)
Theorem t2_read_demand_bound em b14 : bytes_ok em -> rd em 14 = Ok b14 ->
  snd (t2_read_d em) <= t2_demand_bound (b14 * 8 + 16).
Proof.
  intros Hb E14. pose proof (rd_byte _ _ _ Hb E14) as B14.
  destruct (t2_read_d_snd em) as [[H ->] | [-> | [-> | (b & E & _ & ->)]]].
  1-3: apply rd_inv in E14; unfold t2_demand_bound; lia.
  rewrite E14 in E. injection E as <-.
  apply t2_walk_d_bound; [exact Hb | constructor | | unfold t2_demand_bound; lia].
  exists 16. repeat split; try lia; discriminate.
Qed.
(* ... and so is the number of commands: one READ per 16 bytes, two SECTOR SELECT packets per KiB, 3 tries for the last *)
Theorem t2_read_cmds em b14 : bytes_ok em -> rd em 14 = Ok b14 ->
  t2_cmds_max (snd (t2_read_d em)) <= t2_cmds_max (t2_demand_bound (b14 * 8 + 16)) /\
  t2_cmds_max (t2_demand_bound (b14 * 8 + 16)) <= 11108.
Proof.
  intros Hb E14. pose proof (t2_read_demand_bound em b14 Hb E14) as H. pose proof (rd_byte _ _ _ Hb E14) as B14.
  unfold t2_cmds_max, t2_demand_bound in *. split; lia.
Qed.
