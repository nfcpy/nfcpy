(* Instantiation of the abstract retry theory (Proofs/TlvRetry.v) with the phases of _write_ndef_data on a
   well-formed layout: the final cache cF of an undisturbed write, the caches of the phases started from any
   cache that differs from cF only where cF differs from the activated memory, and the resulting theorem about
   any attempt started from any SAFE memory. *)
From Coq Require Import ZArith List Bool Lia ZifyBool.
From NV Require Import Base.Result Base.Bytes Model.TlvMem Proofs.TlvLib Proofs.TlvSync Proofs.TlvRetry Proofs.TlvPhases.
Import ListNotations.
Open Scope Z_scope.

(* the three byte length field at o+1 .. o+3 of a cache c that equals t elsewhere: the two length bytes first (the
   byte o+1 stays as it is), then FF *)
Lemma upd_len_long c t o v2 v3 : 0 <= o -> o + 3 < len c -> length t = length c ->
  get t (o + 1) = 255 -> get t (o + 2) = v2 -> get t (o + 3) = v3 ->
  (forall x, 0 <= x -> x < o + 1 \/ o + 3 < x -> get c x = get t x) ->
  exists cb, (do c' <- upd c (o + 2) v2; upd c' (o + 3) v3) = Ok cb /\ upd cb (o + 1) 255 = Ok t /\ length cb = length c /\
    get cb (o + 1) = get c (o + 1) /\ forall x, 0 <= x -> x <> o + 1 -> get cb x = get t x.
Proof.
  intros Ho Hr Lt V1 V2 V3 Hout.
  destruct (upd_any c (o + 2) v2 ltac:(lia)) as (ca & Pa & La & Va & Ga).
  destruct (upd_any ca (o + 3) v3 ltac:(unfold len in *; lia)) as (cb & Pb & Lb & Vb & Gb).
  assert (Gcb : forall x, 0 <= x -> x <> o + 1 -> get cb x = get t x).
  { intros x Hx Hne. destruct (Z.eq_dec x (o + 3)) as [->|N3]; [congruence|]. rewrite Gb by assumption.
    destruct (Z.eq_dec x (o + 2)) as [->|N2]; [congruence|]. rewrite Ga by assumption. apply Hout; lia. }
  exists cb. split; [rewrite Pa; exact Pb|].
  split; [apply upd_to; [unfold len in *; lia | congruence | exact V1 | intros; symmetry; apply Gcb; assumption]|].
  split; [congruence|]. split; [rewrite Gb, Ga by lia; reflexivity | exact Gcb].
Qed.

Section Inst.
Variables (em : list Z) (L : layout) (u ku : nat).
Variable READ : list Z -> res (option layout).
Hypothesis Hu : (0 < u)%nat.
Hypothesis Hk : length em = (ku * u)%nat.
Hypothesis Hde : l_dend L <= len em.
Hypothesis Hoff0 : 0 <= l_off L.
Hypothesis Hoff1 : l_off L + 1 < l_dend L.
Hypothesis Htag : get em (l_off L) = 3.
Hypothesis Hcapeq : l_cap L = get_capacity (l_dend L) (l_off L) (l_skip L).
Hypothesis Hs1 : in_skip (l_skip L) (l_off L + 1) = false.
Hypothesis Hs23 : 255 <= l_cap L ->
  in_skip (l_skip L) (l_off L + 2) = false /\ in_skip (l_skip L) (l_off L + 3) = false.
Hypothesis Htransfer : forall c l' v' e', agree_below (l_off L + 1) em c -> ndef_fits c (set_val L v') = true ->
  read_tlv c (l_off L) (l_skip L) = Ok (3, l', v', e') -> READ c = Ok (Some (set_val L v')).
Set Default Proof Using "Hu Hk Hde Hoff0 Hoff1 Htag Hcapeq Hs1 Hs23 Htransfer".

Notation off := (l_off L).
Notation skip := (l_skip L).
Notation dend := (l_dend L).
Lemma inst_gen : gen_layout em L u ku READ.
Proof. constructor; assumption. Qed.
(* a lemma of Section Generic of Proofs/TlvPhases.v at this section's parameters *)
Notation G lemma := (lemma em L u ku READ inst_gen).

Definition is_hdr (d : list Z) (x : Z) : bool :=
  (x =? off + 1) || (negb (len d <? 255) && ((x =? off + 2) || (x =? off + 3))).

Lemma hdr_in d x : is_hdr d x = true -> off + 1 <= x <= off + 3 /\ x < off + (if len d <? 255 then 2 else 4).
Proof using Type. clear - L d x. unfold is_hdr. destruct (len d <? 255); lia. Qed.
Lemma hdr_out d x : x < off + 1 \/ off + 3 < x \/ (len d < 255 /\ x <> off + 1) -> is_hdr d x = false.
Proof using Type. clear - L d x. unfold is_hdr. lia. Qed.
Lemma hdr_first d x : is_hdr d x = false -> x <> off + 1 /\ (255 <= len d -> x < off + 1 \/ off + 3 < x).
Proof using Type. clear - L d x. unfold is_hdr. lia. Qed.

(* the caches of an undisturbed write: c1 after the first, c2 after the second, cF after the last phase *)
Definition clean (d c1 c2 cF : list Z) : Prop :=
  ph_len0 L em = Ok c1 /\ ph_data L d c1 = Ok c2 /\ length c1 = length em /\ length c2 = length em /\ length cF = length em /\
  (forall x, 0 <= x -> x <> off + 1 -> get c1 x = get em x) /\ get c1 (off + 1) = 0 /\
  READ cF = Ok (Some (set_val L d)) /\ touch L em cF /\
  (forall x, 0 <= x -> is_hdr d x = false -> get cF x = get c2 x) /\
  (len d < 255 -> get cF (off + 1) = len d) /\
  (255 <= len d -> off + 3 < dend /\ get cF (off + 1) = 255 /\ get cF (off + 2) = len d / 256 /\ get cF (off + 3) = len d mod 256).
Lemma clean_len d c1 c2 cF : clean d c1 c2 cF -> length cF = length em.
Proof using Type. intro H. apply H. Qed.
Lemma clean_read d c1 c2 cF : clean d c1 c2 cF -> READ cF = Ok (Some (set_val L d)).
Proof using Type. intro H. apply H. Qed.
Lemma clean_touch d c1 c2 cF : clean d c1 c2 cF -> touch L em cF.
Proof using Type. intro H. apply H. Qed.
Lemma clean_short d c1 c2 cF : clean d c1 c2 cF -> len d < 255 -> get cF (off + 1) = len d.
Proof using Type. intro H. apply H. Qed.
Lemma clean_long d c1 c2 cF : clean d c1 c2 cF -> 255 <= len d ->
  off + 3 < dend /\ get cF (off + 1) = 255 /\ get cF (off + 2) = len d / 256 /\ get cF (off + 3) = len d mod 256.
Proof using Type. intro H. apply H. Qed.

Lemma clean_final (d : list Z) : len d <= l_cap L -> exists c1 c2 cF, clean d c1 c2 cF.
Proof.
  intro Hcap. destruct (G write_prefix d Hcap) as (c1 & c2 & e & P1 & P2 & T1 & T2 & Z1 & Z2 & L1 & L2 & G1 & G2 & R2).
  pose proof (touch_trans L) as Tt. unfold clean.
  destruct (Z.ltb_spec (len d) 255) as [Hd|Hd].
  - destruct (G tail_short d c2 e Z2 L2 Hcap Hd R2) as (c3 & P3 & T3 & L3 & R3 & _).
    pose proof (upd_inv _ _ _ _ P3) as (_ & _ & G3).
    exists c1, c2, c3. repeat (split; [assumption|]). split; [apply Z1|]. split; [exact R3|].
    split; [eapply Tt; [eapply Tt|]; eassumption|]. split.
    { intros x Hx Hh. rewrite G3 by exact Hx. apply hdr_first, proj1, Z.eqb_neq in Hh. rewrite Hh. reflexivity. }
    split; [intros _; rewrite G3, Z.eqb_refl by (clear - Hoff0; lia); reflexivity | intro H; exfalso; clear - Hd H; lia].
  - destruct (G tail_long d c2 e Z2 L2 Hd Hcap R2) as (cb & c3 & Pl & Pf & Tl & Tf & _ & _ & L3 & R3 & _ & V1 & V2 & V3 & G3).
    destruct (G cap_long d Hd Hcap) as (Hd3 & _).
    exists c1, c2, c3. repeat (split; [assumption|]). split; [apply Z1|]. split; [exact R3|].
    split; [eapply Tt; [eapply Tt; [eapply Tt|]|]; eassumption|]. split.
    { intros x Hx Hh. apply G3; [exact Hx | apply (hdr_first d x Hh), Hd]. }
    split; [intro H; exfalso; clear - Hd H; lia | auto].
Qed.

(* the data phase on two caches writes the same positions with the same values *)
Lemma ph_data_det (d a b a' b' : list Z) : len d <= l_cap L -> length a = length em -> length b = length em ->
  ph_data L d a = Ok a' -> ph_data L d b = Ok b' ->
  forall x, 0 <= x -> get a' x = get b' x \/ (get a' x = get a x /\ get b' x = get b x).
Proof.
  intros Hcap La Lb Ha Hb. unfold ph_data in Ha, Hb.
  set (start := off + (if len d <? 255 then 2 else 4)) in *.
  assert (Hst : 0 <= start <= len em).
  { subst start. destruct (Z.ltb_spec (len d) 255) as [Hd|Hd]; [lia|]. destruct (G cap_long d Hd Hcap) as (Hd3 & _). lia. }
  destruct (place skip a start d) as [[a1 e1]| | |] eqn:Pa; cbn [bind fst snd] in Ha; try discriminate.
  destruct (place skip b start d) as [[b1 e2]| | |] eqn:Pb; cbn [bind fst snd] in Hb; try discriminate.
  destruct (place_det skip a b start d a1 e1 b1 e2 Pa Pb ltac:(congruence) ltac:(lia) ltac:(unfold len in *; lia)) as [<- Hp].
  destruct (term_pos skip e1 (Z.to_nat (dend - e1))) as [t|].
  - pose proof (upd_inv _ _ _ _ Ha) as (_ & _ & Ga). pose proof (upd_inv _ _ _ _ Hb) as (_ & _ & Gb).
    intros x Hx. rewrite Ga, Gb by exact Hx. destruct (Z.eqb_spec x t); [left; reflexivity | apply Hp, Hx].
  - injection Ha as <-. injection Hb as <-. exact Hp.
Qed.

Section Fixed.
Variables (d c1 c2 cF : list Z) (n : Z).
Hypothesis Hcap : len d <= l_cap L.
Hypothesis HCF : clean d c1 c2 cF.
Hypothesis Hn : forall x, off < x -> ndef_area L x = true -> x / Z.of_nat u * Z.of_nat u + Z.of_nat u <= n.
Set Default Proof Using "Hu Hk Hde Hoff0 Hoff1 Htag Hcapeq Hs1 Hs23 Htransfer Hcap HCF Hn".

Definition zN : nat := Z.to_nat (off + 1).
Definition Sall (i : nat) : bool := (i =? zN)%nat || negb (nth i cF 0 =? nth i em 0).
Notation FRx := (FR u ku cF Sall).
Notation INVx := (INV u ku zN em cF Sall).
Notation SAFEx := (SAFE u ku zN em cF Sall).

Lemma nth_get (l : list Z) i : nth i l 0 = get l (Z.of_nat i).
Proof. unfold get. rewrite Nat2Z.id. reflexivity. Qed.
Lemma LcF : length cF = (ku * u)%nat. Proof. rewrite (clean_len _ _ _ _ HCF). exact Hk. Qed.
Lemma touched i : Sall i = true -> off < Z.of_nat i /\ ndef_area L (Z.of_nat i) = true.
Proof.
  unfold Sall. intro H. destruct (Nat.eqb_spec i zN) as [E|Hne].
  - rewrite E. unfold zN. rewrite Z2Nat.id by lia. split; [lia|]. apply area_intro; [lia | exact Hs1].
  - cbn [orb] in H. apply (proj2 (clean_touch _ _ _ _ HCF) (Z.of_nat i) ltac:(lia)). rewrite <- !nth_get. lia.
Qed.
Lemma I_low i : Sall i = true -> (zN <= i)%nat.
Proof. intro H. apply touched in H. unfold zN. lia. Qed.
Lemma I_zS : Sall zN = true. Proof. unfold Sall. rewrite Nat.eqb_refl. reflexivity. Qed.
Lemma I_acc i : Sall i = true -> Z.of_nat (i / u * u + u) <= n.
Proof. intro H. destruct (touched i H) as [H1 H2]. pose proof (Hn _ H1 H2) as E.
  rewrite Nat2Z.inj_add, Nat2Z.inj_mul, Nat2Z.inj_div. exact E. Qed.
Lemma I_FRem : FRx em.
Proof. split; [exact Hk|]. intros i H. unfold Sall in H. apply orb_false_iff in H. destruct H as [_ H]. apply negb_false_iff in H. lia. Qed.
Lemma I_zlt : (zN < ku * u)%nat.
Proof. unfold zN. unfold len in Hde. lia. Qed.
Lemma zN_addr i : i <> zN -> Z.of_nat i <> off + 1.
Proof using Type. clear - L i. unfold zN. lia. Qed.
Lemma Sall_false x : 0 <= x -> x <> off + 1 -> get cF x = get em x -> Sall (Z.to_nat x) = false.
Proof using Hoff0.
  intros Hx Hne E. unfold Sall. apply orb_false_iff. split; [apply Nat.eqb_neq; clear - Hx Hne Hoff0; unfold zN; lia|].
  apply negb_false_iff, Z.eqb_eq, E.
Qed.

(* a lemma of Section Retry of Proofs/TlvRetry.v at this section's parameters *)
Notation R lemma := (lemma u ku zN n em cF Sall Hu Hk LcF I_low I_zS I_acc I_FRem).

Lemma INV_safe_x T F c : INVx T F c -> SAFEx T. Proof. exact (R INV_safe T F c). Qed.
Lemma SAFE_INV_x T : SAFEx T -> INVx T T T. Proof. exact (R SAFE_INV T). Qed.
Lemma INV_init_x : INVx em em em. Proof. exact (R INV_init). Qed.

(* ---- the caches of the phases, started from any cache that agrees with cF wherever cF = em ---- *)
Lemma len0_any c : lenok u ku c -> exists c', ph_len0 L c = Ok c' /\ zeroP u ku zN c c'.
Proof.
  intro Hl. unfold lenok in Hl. unfold ph_len0. destruct (upd_ok c (off + 1) 0) as [c' H]; [unfold len in *; lia|].
  exists c'. split; [exact H|]. pose proof (upd_inv _ _ _ _ H) as (_ & L' & G'). split; [unfold lenok; congruence|].
  intro i. rewrite !nth_get, G' by lia. unfold zN. destruct (Nat.eqb_spec i (Z.to_nat (off + 1))); destruct (Z.eqb_spec (Z.of_nat i) (off + 1)); try reflexivity; lia.
Qed.

(* a cache after the data phase: length byte still 0, everything but the length field final *)
Definition after_data (c : list Z) : Prop :=
  length c = length em /\ FRx c /\ nth zN c 0 = 0 /\ forall x, 0 <= x -> is_hdr d x = false -> get c x = get cF x.

Lemma data_any c : FRx c -> nth zN c 0 = 0 -> exists c', ph_data L d c = Ok c' /\ after_data c'.
Proof.
  intros [Lc Fc] Hz. unfold lenok in Lc. destruct HCF as (P1 & P2 & L1 & L2 & L3 & G1 & Z1 & _ & _ & GF & _).
  destruct (G ph_data_spec d c ltac:(congruence) Hcap) as (c' & e & P & [Lc' _] & G2 & _).
  pose proof (ph_data_det d c c1 c' c2 Hcap ltac:(congruence) L1 P P2) as Hdet.
  assert (Hnh : forall x, 0 <= x -> is_hdr d x = false -> get c' x = get cF x).
  { intros x Hx Hh. rewrite (GF x Hx Hh). destruct (Hdet x Hx) as [E|[Ea Eb]]; [exact E|].
    (* untouched by the data phase: c2 = c1 = em here, hence cF = em and the cache holds it already *)
    pose proof (proj1 (hdr_first d x Hh)) as Hx1. rewrite Ea, Eb, (G1 x Hx Hx1).
    assert (E : get cF x = get em x) by (rewrite (GF x Hx Hh), Eb; apply G1; assumption).
    rewrite <- E. exact (Fc _ (Sall_false x Hx Hx1 E)). }
  assert (Hlow : forall x, 0 <= x -> is_hdr d x = true -> get c' x = get c x).
  { intros x Hx Hh. apply G2. split; [exact Hx | apply (hdr_in d x Hh)]. }
  exists c'. split; [exact P|]. split; [congruence|]. split; [|split; [|exact Hnh]].
  - split; [unfold lenok; congruence|]. intros i Hi. rewrite !nth_get.
    destruct (is_hdr d (Z.of_nat i)) eqn:Hh; [|apply Hnh; [apply Nat2Z.is_nonneg | exact Hh]].
    rewrite (Hlow (Z.of_nat i) (Nat2Z.is_nonneg i) Hh), <- !nth_get. apply Fc, Hi.
  - change (get c' (off + 1) = 0). rewrite Hlow; [exact Hz | lia |]. unfold is_hdr. rewrite Z.eqb_refl. reflexivity.
Qed.

Lemma tail_short_any c : len d < 255 -> after_data c -> ph_len_short L d c = Ok cF /\ to_final u ku zN cF Sall c [cF].
Proof.
  intros Hd (Lc & _ & _ & Gh). pose proof (clean_len _ _ _ _ HCF) as LF.
  assert (Hout : forall x, 0 <= x -> x <> off + 1 -> get cF x = get c x).
  { intros x Hx Hne. symmetry. apply Gh; [exact Hx | apply hdr_out; auto]. }
  split; [apply upd_to; [unfold len in *; lia | congruence | exact (clean_short _ _ _ _ HCF Hd) | exact Hout]|].
  apply tf_commit. intros i Hi. rewrite !nth_get. symmetry. apply Hout; [apply Nat2Z.is_nonneg | apply zN_addr; congruence].
Qed.
Lemma tail_long_any c : 255 <= len d -> after_data c ->
  exists cb, ph_len_low L d c = Ok cb /\ ph_len_ff L cb = Ok cF /\
    FRx cb /\ nth zN cb 0 = 0 /\ forall i, i <> zN -> nth i cb 0 = nth i cF 0.
Proof.
  intros Hd (Lc & _ & Hz & Gh). pose proof (clean_len _ _ _ _ HCF) as LF. destruct (clean_long _ _ _ _ HCF Hd) as (Hd3 & V1 & V2 & V3).
  destruct (upd_len_long c cF off _ _ Hoff0 ltac:(unfold len in *; lia) ltac:(congruence) V1 V2 V3) as (cb & Pl & Pf & Lb & Zb & Gcb).
  { intros x Hx Hout. apply Gh; [exact Hx | apply hdr_out; tauto]. }
  exists cb. split; [exact Pl|]. split; [exact Pf|].
  assert (Hnz : forall i, i <> zN -> nth i cb 0 = nth i cF 0) by (intros i Hi; rewrite !nth_get; apply Gcb; [apply Nat2Z.is_nonneg | apply zN_addr, Hi]).
  split; [split; [unfold lenok; congruence|]|split; [|exact Hnz]].
  - intros i Hi. apply Hnz. intros ->. rewrite I_zS in Hi. discriminate.
  - exact (eq_trans Zb Hz).
Qed.
(* FF and the two length bytes in one synchronize: they must lie in one write unit *)
Lemma tail_unit_any c : 255 <= len d -> one_unit u off -> after_data c -> to_final u ku zN cF Sall c [cF].
Proof.
  intros Hd H1 (_ & _ & _ & Gh). apply tf_commit. intros i Hi. rewrite !nth_get. apply Gh; [lia|].
  destruct (is_hdr d (Z.of_nat i)) eqn:Hh; [|reflexivity]. elim Hi.
  pose proof (proj1 (hdr_in _ _ Hh)) as Hx. clear - Hx H1 Hoff0 Hu.
  unfold one_unit in H1. unfold zN. apply Nat2Z.inj. rewrite !Nat2Z.inj_div, Z2Nat.id by lia.
  apply Z.le_antisymm; [rewrite <- H1|]; apply Z.div_le_mono; lia.
Qed.

Definition ATT (phs : list phase) : Prop := forall vw m T kf f, SAFEx T ->
  (forall ws, Forall (cmd_ok u zN n) ws -> vw (apply_ws m ws) = apply_ws T ws) ->
  let '(r, (m', F', c'), ex) := run_attempt u n vw m T T phs kf f in
  m' = apply_ws m ex /\ F' = vw m' /\ c' = vw m' /\ Forall (cmd_ok u zN n) ex /\
  (forall i, SAFEx (vw (apply_ws m (firstn i ex)))) /\ (r = Ok tt -> vw m' = cF) /\ (kf = None -> r = Ok tt).

Lemma att_tail tl : (forall c, after_data c -> exists cs, steps c tl cs /\ to_final u ku zN cF Sall c cs) ->
  ATT (ph_len0 L :: ph_data L d :: tl).
Proof.
  intros Htl vw m T kf f ST Hvw. pose proof ST as [FT _]. destruct (len0_any T (proj1 FT)) as (c1' & P0 & Z0).
  destruct (R zeroP_FR T c1' FT Z0) as [Fc1 Hz1]. destruct (data_any c1' Fc1 Hz1) as (c2' & P & A).
  destruct (Htl c2' A) as (cs & Hst & Htf). pose proof A as (_ & Fc2 & Hz2 & _).
  apply (R attempt_ok vw m T _ c1' (c2' :: cs) kf f ST); [|exact Z0 | apply tf_mid; assumption | exact Hvw].
  eapply steps_cons; [exact P0|]. eapply steps_cons; [exact P | exact Hst].
Qed.

Theorem att_short : len d < 255 -> ATT [ph_len0 L; ph_data L d; ph_len_short L d].
Proof.
  intro Hd. apply att_tail. intros c A. destruct (tail_short_any c Hd A) as [P Htf].
  exists [cF]. split; [eapply steps_cons; [exact P | apply steps_nil] | exact Htf].
Qed.
Theorem att_split : 255 <= len d -> ATT [ph_len0 L; ph_data L d; ph_len_low L d; ph_len_ff L].
Proof.
  intro Hd. apply att_tail. intros c A. destruct (tail_long_any c Hd A) as (cb & Pl & Pf & Fb & Zb & Hb).
  exists [cb; cF]. split; [eapply steps_cons; [exact Pl|]; eapply steps_cons; [exact Pf | apply steps_nil]|].
  apply tf_mid; [exact Fb | exact Zb|]. apply tf_commit. intros i Hi. apply Hb. congruence.
Qed.
Theorem att_joint : 255 <= len d -> one_unit u off -> ATT [ph_len0 L; ph_data L d; fun c0 => do c1' <- ph_len_low L d c0; ph_len_ff L c1'].
Proof.
  intros Hd H1. apply att_tail. intros c A. destruct (tail_long_any c Hd A) as (cb & Pl & Pf & _).
  exists [cF]. split; [|exact (tail_unit_any c Hd H1 A)].
  eapply steps_cons; [|apply steps_nil]. cbv beta. rewrite Pl. exact Pf.
Qed.
Theorem att_unrepaired : 255 <= len d -> one_unit u off -> ATT [ph_len0 L; ph_data L d; ph_len_long_unrepaired L d].
Proof.
  intros Hd H1. apply att_tail. intros c A. destruct (tail_long_any c Hd A) as (cb & Pl & Pf & _).
  exists [cF]. split; [|exact (tail_unit_any c Hd H1 A)].
  eapply steps_cons; [exact (G tail_unrepaired d c cb cF Pl Pf) | apply steps_nil].
Qed.

Lemma SAFE_classes T : SAFEx T -> T = em \/ hdr0 em L T \/ T = cF.
Proof.
  intros [[LT FT] [H|[H|H]]]; [left; exact H | right; left | right; right; exact H].
  split; [split; [unfold lenok in LT; congruence|]|].
  - intros a Ha. rewrite <- (Z2Nat.id a) by lia. rewrite <- !nth_get. symmetry. rewrite FT.
    + rewrite !nth_get, Z2Nat.id by lia. apply (touch_same L _ _ a (clean_touch _ _ _ _ HCF)); [lia | left; lia].
    + destruct (Sall (Z.to_nat a)) eqn:E; [|reflexivity]. apply touched in E. lia.
  - rewrite nth_get in H. unfold zN in H. rewrite Z2Nat.id in H by lia. exact H.
Qed.
Lemma INV_classes T F c : INVx T F c -> T = em \/ hdr0 em L T \/ T = cF.
Proof. intro HI. apply SAFE_classes, (INV_safe_x T F c HI). Qed.
Lemma SAFE_read T : SAFEx T -> T = em \/ READ T = Ok (Some (set_val L [])) \/ READ T = Ok (Some (set_val L d)).
Proof.
  intro ST. destruct (SAFE_classes T ST) as [H|[H| ->]]; [left; exact H | right; left | right; right; apply HCF].
  apply (G hdr0_read T); [pose proof (len_nonneg d); lia | exact H].
Qed.
End Fixed.
End Inst.
Set Default Proof Using "Type".

(* a lemma of Section Inst at a layout given as a [gen_layout] *)
Notation at_layout lemma G := (lemma _ _ _ _ _ (gl_u _ _ _ _ _ G) (gl_k _ _ _ _ _ G) (gl_dend _ _ _ _ _ G) (gl_off0 _ _ _ _ _ G)
  (gl_off1 _ _ _ _ _ G) (gl_tag _ _ _ _ _ G) (gl_cap _ _ _ _ _ G) (gl_s1 _ _ _ _ _ G) (gl_s23 _ _ _ _ _ G) (gl_transfer _ _ _ _ _ G)).
