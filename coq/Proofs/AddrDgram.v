(* C17 - datagram_exact end to end: what recvfrom() returns, in order, is what sendto() accepted, minus what is
   still queued and minus what was dropped by one of the documented rules.  Ghost history + invariant. *)
From Coq Require Import ZArith List Bool Lia ZifyBool Permutation.
From NV Require Import Base.Result Base.Bytes Base.PyPrims Model.Addr Proofs.Addr Proofs.AddrInv Proofs.AddrStep Proofs.AddrThm.
Import ListNotations.
Open Scope Z_scope.

Inductive sub {A} : list A -> list A -> Prop :=
| sub_nil : sub [] []
| sub_skip x l1 l2 : sub l1 l2 -> sub l1 (x :: l2)
| sub_keep x l1 l2 : sub l1 l2 -> sub (x :: l1) (x :: l2).

Lemma sub_refl {A} (l : list A) : sub l l.
Proof. induction l; [apply sub_nil | apply sub_keep; auto]. Qed.
Lemma sub_nil_l {A} (l : list A) : sub [] l.
Proof. induction l; [apply sub_nil | apply sub_skip; auto]. Qed.
Lemma sub_trans {A} (l1 l2 l3 : list A) : sub l1 l2 -> sub l2 l3 -> sub l1 l3.
Proof. intros H12 H23. revert l1 H12. induction H23; intros l0 H; auto.
  - apply sub_skip. auto.
  - inversion H; subst; [apply sub_skip | apply sub_keep]; auto. Qed.
Lemma sub_app {A} (a1 a2 b1 b2 : list A) : sub a1 a2 -> sub b1 b2 -> sub (a1 ++ b1) (a2 ++ b2).
Proof. induction 1; cbn; intros; auto; [apply sub_skip | apply sub_keep]; auto. Qed.
Lemma sub_drop_mid {A} (k1 d k2 : list A) : sub (k1 ++ k2) (k1 ++ d ++ k2).
Proof. apply sub_app; [apply sub_refl|]. induction d; cbn; [apply sub_refl | apply sub_skip; auto]. Qed.

Lemma perm_drop_mid {A} (k1 d k2 dr : list A) : Permutation ((k1 ++ d ++ k2) ++ dr) ((k1 ++ k2) ++ dr ++ d).
Proof.
  rewrite <- !app_assoc. apply Permutation_app_head.
  rewrite (app_assoc k2 dr d). apply Permutation_app_comm.
Qed.

Definition sq (c : ctl) (k : nat) : list pdu := match get_sock c k with Some sk => s_sendq sk | None => [] end.
Definition rq (c : ctl) (k : nat) : list pdu := match get_sock c k with Some sk => s_recvq sk | None => [] end.

(* what an API call does to the queues of the datagram socket it is made on *)
Definition sendq_after (o : lop) (res : res out) (sk sk' : sock) : list pdu :=
  match o, res with
  | LSendto _ m d, Ok (OBool true) => s_sendq sk ++ [PUI d (match s_addr sk' with Some x => x | None => 0 end) m]
  | LClose _, Ok OUnit => []
  | _, _ => s_sendq sk
  end.
Definition recvq_after (o : lop) (res : res out) (sk sk' : sock) : Prop :=
  match o, res with
  | LRecvfrom _, Ok (ODgram data ss) => exists d, s_recvq sk = PUI d ss data :: s_recvq sk'
  | LClose _, Ok OUnit => s_recvq sk' = []
  | _, _ => s_recvq sk' = s_recvq sk
  end.

(* the results after which a queue of the datagram socket differs *)
Definition moves (o : lop) (res : res out) : bool :=
  match o, res with
  | LSendto _ _ _, Ok (OBool true) | LRecvfrom _, Ok (ODgram _ _) | LClose _, Ok OUnit => true
  | _, _ => false
  end.

Lemma lstep_target_ldl c o c' res k sk : wf c -> lstep c o = (c', res) -> target o = Some k ->
  get_sock c k = Some sk -> s_type sk = TLdl ->
  exists sk', get_sock c' k = Some sk' /\ s_sendq sk' = sendq_after o res sk sk' /\ recvq_after o res sk sk'.
Proof.
  intros W L T G Ty.
  assert (SAME : forall r0, (c, r0) = (c', res) -> moves o r0 = false ->
            exists sk', get_sock c' k = Some sk' /\ s_sendq sk' = sendq_after o res sk sk' /\ recvq_after o res sk sk').
  { intros r0 E M. injection E as <- <-. exists sk. split; auto. unfold sendq_after, recvq_after.
    destruct o; auto; destruct r0 as [[]| | |]; auto; try discriminate. destruct b; auto; discriminate. }
  destruct o; cbn in T; inversion T; subst; cbn [lstep] in L.
  - (* bind: the socket is put back with an address (and a name) *)
    unfold do_bind in L. rewrite G in L. destruct (s_addr sk) eqn:A; [exact (SAME _ L eq_refl)|].
    destruct arg.
    + unfold bind_none in L. destruct (first_free c (zrange 32 64)); [|exact (SAME _ L eq_refl)]. inversion L; subst.
      eexists. split; [eapply place_get_self; eauto | split; reflexivity].
    + unfold bind_addr in L. repeat match type of L with context [if ?b then _ else _] => destruct b end;
        try exact (SAME _ L eq_refl). inversion L; subst. eexists. split; [eapply place_get_self; eauto | split; reflexivity].
    + unfold bind_name in L. destruct (negb (name_valid n)); [exact (SAME _ L eq_refl)|].
      destruct (lookup (c_snl c) n); [exact (SAME _ L eq_refl)|].
      destruct (wks n); [destruct (is_free c z) | destruct (first_free c (zrange 16 32))]; try exact (SAME _ L eq_refl);
        inversion L; subst; (eexists; split; [eapply (place_get_self c k (set_bname sk (Some n))); eauto | split; reflexivity]).
    + exact (SAME _ L eq_refl).
  - (* listen *)
    unfold do_listen in L. rewrite G, Ty in L. destruct (s_pend sk); exact (SAME _ L eq_refl).
  - (* accept *)
    unfold do_accept in L. rewrite G, Ty in L. destruct (s_pend sk); exact (SAME _ L eq_refl).
  - (* connect: sets the peer *)
    unfold do_connect in L. rewrite G in L. destruct (s_pend sk); try exact (SAME _ L eq_refl).
    destruct (autobind c k sk) as [c1 [s1|]] eqn:E; destruct (autobind_good _ _ _ _ _ W G E) as (_ & P).
    + destruct P as (G1 & (T1 & St1 & P1 & R1 & RQ & SQ & _) & _). rewrite T1, Ty in L.
      destruct (s_state s1); (destruct d; inversion L; subst; (eexists; split; [first [eapply get_put_same; eauto | eauto] | split; cbn; auto])).
    + destruct P as (-> & _). exact (SAME _ L eq_refl).
  - (* sendto *)
    unfold do_sendto in L. rewrite G, Ty in L. destruct (s_pend sk); try exact (SAME _ L eq_refl).
    destruct (autobind c k sk) as [c1 [s1|]] eqn:E; destruct (autobind_good _ _ _ _ _ W G E) as (_ & P).
    + destruct P as (G1 & (T1 & St1 & P1 & R1 & RQ & SQ & _) & _).
      destruct (s_state s1);
        repeat match type of L with context [if ?b then _ else _] => destruct b end; inversion L; subst;
        (eexists; split; [first [eapply get_put_same; eauto | eauto] | split; cbn; auto; congruence]).
    + destruct P as (-> & _). exact (SAME _ L eq_refl).
  - (* rawsend on a datagram socket: TypeError *)
    unfold do_rawsend in L. rewrite G, Ty in L. exact (SAME _ L eq_refl).
  - (* recvfrom: the head of the queue is a UI PDU *)
    unfold do_recvfrom in L. rewrite G, Ty in L. destruct (s_pend sk); try exact (SAME _ L eq_refl).
    match type of L with context [if ?b then _ else _] => destruct b end; [exact (SAME _ L eq_refl)|].
    destruct (s_state sk); try exact (SAME _ L eq_refl);
      (destruct (s_recvq sk) as [|p q] eqn:Q; [exact (SAME _ L eq_refl)|];
       assert (U : ui_dst (s_addr sk) p) by (eapply (wf_ldl_rq _ W); eauto; rewrite Q; left; auto);
       destruct U as (d0 & sa0 & data0 & -> & _); inversion L; subst;
       eexists; split; [eapply get_put_same; eauto | split; cbn; eauto]).
  - (* setsockopt *)
    unfold do_rcvbuf in L. rewrite G, Ty in L. destruct (s_state sk); try exact (SAME _ L eq_refl);
      inversion L; subst; (eexists; split; [eapply get_put_same; eauto | split; reflexivity]).
  - (* close *)
    unfold do_close in L. rewrite G in L. destruct (s_pend sk); try exact (SAME _ L eq_refl).
    assert (SC : sock_close sk = Some (base_close sk)) by (unfold sock_close; rewrite Ty; reflexivity).
    rewrite SC in L. destruct (s_addr sk) as [a|].
    + destruct (sap_get c a); inversion L; subst;
        (eexists; split; [try rewrite sap_remove_get; eapply get_put_same; eauto | split; reflexivity]).
    + inversion L; subst. eexists; split; [eapply get_put_same; eauto | split; reflexivity].
  - (* getsockname *)
    rewrite G in L. destruct (s_addr sk); exact (SAME _ L eq_refl).
Qed.

(* without raw access points a UI PDU leaves a controller only from the send queue of the datagram socket bound at its
   source address *)
Lemma collect_ui_origin c a' miu d ss data c' : wf c -> (forall j sj, get_sock c j = Some sj -> s_type sj <> TRaw) ->
  collect1 c a' miu = Some (PUI d ss data, c') ->
  exists k sk rest, get_sock c k = Some sk /\ s_type sk = TLdl /\ s_addr sk = Some ss /\
                    s_sendq sk = PUI d ss data :: rest /\ get_sock c' k = Some (set_sendq sk rest).
Proof.
  intros W NR C. destruct (collect_cases _ _ _ _ _ C) as [(x & sx & sx' & L & Gx & SD & ->)|[(l & t & SG & ->)|(_ & SD)]].
  - destruct (sock_dequeue_cases _ _ _ _ SD) as (rest & Q & _ & _ & E'). destruct (s_type sx) eqn:Ty.
    + exfalso. eapply NR; eauto.
    + rewrite (E' eq_refl).
      assert (U : ui_src (s_addr sx) (PUI d ss data)) by (eapply (wf_ldl_sq _ W); eauto; rewrite Q; left; auto).
      destruct U as (d0 & dt & a0 & E & A0). inversion E; subst.
      exists x, sx, rest. repeat split; auto. eapply get_put_same; eauto.
    + exfalso. assert (is_ui (PUI d ss data) = false) by (eapply (wf_dlc_sq _ W); eauto; rewrite Q; left; auto). discriminate.
  - exfalso. assert (is_ui (PUI d ss data) = false) by (eapply (wf_sendl_ui _ W); eauto; left; auto). discriminate.
  - exfalso. destruct (sd_dequeue_good _ _ _ _ W SD) as (_ & _ & U). discriminate.
Qed.

(* service discovery wakes resolve() calls only *)
Lemma wake_events cache w evs rest : wake cache w = (evs, rest) -> forall e, In e evs -> exists n v, e = EvResolved n v.
Proof.
  revert evs rest. induction w as [|n t IH]; cbn; intros evs rest H; [inversion H; subst; intros e []|].
  destruct (wake cache t) as [evs0 rest0]. destruct (lookup cache n); inversion H; subst; eauto.
  intros e [<-|Hin]; eauto.
Qed.

(* a UI PDU for an address at which no connection socket is bound is dispatched without waiting *)
Lemma dispatch_ui_ok c d ss data c' res :
  (forall j sj, listed c d j -> get_sock c j = Some sj -> s_type sj <> TDlc) ->
  dispatch c (PUI d ss data) = (c', res) -> exists evs, res = Ok evs.
Proof.
  intros ND D. change (route c (PUI d ss data) = (c', res)) in D.
  destruct (route_cases _ _ _ _ D) as [[_ ->]|[[_ S]|[(j & sj & L & G & S & _)|(_ & _ & _ & _ & U & _)]]]; eauto; [inversion S; eauto | | discriminate].
  destruct (sock_enqueue_dgram c j sj (PUI d ss data) (ND j sj L G)) as [E|[E _]]; rewrite E in S; inversion S; eauto.
Qed.

Lemma same_queues c c' k : (forall j, get_sock c' j = get_sock c j) -> sq c' k = sq c k /\ rq c' k = rq c k.
Proof. intro E. unfold sq, rq. rewrite E. auto. Qed.

(* the queues of datagram socket k across collect (the head of its send queue may go) and across dispatch (a UI PDU
   for its address may be appended to its receive queue) *)
Lemma sq_collect c a' miu p c1 k : wf c -> collect1 c a' miu = Some (p, c1) ->
  (forall sk, get_sock c k = Some sk -> s_type sk = TLdl) ->
  (sq c1 k = sq c k /\ rq c1 k = rq c k) \/
  (exists sk rest, get_sock c k = Some sk /\ sq c k = p :: rest /\ sq c1 k = rest /\ rq c1 k = rq c k /\ s_addr sk = Some a').
Proof.
  intros W C TY. destruct (collect_cases _ _ _ _ _ C) as [(x & sx & sx' & L & Gx & SD & ->)|[(l & t & SG & ->)|(_ & SD)]].
  - destruct (Nat.eq_dec k x) as [->|N]; [|left; unfold sq, rq; rewrite get_put_other; auto].
    destruct (sock_dequeue_cases _ _ _ _ SD) as (rest & Q & _ & _ & E'). rewrite (E' (TY sx Gx)). right. exists sx, rest.
    unfold sq, rq. rewrite Gx, (get_put_same c x _ sx Gx). cbn. repeat split; auto.
    destruct (wf_listed_addr _ W a' x L) as (s0 & G0 & A0). congruence.
  - left. apply same_queues. intro. apply get_sock_sap_set.
  - left. apply same_queues. intro. unfold get_sock. rewrite (proj1 (proj2 (sd_dequeue_good _ _ _ _ W SD))). reflexivity.
Qed.

Lemma rq_dispatch c p c2 r0 k : wf c -> dispatch c p = (c2, r0) ->
  (forall sk, get_sock c k = Some sk -> s_type sk = TLdl) ->
  (rq c2 k = rq c k /\ sq c2 k = sq c k) \/
  (exists sk, get_sock c k = Some sk /\ rq c2 k = rq c k ++ [p] /\ sq c2 k = sq c k /\ is_ui p = true /\ s_addr sk = Some (pdu_dsap p)).
Proof.
  intros W D TY.
  assert (SAME : (forall j, get_sock c2 j = get_sock c j) -> rq c2 k = rq c k /\ sq c2 k = sq c k)
    by (intro E; destruct (same_queues c c2 k E); auto).
  destruct (dispatch_route c p) as [(q & Hq & E)|(x & _ & _ & E)]; rewrite E in D; [|inversion D; subst; left; apply SAME; reflexivity].
  destruct (route_cases _ _ _ _ D) as [[-> _]|[[_ S]|[(i & s & L & G & S & _)|(l & sl & n & _ & _ & _ & ->)]]].
  - left. apply SAME. reflexivity.
  - left. apply SAME. intro j. unfold get_sock. rewrite <- (sd_enqueue_socks c q), S. reflexivity.
  - destruct (wf_listed_addr _ W _ i L) as (s0 & G0 & A0). assert (A : s_addr s = Some (pdu_dsap q)) by congruence.
    destruct (Nat.eq_dec k i) as [->|N].
    + (* the socket that gets the PDU takes it, if it is a datagram not rewritten by dispatch, or leaves it *)
      destruct (sock_enqueue_dgram c i s q) as [E'|[E' U]]; [rewrite (TY s G); discriminate | |]; rewrite E' in S; inversion S; subst.
      * left. apply SAME. reflexivity.
      * specialize (U (TY s G)). destruct Hq as [->|[NU _]]; [|congruence]. right. exists s.
        unfold rq, sq. rewrite G, (get_put_same c i _ s G). cbn. auto.
    + left. unfold rq, sq. replace c2 with (fst (sock_enqueue c i s q)) by (rewrite S; reflexivity).
      rewrite (proj2 (sock_enqueue_good c i s q W G A) k N). auto.
  - left. apply SAME. intro. apply get_sock_sap_set.
Qed.

(* the queues of datagram socket k after an API call on its controller *)
Lemma queues_after_lstep c lo c' res k sa0 : wf c -> lstep c lo = (c', res) ->
  (forall sk, get_sock c k = Some sk -> s_type sk = TLdl) ->
  (forall sk', get_sock c' k = Some sk' -> s_addr sk' = None \/ s_addr sk' = Some sa0) ->
  sq c' k = match lo, res with
            | LSendto k' m d, Ok (OBool true) => if Nat.eqb k' k then sq c k ++ [PUI d sa0 m] else sq c k
            | LClose k', Ok OUnit => if Nat.eqb k' k then [] else sq c k
            | _, _ => sq c k
            end /\
  match lo, res with
  | LRecvfrom k', Ok (ODgram data ss) => if Nat.eqb k' k then exists d, rq c k = PUI d ss data :: rq c' k else rq c' k = rq c k
  | LClose k', Ok OUnit => if Nat.eqb k' k then rq c' k = [] else rq c' k = rq c k
  | _, _ => rq c' k = rq c k
  end.
Proof.
  intros W L TY AD.
  assert (OTHER : target lo <> Some k -> sq c' k = sq c k /\ rq c' k = rq c k).
  { intro T. unfold sq, rq. pose proof (proj2 (proj2 (lstep_good c lo W)) k T) as F. rewrite L in F.
    destruct F as [E|(E & x & E' & Q & R)]; cbn [fst] in *; [rewrite E; auto|].
    rewrite E, E'. auto. }
  destruct (target lo) as [t|] eqn:T.
  2:{ destruct OTHER as [-> E]; [congruence|]. destruct lo; cbn in T; try discriminate; auto. }
  destruct (Nat.eq_dec t k) as [->|N].
  2:{ destruct OTHER as [-> E]; [congruence|]. assert (F : Nat.eqb t k = false) by (apply Nat.eqb_neq; auto).
      destruct lo; cbn in T; inversion T; subst; auto; destruct res as [[]| | |]; auto; try destruct b; auto; rewrite F; auto. }
  destruct (get_sock c k) as [sk|] eqn:G.
  - specialize (TY sk eq_refl).
    destruct (lstep_target_ldl _ _ _ _ _ _ W L T G TY) as (sk' & G' & Q & R).
    unfold sq, rq. rewrite G, G', Q.
    destruct lo; cbn in T; inversion T; subst; cbn [sendq_after recvq_after] in *; auto;
      destruct res as [[]| | |]; auto; try destruct b; auto; rewrite Nat.eqb_refl; auto.
    (* sendto: the source address is the one the socket has afterwards *)
    split; auto. destruct (AD _ G') as [A|A]; [exfalso | rewrite A; reflexivity].
    cbn [lstep] in L. destruct (datagram_sendto _ W _ _ _ _ _ G TY L) as (s2 & a2 & G3 & A3 & _). congruence.
  - assert (E : lstep c lo = (c, Err (LlcpError ENOTSOCK))).
    { destruct lo; cbn in T; inversion T; subst; cbn [lstep];
        unfold do_bind, do_listen, do_accept, do_connect, do_sendto, do_rawsend, do_recvfrom, do_rcvbuf, do_close; rewrite G; reflexivity. }
    rewrite E in L. inversion L; subst. destruct lo; cbn in T; inversion T; subst; auto.
Qed.

Section Dgram.
(* sender: datagram socket i of controller X, bound at s; receiver: datagram socket r of the peer controller, bound at a *)
Variables (X : side) (i r : nat) (s a : Z).
Definition Yside : side := other X.

Definition side_eqb (u v : side) : bool := match u, v with SA, SA | SB, SB => true | _, _ => false end.
Lemma side_eqb_refl u : side_eqb u u = true. Proof. destruct u; reflexivity. Qed.
Lemma side_eqb_other u : side_eqb u (other u) = false /\ side_eqb (other u) u = false. Proof. destruct u; split; reflexivity. Qed.
Lemma side_eqb_eq u v : side_eqb u v = true -> u = v. Proof. destruct u, v; cbn; congruence. Qed.

Definition to_a (p : pdu) : bool := match p with PUI d _ _ => d =? a | _ => false end.
Definition from_s (p : pdu) : bool := match p with PUI _ ss _ => ss =? s | _ => false end.
(* datagrams for a still waiting in the send queue of i / datagrams from s waiting in the receive queue of r *)
Definition outq (st : sys) : list pdu := filter to_a (sq (get_side st X) i).
Definition inq (st : sys) : list pdu := filter from_s (rq (get_side st Yside) r).

Record ghost := mkG {
  g_sent : list pdu;      (* PUI a s msg for every sendto(msg, a) accepted on socket i, oldest first *)
  g_rcvd : list pdu;      (* PUI a s data for every (data, s) returned by recvfrom on socket r, oldest first *)
  g_drop : list pdu }.    (* datagrams discarded by one of the three rules below, in the order of being discarded *)

Definition gupd (st st' : sys) (o : op) (res : res out) (g : ghost) : ghost :=
  match o, res with
  | XLoc sd (LSendto k m d), Ok (OBool true) =>
      if side_eqb sd X && Nat.eqb k i && (d =? a) then mkG (g_sent g ++ [PUI a s m]) (g_rcvd g) (g_drop g) else g
  | XLoc sd (LRecvfrom k), Ok (ODgram data ss) =>
      if side_eqb sd Yside && Nat.eqb k r && (ss =? s) then mkG (g_sent g) (g_rcvd g ++ [PUI a s data]) (g_drop g) else g
  | XLoc sd (LClose k), Ok OUnit =>
      (* rule 1: close() of the sender discards what it has not sent; rule 2: close() of the receiver discards what
         it has not delivered *)
      if side_eqb sd X && Nat.eqb k i then mkG (g_sent g) (g_rcvd g) (g_drop g ++ outq st)
      else if side_eqb sd Yside && Nat.eqb k r then mkG (g_sent g) (g_rcvd g) (g_drop g ++ inq st)
      else g
  | XXfer from _ _, Ok (OXfer (Some p) _) =>
      (* rule 3: a datagram that arrives and does not enter the receive queue of r is discarded *)
      if side_eqb from X && to_a p && from_s p &&
         Nat.eqb (length (rq (get_side st' Yside) r)) (length (rq (get_side st Yside) r))
      then mkG (g_sent g) (g_rcvd g) (g_drop g ++ [p]) else g
  | _, _ => g
  end.

Definition grun_step (sg : sys * ghost) (o : op) : sys * ghost :=
  let '(st', res) := step (fst sg) o in (st', gupd (fst sg) st' o res (snd sg)).
Definition grun (blk : bool) (ops : list op) : sys * ghost :=
  fold_left grun_step ops (init_sys blk, mkG [] [] []).

Lemma grun_fst ops : forall sg, fst (fold_left grun_step ops sg) = fold_left (fun st o => fst (step st o)) ops (fst sg).
Proof.
  induction ops as [|o t IH]; intro sg; [reflexivity|]. cbn [fold_left]. rewrite IH. f_equal.
  unfold grun_step. destruct (step (fst sg) o); reflexivity.
Qed.
Lemma grun_exec blk ops : fst (grun blk ops) = exec blk ops.
Proof. unfold grun, exec. rewrite grun_fst. reflexivity. Qed.
Lemma grun_app blk ops o : grun blk (ops ++ [o]) = grun_step (grun blk ops) o.
Proof. unfold grun. rewrite fold_left_app. reflexivity. Qed.

(* ---- the guard: s and a belong to i and r alone, and X has no raw access point (monotone: true at the end of a
        history, true all along, because a socket keeps its type and its address) *)
Definition compat (st : sys) : Prop :=
  (forall si, get_sock (get_side st X) i = Some si -> s_type si = TLdl /\ (s_addr si = None \/ s_addr si = Some s)) /\
  (forall sr, get_sock (get_side st Yside) r = Some sr -> s_type sr = TLdl /\ (s_addr sr = None \/ s_addr sr = Some a)) /\
  (forall j sj, get_sock (get_side st X) j = Some sj -> s_addr sj = Some s -> j = i) /\
  (forall j sj, get_sock (get_side st Yside) j = Some sj -> s_addr sj = Some a -> j = r) /\
  (forall j sj, get_sock (get_side st X) j = Some sj -> s_type sj <> TRaw).

Lemma compat_back st o : wf2 st -> compat (fst (step st o)) -> compat st.
Proof.
  intros W (C1 & C2 & C3 & C4 & C5).
  assert (M : forall sd j sj, get_sock (get_side st sd) j = Some sj ->
            exists sj', get_sock (get_side (fst (step st o)) sd) j = Some sj' /\ s_type sj' = s_type sj /\
                        (forall x, s_addr sj = Some x -> s_addr sj' = Some x)).
  { intros sd j sj G. destruct (step_addr st o sd W j sj G) as (sj' & G' & T & [A|(A & _)]); exists sj'; repeat split; auto; congruence. }
  repeat split.
  - destruct (M X i si H) as (si' & G' & T & _). destruct (C1 _ G'). congruence.
  - destruct (M X i si H) as (si' & G' & T & A). destruct (C1 _ G') as [_ [N|E]]; destruct (s_addr si) as [x|] eqn:Ax; auto;
      specialize (A x eq_refl); right; congruence.
  - destruct (M Yside r sr H) as (sr' & G' & T & _). destruct (C2 _ G'). congruence.
  - destruct (M Yside r sr H) as (sr' & G' & T & A). destruct (C2 _ G') as [_ [N|E]]; destruct (s_addr sr) as [x|] eqn:Ax; auto;
      specialize (A x eq_refl); right; congruence.
  - intros j sj G A. destruct (M X j sj G) as (sj' & G' & _ & A'). eapply C3; eauto.
  - intros j sj G A. destruct (M Yside j sj G) as (sj' & G' & _ & A'). eapply C4; eauto.
  - intros j sj G T. destruct (M X j sj G) as (sj' & G' & T' & _). eapply C5; eauto. congruence.
Qed.

Definition kept (st : sys) (g : ghost) : list pdu := g_rcvd g ++ inq st ++ outq st.
Definition J (st : sys) (g : ghost) : Prop :=
  sub (kept st g) (g_sent g) /\ Permutation (g_sent g) (kept st g ++ g_drop g).

Lemma J_same st g st' g' : kept st' g' = kept st g -> g_sent g' = g_sent g -> g_drop g' = g_drop g -> J st g -> J st' g'.
Proof. unfold J. intros -> -> ->. auto. Qed.
Lemma J_send st g st' g' p : kept st' g' = kept st g ++ [p] -> g_sent g' = g_sent g ++ [p] -> g_drop g' = g_drop g ->
  J st g -> J st' g'.
Proof.
  unfold J. intros -> -> -> [S P]. split; [apply sub_app; [auto | apply sub_refl]|].
  rewrite <- app_assoc. apply Permutation_trans with ((kept st g ++ g_drop g) ++ [p]).
  - apply Permutation_app_tail. auto.
  - rewrite <- app_assoc. apply Permutation_app_head. apply Permutation_app_comm.
Qed.
Lemma J_drop st g st' g' k1 d k2 : kept st g = k1 ++ d ++ k2 -> kept st' g' = k1 ++ k2 -> g_sent g' = g_sent g ->
  g_drop g' = g_drop g ++ d -> J st g -> J st' g'.
Proof.
  unfold J. intros E -> -> -> [S P]. rewrite E in *. split.
  - eapply sub_trans; [apply sub_drop_mid | exact S].
  - eapply Permutation_trans; [exact P | apply perm_drop_mid].
Qed.

Lemma side_cases sd : sd = X \/ sd = Yside.
Proof. unfold Yside. destruct sd, X; auto. Qed.
Lemma Y_ne_X : Yside <> X. Proof. unfold Yside. destruct X; discriminate. Qed.
Lemma get_side_set_other st sd c sd' : sd' <> sd -> get_side (set_side st sd c) sd' = get_side st sd'.
Proof. destruct sd, sd'; intro N; try congruence; reflexivity. Qed.

Lemma J_step_loc st sd lo c' res g : wf2 st -> compat st -> compat (set_side st sd c') ->
  lstep (get_side st sd) lo = (c', res) -> J st g ->
  J (set_side st sd c') (gupd st (set_side st sd c') (XLoc sd lo) res g).
Proof.
  intros W C C' L HJ. set (st' := set_side st sd c').
  destruct (side_cases sd) as [->| ->].
  - (* an API call on the sender's controller *)
    assert (EX : get_side st' X = c') by apply get_set_side_same.
    assert (EY : get_side st' Yside = get_side st Yside) by (apply get_side_set_other; apply Y_ne_X).
    assert (IN : inq st' = inq st) by (unfold inq; rewrite EY; auto).
    destruct C as (C1 & _). destruct C' as (C1' & _). rewrite get_set_side_same in C1'.
    pose proof (proj1 (queues_after_lstep (get_side st X) lo c' res i s (wf2_side st X W) L
                  (fun sk G => proj1 (C1 sk G)) (fun sk' G => proj2 (C1' sk' G)))) as SQ.
    assert (OUT : outq st' = filter to_a (sq c' i)) by (unfold outq; rewrite EX; auto).
    assert (NOP : sq c' i = sq (get_side st X) i -> J st' g).
    { intro E. apply (J_same st g); auto. unfold kept. rewrite IN, OUT, E. reflexivity. }
    pose proof (side_eqb_refl X) as SX. destruct (side_eqb_other X) as [SXY SYX]. fold Yside in SXY, SYX.
    (* gupd looks at sendto, recvfrom and close only; for every other call SQ says that the queue is as before *)
    destruct lo; try exact (NOP SQ).
    + (* sendto *)
      destruct res as [[]| | |]; try exact (NOP SQ).
      match goal with bb : bool |- _ => destruct bb end; [|exact (NOP SQ)].
      cbn [gupd]. rewrite SX. cbn [andb]. destruct (Nat.eqb i0 i) eqn:EI; [|exact (NOP SQ)].
      cbn [andb]. destruct (d =? a) eqn:ED.
      * assert (d = a) by lia. subst d. apply (J_send st g st' _ (PUI a s msg)); [| reflexivity | reflexivity | exact HJ].
        unfold kept. cbn [g_rcvd]. rewrite IN, OUT, SQ, filter_app. cbn [filter to_a]. rewrite Z.eqb_refl.
        unfold outq. rewrite !app_assoc. reflexivity.
      * apply (J_same st g); [| reflexivity | reflexivity | exact HJ]. unfold kept. rewrite IN, OUT, SQ, filter_app. cbn [filter to_a]. rewrite ED, app_nil_r. reflexivity.
    + (* recvfrom on the sender's side: not the receiver *)
      destruct res as [[]| | |]; try exact (NOP SQ).
      cbn [gupd]. rewrite SXY. cbn [andb]. exact (NOP SQ).
    + (* close *)
      destruct res as [[]| | |]; try exact (NOP SQ).
      cbn [gupd]. rewrite SX, SXY. cbn [andb]. destruct (Nat.eqb i0 i) eqn:EI; [|exact (NOP SQ)].
      apply (J_drop st g st' _ (g_rcvd g ++ inq st) (outq st) []); [| | reflexivity | reflexivity | exact HJ].
      * unfold kept. rewrite app_nil_r, app_assoc. reflexivity.
      * unfold kept. cbn [g_rcvd]. rewrite IN, OUT, SQ. cbn. rewrite app_assoc. reflexivity.
  - (* an API call on the receiver's controller *)
    assert (EY : get_side st' Yside = c') by apply get_set_side_same.
    assert (EX : get_side st' X = get_side st X) by (apply get_side_set_other; intro E; apply Y_ne_X; auto).
    assert (OUT : outq st' = outq st) by (unfold outq; rewrite EX; auto).
    destruct C as (_ & C2 & _). destruct C' as (_ & C2' & _). rewrite get_set_side_same in C2'.
    pose proof (proj2 (queues_after_lstep (get_side st Yside) lo c' res r a (wf2_side st Yside W) L
                  (fun sk G => proj1 (C2 sk G)) (fun sk' G => proj2 (C2' sk' G)))) as RQ.
    assert (IN : inq st' = filter from_s (rq c' r)) by (unfold inq; rewrite EY; auto).
    assert (NOP : rq c' r = rq (get_side st Yside) r -> J st' g).
    { intro E. apply (J_same st g); auto. unfold kept. rewrite IN, OUT, E. reflexivity. }
    pose proof (side_eqb_refl Yside) as SY. destruct (side_eqb_other X) as [SXY SYX]. fold Yside in SXY, SYX.
    destruct lo; try exact (NOP RQ).
    + (* sendto on the receiver's side *)
      assert (E : rq c' r = rq (get_side st Yside) r) by (destruct res as [[]| | |]; auto).
      destruct res as [[]| | |]; try exact (NOP E).
      match goal with bb : bool |- _ => destruct bb end; cbn [gupd]; [rewrite SYX; cbn [andb]|]; exact (NOP E).
    + (* recvfrom *)
      destruct res as [[]| | |]; try exact (NOP RQ).
      cbn [gupd]. rewrite SY. cbn [andb]. destruct (Nat.eqb i0 r) eqn:EI; [|exact (NOP RQ)].
      cbn [andb]. destruct RQ as (d & RQ).
      (* the datagram at the head of the queue is addressed to a *)
      assert (d = a).
      { unfold rq in RQ. destruct (get_sock (get_side st Yside) r) as [sr|] eqn:G; [|discriminate].
        destruct (C2 sr eq_refl) as [Ty AD].
        destruct (wf_ldl_rq _ (wf2_side st Yside W) r sr (PUI d ssap data) G Ty) as (d0 & s0 & dt & E & A0); [rewrite RQ; left; auto|].
        inversion E as [[E1 E2 E3]]. destruct AD; congruence. }
      subst d. destruct (ssap =? s) eqn:ES.
      * assert (ssap = s) by lia. subst ssap. apply (J_same st g); [| reflexivity | reflexivity | exact HJ].
        unfold kept. cbn [g_rcvd]. rewrite IN, OUT. unfold inq. rewrite RQ. cbn [filter from_s]. rewrite Z.eqb_refl.
        rewrite <- !app_assoc. reflexivity.
      * apply (J_same st g); [| reflexivity | reflexivity | exact HJ]. unfold kept. rewrite IN, OUT. unfold inq. rewrite RQ. cbn [filter from_s]. rewrite ES. reflexivity.
    + (* close *)
      destruct res as [[]| | |]; try exact (NOP RQ).
      cbn [gupd]. rewrite SYX, SY. cbn [andb]. destruct (Nat.eqb i0 r) eqn:EI; [|exact (NOP RQ)].
      apply (J_drop st g st' _ (g_rcvd g) (inq st) (outq st)); [reflexivity | | reflexivity | reflexivity | exact HJ].
      unfold kept. cbn [g_rcvd]. rewrite IN, OUT, RQ. reflexivity.
Qed.

Lemma other_Y : other Yside = X. Proof. unfold Yside. destruct X; reflexivity. Qed.

Lemma J_step_xfer st from a' miu st' res g : wf2 st -> compat st ->
  step st (XXfer from a' miu) = (st', res) -> J st g -> J st' (gupd st st' (XXfer from a' miu) res g).
Proof.
  intros W C S HJ. cbn [step] in S.
  destruct (collect1 (get_side st from) a' miu) as [[p c1]|] eqn:CO; [|inversion S; subst; exact HJ].
  destruct (dispatch (get_side (set_side st from c1) (other from)) p) as [c2 r0] eqn:D.
  injection S as S1 S2. subst st' res. set (st' := set_side (set_side st from c1) (other from) c2).
  pose proof (side_eqb_refl X) as SX. destruct (side_eqb_other X) as [SXY SYX]. fold Yside in SXY, SYX.
  destruct C as (C1 & C2 & C3 & C4 & C5).
  destruct (side_cases from) as [->| ->].
  - (* towards the receiver *)
    fold Yside in *. rewrite (get_side_set_other st X c1 Yside Y_ne_X) in D.
    assert (EX : get_side st' X = c1).
    { unfold st'. rewrite get_side_set_other by (intro E; apply Y_ne_X; auto). apply get_set_side_same. }
    assert (EY : get_side st' Yside = c2) by (unfold st'; apply get_set_side_same).
    pose proof (wf2_side st X W) as WX. pose proof (wf2_side st Yside W) as WY.
    pose proof (sq_collect _ _ _ _ _ i WX CO (fun sk G => proj1 (C1 sk G))) as QS.
    pose proof (rq_dispatch _ _ _ _ r WY D (fun sk G => proj1 (C2 sk G))) as QR.
    assert (OUT : outq st' = filter to_a (sq c1 i)) by (unfold outq; rewrite EX; auto).
    assert (IN : inq st' = filter from_s (rq c2 r)) by (unfold inq; rewrite EY; auto).
    assert (LEN : rq (get_side st' Yside) r = rq c2 r) by (rewrite EY; auto).
    destruct (to_a p && from_s p) eqn:P.
    + (* a datagram from s for a *)
      apply andb_true_iff in P. destruct P as [PA PS].
      destruct p as [d ss data| | | | | |]; try discriminate. cbn in PA, PS. assert (d = a) by lia. assert (ss = s) by lia. subst d ss.
      destruct (collect_ui_origin _ _ _ _ _ _ _ WX C5 CO) as (k & sk & rest & Gk & Tk & Ak & Qk & Gk').
      assert (k = i) by (eapply C3; eauto). subst k.
      assert (SQ0 : sq (get_side st X) i = PUI a s data :: rest) by (unfold sq; rewrite Gk; auto).
      assert (SQ1 : sq c1 i = rest) by (unfold sq; rewrite Gk'; auto).
      assert (ND : forall j sj, listed (get_side st Yside) a j -> get_sock (get_side st Yside) j = Some sj -> s_type sj <> TDlc).
      { intros j sj Lj Gj. destruct (wf_listed_addr _ WY a j Lj) as (s0 & G0 & A0). rewrite Gj in G0. inversion G0; subst s0.
        assert (j = r) by (eapply C4; eauto). subst j. destruct (C2 sj Gj) as [T _]. congruence. }
      destruct (dispatch_ui_ok _ _ _ _ _ _ ND D) as (evs & ->).
      cbn [gupd]. rewrite SX. cbn [to_a from_s andb]. rewrite !Z.eqb_refl. cbn [andb]. rewrite LEN.
      assert (KEPT : kept st g = (g_rcvd g ++ inq st) ++ [PUI a s data] ++ filter to_a rest).
      { unfold kept, outq. rewrite SQ0. cbn [filter to_a]. rewrite Z.eqb_refl. rewrite <- app_assoc. reflexivity. }
      destruct QR as [[R _]|(sr & Gr & R & _ & _ & _)]; rewrite R.
      * rewrite Nat.eqb_refl.
        apply (J_drop st g st' _ (g_rcvd g ++ inq st) [PUI a s data] (filter to_a rest)); [exact KEPT | | reflexivity | reflexivity | exact HJ].
        unfold kept. cbn [g_rcvd]. rewrite IN, OUT, R, SQ1. rewrite <- app_assoc. reflexivity.
      * rewrite app_length. cbn [length]. replace (Nat.eqb (length (rq (get_side st Yside) r) + 1) (length (rq (get_side st Yside) r))) with false
          by (symmetry; apply Nat.eqb_neq; lia).
        apply (J_same st g); [| reflexivity | reflexivity | exact HJ].
        rewrite KEPT. unfold kept. rewrite IN, OUT, R, SQ1, filter_app. cbn [filter from_s]. rewrite Z.eqb_refl.
        unfold inq. rewrite <- !app_assoc. reflexivity.
    + (* anything else leaves the pipe from i to r alone *)
      match goal with |- J _ (gupd _ _ _ ?rr _) => assert (G0 : gupd st st' (XXfer X a' miu) rr g = g) end.
      { destruct r0; try reflexivity. cbn [gupd]. rewrite SX. cbn [andb]. rewrite P. reflexivity. }
      rewrite G0. apply (J_same st g); [| reflexivity | reflexivity | exact HJ].
      unfold kept. rewrite IN, OUT. f_equal. f_equal.
      * (* inq *)
        destruct QR as [[R _]|(sr & Gr & R & _ & U & AD)]; rewrite R; [reflexivity|].
        rewrite filter_app. cbn [filter]. destruct (C2 sr Gr) as [_ [N|A]]; [congruence|].
        destruct p; try discriminate. cbn [pdu_dsap] in AD. assert (d = a) by congruence. subst d.
        cbn [to_a from_s] in *. rewrite Z.eqb_refl in P. cbn in P. rewrite P. apply app_nil_r.
      * (* outq *)
        destruct QS as [[Q _]|(sk & rest & Gk & Q0 & Q1 & _ & AD)]; [rewrite Q; reflexivity|].
        unfold outq. rewrite Q0, Q1. cbn [filter].
        assert (U : ui_src (s_addr sk) p).
        { eapply (wf_ldl_sq _ WX i sk); eauto; [apply (C1 sk Gk) | unfold sq in Q0; rewrite Gk in Q0; rewrite Q0; left; auto]. }
        destruct U as (d0 & dt & a0 & -> & A0). destruct (C1 sk Gk) as [_ [N|A]]; [congruence|].
        assert (a0 = s) by congruence. subst a0. cbn [to_a from_s] in *. rewrite Z.eqb_refl, andb_true_r in P. rewrite P. reflexivity.
  - (* towards the sender: nothing of the pipe moves *)
    rewrite other_Y in *. rewrite (get_side_set_other st Yside c1 X) in D by (intro E; apply Y_ne_X; auto).
    assert (EY : get_side st' Yside = c1).
    { unfold st'. rewrite other_Y. rewrite get_side_set_other by apply Y_ne_X. apply get_set_side_same. }
    assert (EX : get_side st' X = c2) by (unfold st'; rewrite other_Y; apply get_set_side_same).
    pose proof (wf2_side st X W) as WX. pose proof (wf2_side st Yside W) as WY.
    match goal with |- J _ (gupd _ _ _ ?rr _) => assert (G0 : gupd st st' (XXfer Yside a' miu) rr g = g) end.
    { destruct r0; try reflexivity. cbn [gupd]. rewrite SYX. reflexivity. }
    rewrite G0. apply (J_same st g); [| reflexivity | reflexivity | exact HJ].
    unfold kept, inq, outq. rewrite EX, EY.
    assert (R : rq c1 r = rq (get_side st Yside) r).
    { destruct (sq_collect _ _ _ _ _ r WY CO (fun sk G => proj1 (C2 sk G))) as [[_ R]|(sk & rest & _ & _ & _ & R & _)]; auto. }
    assert (Q : sq c2 i = sq (get_side st X) i).
    { destruct (rq_dispatch _ _ _ _ i WX D (fun sk G => proj1 (C1 sk G))) as [[_ Q]|(sk & _ & _ & Q & _)]; auto. }
    rewrite R, Q. reflexivity.
Qed.

Theorem dgram_invariant blk ops : compat (exec blk ops) -> J (exec blk ops) (snd (grun blk ops)).
Proof.
  induction ops as [|o ops IH] using rev_ind; intro C.
  - assert (N : forall sd k, get_sock (get_side (init_sys blk) sd) k = None) by (intros [] []; reflexivity).
    assert (K : kept (init_sys blk) (mkG [] [] []) = []) by (unfold kept, inq, outq, sq, rq; rewrite !N; reflexivity).
    unfold J. change (exec blk []) with (init_sys blk). change (snd (grun blk [])) with (mkG [] [] []). rewrite K. split; [apply sub_nil | apply perm_nil].
  - rewrite exec_app in *. rewrite grun_app. unfold grun_step. rewrite grun_exec.
    pose proof (exec_wf2 blk ops) as W.
    pose proof (compat_back _ _ W C) as C0. specialize (IH C0).
    destruct (step (exec blk ops) o) as [st' res] eqn:S. cbn [fst snd] in *.
    destruct o as [sd lo|from a' miu].
    + cbn [step] in S. destruct (lstep (get_side (exec blk ops) sd) lo) as [c' r0] eqn:L. inversion S; subst st' res.
      apply J_step_loc; auto.
    + apply J_step_xfer; auto.
Qed.
End Dgram.

Lemma sub_length {A} (l1 l2 : list A) : sub l1 l2 -> (length l1 <= length l2)%nat.
Proof. induction 1; cbn; lia. Qed.
Lemma sub_same_length {A} (l1 l2 : list A) : sub l1 l2 -> length l1 = length l2 -> l1 = l2.
Proof. induction 1; cbn; intro E; auto.
  - apply sub_length in H. lia.
  - f_equal. apply IHsub. lia. Qed.
Lemma sub_app_l {A} (l1 l2 l : list A) : sub (l1 ++ l2) l -> sub l1 l.
Proof. intro H. eapply sub_trans; [|exact H]. rewrite <- (app_nil_r l1) at 1. apply sub_app; [apply sub_refl | apply sub_nil_l]. Qed.

(* For sender socket i of controller X and receiver socket r of the peer controller, under the guard [compat]
   (at the end of the history: i and r are datagram sockets, unbound or bound at s resp. a; no other socket of X is
   bound at s and no other socket of the peer at a, i.e. the two addresses are not reused; X has no raw access point):
     Rcvd ++ (datagrams from s in the receive queue of r) ++ (datagrams for a in the send queue of i)
   is an order-preserving sub-list of Sent, and Sent is a permutation of that list plus Dropped.  So what recvfrom
   returned is, in order, what sendto accepted, minus what is still queued and minus what one of the three rules
   discarded; nothing else is lost, nothing is duplicated, nothing is altered. *)
Theorem datagram_end_to_end X i r s a blk ops :
  compat X i r s a (exec blk ops) ->
  let g := snd (grun X i r s a blk ops) in
  let st := exec blk ops in
  let kept := g_rcvd g ++ inq X r s st ++ outq X i a st in
  sub kept (g_sent g) /\ Permutation (g_sent g) (kept ++ g_drop g).
Proof. intro C. exact (dgram_invariant X i r s a blk ops C). Qed.

Corollary datagram_received_in_order X i r s a blk ops :
  compat X i r s a (exec blk ops) -> sub (g_rcvd (snd (grun X i r s a blk ops))) (g_sent (snd (grun X i r s a blk ops))).
Proof. intro C. destruct (datagram_end_to_end X i r s a blk ops C) as [S _]. eapply sub_app_l; eauto. Qed.

Corollary datagram_all_received X i r s a blk ops :
  compat X i r s a (exec blk ops) ->
  let g := snd (grun X i r s a blk ops) in
  g_drop g = [] -> inq X r s (exec blk ops) = [] -> outq X i a (exec blk ops) = [] -> g_rcvd g = g_sent g.
Proof.
  intros C g D I O. destruct (datagram_end_to_end X i r s a blk ops C) as [S P]. fold g in S, P.
  rewrite D, I, O, !app_nil_r in *. apply sub_same_length; auto. symmetry. apply Permutation_length. auto.
Qed.
