(* Generic lemmas about the shared TLV-memory model (Model/TlvMem.v): memory access, value
   placement of reader and writer (DESIGN.md appendix A.1), terminator position, unit-wise
   synchronize and its effect on the tag memory, partial application (power cut). *)
From Coq Require Import ZArith List Bool Lia ZifyBool.
From NV Require Import Base.Result Base.Bytes Model.TlvMem.
Import ListNotations.
Open Scope Z_scope.
Ltac Zify.zify_post_hook ::= Z.to_euclidean_division_equations.

Lemma nth_firstn_lt {A} (l : list A) d : forall n i, (i < n)%nat -> nth i (firstn n l) d = nth i l d.
Proof. induction l as [|x l IH]; intros n i H; destruct n, i; cbn; try reflexivity; try lia. apply IH; lia. Qed.
Lemma nth_skipn {A} (l : list A) d : forall n i, nth i (skipn n l) d = nth (n + i) l d.
Proof. induction l as [|x l IH]; intros n i; destruct n; cbn; try reflexivity; [destruct i; reflexivity | apply IH]. Qed.
Lemma skipn_skipn {A} (l : list A) : forall n k, skipn n (skipn k l) = skipn (k + n) l.
Proof. induction l as [|x l IH]; intros n k; destruct k; cbn; try reflexivity; [destruct n; reflexivity | apply IH]. Qed.
Lemma skipn_S_nth {A} (l : list A) d n : (n < length l)%nat -> skipn n l = nth n l d :: skipn (S n) l.
Proof. revert n. induction l as [|x l IH]; intros n H; cbn in H; [lia|]. destruct n; [reflexivity|].
  cbn [skipn nth]. apply IH. lia. Qed.
Lemma In_firstn {A} (l : list A) j w : In w (firstn j l) -> In w l.
Proof. intro H. rewrite <- (firstn_skipn j l). apply in_or_app. left. exact H. Qed.

(* the unit (of u bytes) that holds x starts at the multiple of u that is at most u - 1 below x *)
Lemma unit_start u x b : 0 < u -> b mod u = 0 -> b <= x < b + u -> x / u * u = b.
Proof.
  intros Hu Hmod Hx. rewrite <- (Z.div_unique x u (b / u) (x - b)).
  - rewrite Z.mul_comm, <- Z_div_exact_2; lia.
  - lia.
  - rewrite <- Z_div_exact_2; lia.
Qed.

Definition get (l : list Z) (a : Z) : Z := nth (Z.to_nat a) l 0.

Lemma len_length {A} (l : list A) : len l = Z.of_nat (length l). Proof. reflexivity. Qed.

Lemma ndef_hdr_eq em off b : rd em (off + 1) = Ok b -> ndef_hdr em off = if b =? 255 then 4 else 2.
Proof.
  intro E. unfold ndef_hdr. rewrite E. destruct b as [|p|p]; try reflexivity.
  do 8 (destruct p as [p|p|]; try reflexivity).
Qed.

Lemma rd_ok em a : 0 <= a < len em -> rd em a = Ok (get em a).
Proof. intro H. unfold rd, get. replace (a <? 0) with false by lia.
  rewrite (nth_error_nth' em 0) by (unfold len in H; lia). reflexivity. Qed.
Lemma rd_beyond em a : len em <= a -> rd em a = tag_err.
Proof. intro H. unfold rd. pose proof (len_nonneg em). replace (a <? 0) with false by lia.
  assert (E : nth_error em (Z.to_nat a) = None) by (apply nth_error_None; unfold len in H; lia).
  rewrite E. reflexivity. Qed.
Lemma rd_inv em a x : rd em a = Ok x -> 0 <= a < len em /\ x = get em a.
Proof. unfold rd. destruct (a <? 0) eqn:E; [discriminate|].
  destruct (nth_error em (Z.to_nat a)) eqn:E2; [|discriminate]. intro H. injection H as <-.
  assert (Z.to_nat a < length em)%nat by (apply nth_error_Some; congruence).
  split; [unfold len; lia|]. unfold get. symmetry. apply nth_error_nth. exact E2. Qed.
Lemma rd_congr em1 em2 a : length em1 = length em2 -> (0 <= a -> get em1 a = get em2 a) -> rd em1 a = rd em2 a.
Proof. intros HL HG. destruct (Z.ltb_spec a 0) as [Hn|Hn]; [unfold rd; replace (a <? 0) with true by lia; reflexivity|].
  destruct (Z.ltb_spec a (len em1)) as [H1|H1].
  - rewrite !rd_ok by (unfold len in *; lia). rewrite HG by lia. reflexivity.
  - rewrite !rd_beyond by (unfold len in *; lia). reflexivity. Qed.

Lemma upd_inv c a v c' : upd c a v = Ok c' ->
  0 <= a < len c /\ length c' = length c /\ (forall x, 0 <= x -> get c' x = if x =? a then v else get c x).
Proof. unfold upd. destruct ((0 <=? a) && (a <? len c)) eqn:E.
  - intro H. assert (Hc : c' = firstn (Z.to_nat a) c ++ v :: skipn (S (Z.to_nat a)) c) by congruence.
    clear H. subst c'. assert (Ha : 0 <= a < len c) by lia. split; [exact Ha|].
    assert (Hn : (Z.to_nat a < length c)%nat) by (unfold len in Ha; lia).
    split.
    + rewrite app_length, firstn_length_le by lia. change (length (v :: skipn (S (Z.to_nat a)) c)) with (S (length (skipn (S (Z.to_nat a)) c))). rewrite skipn_length. lia.
    + intros x Hx. unfold get. destruct (Z.eqb_spec x a) as [->|Hne].
      * rewrite app_nth2; rewrite firstn_length_le by lia; [|lia]. rewrite Nat.sub_diag. reflexivity.
      * destruct (Z.ltb_spec x a).
        -- rewrite app_nth1 by (rewrite firstn_length_le by lia; lia). apply nth_firstn_lt. lia.
        -- rewrite app_nth2; rewrite firstn_length_le by lia; [|lia].
           replace (Z.to_nat x - Z.to_nat a)%nat with (S (Z.to_nat x - Z.to_nat a - 1)) by lia.
           cbn [nth]. rewrite nth_skipn. f_equal. lia.
  - destruct (a <? 0); discriminate. Qed.
Lemma upd_ok c a v : 0 <= a < len c -> exists c', upd c a v = Ok c'.
Proof. intro H. unfold upd. replace ((0 <=? a) && (a <? len c)) with true by lia. eauto. Qed.
Lemma upd_fail c a v : len c <= a -> upd c a v = tag_err.
Proof. intro H. unfold upd. pose proof (len_nonneg c). replace ((0 <=? a) && (a <? len c)) with false by lia.
  replace (a <? 0) with false by lia. reflexivity. Qed.
Lemma upd_any c a v : 0 <= a < len c -> exists c', upd c a v = Ok c' /\ length c' = length c /\ get c' a = v /\
  forall x, 0 <= x -> x <> a -> get c' x = get c x.
Proof.
  intro Ha. destruct (upd_ok c a v Ha) as [c' H]. exists c'. split; [exact H|].
  pose proof (upd_inv _ _ _ _ H) as (_ & L' & G'). split; [exact L'|].
  split; [rewrite G', Z.eqb_refl by lia; reflexivity|]. intros x Hx Hne. rewrite G' by exact Hx.
  apply Z.eqb_neq in Hne. rewrite Hne. reflexivity.
Qed.

Definition agree_below (B : Z) (c1 c2 : list Z) : Prop :=
  length c1 = length c2 /\ forall a, 0 <= a < B -> get c1 a = get c2 a.
Lemma agree_below_refl B c : agree_below B c c. Proof. split; auto. Qed.
Lemma agree_below_sym B c1 c2 : agree_below B c1 c2 -> agree_below B c2 c1.
Proof. intros [H1 H2]. split; [auto|]. intros; symmetry; auto. Qed.
Lemma agree_below_trans B c1 c2 c3 : agree_below B c1 c2 -> agree_below B c2 c3 -> agree_below B c1 c3.
Proof. intros [H1 H2] [H3 H4]. split; [congruence|]. intros a Ha. rewrite H2, H4 by exact Ha. reflexivity. Qed.
Lemma agree_below_le B B' c1 c2 : B' <= B -> agree_below B c1 c2 -> agree_below B' c1 c2.
Proof. intros H [H1 H2]. split; [exact H1|]. intros; apply H2; lia. Qed.

Lemma get_ext c1 c2 : length c1 = length c2 -> (forall a, 0 <= a < len c1 -> get c1 a = get c2 a) -> c1 = c2.
Proof. intros HL H. apply (nth_ext c1 c2 0 0 HL). intros i Hi. specialize (H (Z.of_nat i)).
  unfold get in H. rewrite Nat2Z.id in H. apply H. unfold len. lia. Qed.

Lemma get_skipn c n i : get (skipn n c) i = get c (Z.of_nat n + i) \/ i < 0.
Proof. destruct (Z.ltb_spec i 0); [right; lia|left]. unfold get. rewrite nth_skipn. f_equal. lia. Qed.

Lemma upd_to c a v t : 0 <= a < len c -> length t = length c -> get t a = v ->
  (forall x, 0 <= x -> x <> a -> get t x = get c x) -> upd c a v = Ok t.
Proof.
  intros Ha Lt Hv Hx. destruct (upd_any c a v Ha) as (c' & H & L' & Ga & Go). rewrite H. f_equal.
  apply get_ext; [congruence|]. intros x Hxx. destruct (Z.eq_dec x a) as [->|N]; [congruence|].
  rewrite Go, Hx by lia. reflexivity.
Qed.

Lemma upd_swap c a v b w c1 c2 : a <> b -> upd c a v = Ok c1 -> upd c1 b w = Ok c2 ->
  exists c1', upd c b w = Ok c1' /\ upd c1' a v = Ok c2.
Proof.
  intros Hab H1 H2. destruct (upd_inv _ _ _ _ H1) as (Ha & L1 & G1). destruct (upd_inv _ _ _ _ H2) as (Hb & L2 & G2).
  destruct (upd_ok c b w) as [c1' H1']; [unfold len in *; lia|]. destruct (upd_inv _ _ _ _ H1') as (_ & L1' & G1').
  destruct (upd_ok c1' a v) as [c2' H2']; [unfold len in *; lia|]. destruct (upd_inv _ _ _ _ H2') as (_ & L2' & G2').
  exists c1'. split; [exact H1'|]. rewrite H2'. f_equal. apply get_ext; [congruence|]. intros x Hx.
  rewrite G2', G1', G2, G1 by lia. destruct (Z.eqb_spec x a), (Z.eqb_spec x b); congruence.
Qed.

Lemma read_val_0 skip a suf : read_val skip a suf 0 = Ok ([], a).
Proof. destruct suf; reflexivity. Qed.
Lemma write_val_nil skip a suf : write_val skip a suf [] = Ok (suf, a).
Proof. destruct suf; reflexivity. Qed.

Lemma read_val_bounds skip : forall suf a k v e, read_val skip a suf k = Ok (v, e) ->
  a <= e <= a + len suf /\ length v = k /\ (k <> O -> a < e).
Proof.
  induction suf as [|x suf IH]; intros a k v e H.
  - destruct k; cbn in H; [|discriminate]. injection H as <- <-. rewrite len_nil. cbn. lia.
  - destruct k as [|k]; [cbn in H; injection H as <- <-; pose proof (len_nonneg (x :: suf)); cbn; lia|].
    cbn [read_val] in H. rewrite len_cons. destruct (in_skip skip a).
    + apply IH in H. lia.
    + destruct (read_val skip (a + 1) suf k) as [[v' e']| | |] eqn:E; cbn in H; try discriminate.
      injection H as <- <-. apply IH in E. cbn [length]. lia.
Qed.

Lemma read_val_congr skip : forall s1 s2 a k v e, read_val skip a s1 k = Ok (v, e) -> length s1 = length s2 ->
  (forall i, a + Z.of_nat i < e -> nth i s1 0 = nth i s2 0) -> read_val skip a s2 k = Ok (v, e).
Proof.
  induction s1 as [|x s1 IH]; intros s2 a k v e H HL HA.
  - destruct s2; [exact H | discriminate].
  - destruct s2 as [|y s2]; [discriminate|]. destruct k as [|k]; [exact H|].
    cbn [read_val] in *. destruct (in_skip skip a).
    + apply IH; [exact H | cbn in HL; lia |]. intros i Hi. apply (HA (S i)). lia.
    + destruct (read_val skip (a + 1) s1 k) as [[v' e']| | |] eqn:E; cbn in H; try discriminate.
      injection H as <- <-. pose proof (read_val_bounds _ _ _ _ _ _ E) as [Hb _].
      rewrite (IH s2 (a + 1) k v' e' E); [| cbn in HL; lia | intros i Hi; apply (HA (S i)); lia].
      cbn. specialize (HA O). cbn in HA. rewrite HA by lia. reflexivity.
Qed.

Lemma read_val_at_congr skip c1 c2 a k v e : 0 <= a -> length c1 = length c2 ->
  read_val skip a (skipn (Z.to_nat a) c1) k = Ok (v, e) -> (forall x, a <= x < e -> get c1 x = get c2 x) ->
  read_val skip a (skipn (Z.to_nat a) c2) k = Ok (v, e).
Proof.
  intros Ha HL H HA. apply (read_val_congr skip _ _ _ _ _ _ H).
  - rewrite !skipn_length. lia.
  - intros i Hi. rewrite !nth_skipn. specialize (HA (a + Z.of_nat i)). unfold get in HA.
    replace (Z.to_nat (a + Z.of_nat i)) with (Z.to_nat a + i)%nat in HA by lia. apply HA. lia.
Qed.

(* the writer's loop followed by the reader's loop: value byte i is stored and found at the same address *)
Lemma write_read skip : forall suf a d suf' e, write_val skip a suf d = Ok (suf', e) ->
  read_val skip a suf' (length d) = Ok (d, e) /\ length suf' = length suf /\ a <= e <= a + len suf
  /\ (forall i, in_skip skip (a + Z.of_nat i) = true \/ e <= a + Z.of_nat i -> nth i suf' 0 = nth i suf 0).
Proof.
  induction suf as [|y suf IH]; intros a d suf' e H.
  - destruct d; cbn in H; [|discriminate]. injection H as <- <-. rewrite len_nil. cbn. repeat split; auto; lia.
  - destruct d as [|x d].
    + cbn in H. injection H as <- <-. pose proof (len_nonneg (y :: suf)). cbn [length]. rewrite read_val_0.
      repeat split; auto; lia.
    + cbn [write_val] in H. rewrite len_cons. destruct (in_skip skip a) eqn:Es.
      * destruct (write_val skip (a + 1) suf (x :: d)) as [[s' e']| | |] eqn:E; cbn in H; try discriminate.
        injection H as <- <-. apply IH in E. destruct E as (E1 & E2 & E3 & E4).
        cbn [length read_val]. rewrite Es. cbn [length] in E1. repeat split; try lia; [exact E1|].
        intros i Hi. destruct i as [|i]; [reflexivity|]. cbn [nth]. apply E4.
        replace (a + 1 + Z.of_nat i) with (a + Z.of_nat (S i)) by lia. exact Hi.
      * destruct (write_val skip (a + 1) suf d) as [[s' e']| | |] eqn:E; cbn in H; try discriminate.
        injection H as <- <-. apply IH in E. destruct E as (E1 & E2 & E3 & E4).
        cbn [length read_val]. rewrite Es, E1. cbn [bind fst snd]. repeat split; try lia.
        intros i Hi. destruct i as [|i]; [cbn in Hi; rewrite Z.add_0_r in Hi; destruct Hi; [congruence | lia]|].
        cbn [nth]. apply E4. replace (a + 1 + Z.of_nat i) with (a + Z.of_nat (S i)) by lia. exact Hi.
Qed.

Lemma count_free_bounds skip : forall n a, 0 <= count_free skip a n <= Z.of_nat n.
Proof. induction n as [|n IH]; intro a; cbn [count_free]; [lia|]. specialize (IH (a + 1)). destruct (in_skip skip a); lia. Qed.
Lemma count_free_app skip : forall n k a, count_free skip a (n + k) = count_free skip a n + count_free skip (a + Z.of_nat n) k.
Proof. induction n as [|n IH]; intros k a; [cbn; f_equal; lia|].
  cbn [Nat.add count_free]. rewrite IH. replace (a + 1 + Z.of_nat n) with (a + Z.of_nat (S n)) by lia. lia. Qed.

Lemma read_val_fits skip : forall suf a k v e n, read_val skip a suf k = Ok (v, e) ->
  Z.of_nat k <= count_free skip a n -> e <= a + Z.of_nat n.
Proof.
  induction suf as [|x suf IH]; intros a k v e n H Hc.
  - destruct k; cbn in H; [|discriminate]. injection H as <- <-. lia.
  - destruct k as [|k]; [cbn in H; injection H as <- <-; lia|].
    cbn [read_val] in H. destruct n as [|n]; [cbn in Hc; lia|]. cbn [count_free] in Hc.
    destruct (in_skip skip a).
    + apply (IH _ _ _ _ n) in H; lia.
    + destruct (read_val skip (a + 1) suf k) as [[v' e']| | |] eqn:E; cbn in H; try discriminate.
      injection H as <- <-. apply (IH _ _ _ _ n) in E; lia.
Qed.

(* two bytes of the free ones go to tag and length; a capacity of 255 or more has paid for three length bytes *)
Lemma get_capacity_cases dend off skip :
  get_capacity dend off skip <= count_free skip off (Z.to_nat (dend - off)) - 2 /\
  (255 <= get_capacity dend off skip -> get_capacity dend off skip = count_free skip off (Z.to_nat (dend - off)) - 4).
Proof. unfold get_capacity. destruct (256 <? _) eqn:E; lia. Qed.

(* get_capacity against the independent reading [room]: tag byte not reserved, one or three length bytes *)
Lemma capacity_room skip off dend : in_skip skip off = false -> off < dend ->
  get_capacity dend off skip <= room (count_free skip (off + 1) (Z.to_nat (dend - (off + 1)))).
Proof.
  intros S0 Ho. unfold get_capacity, room.
  replace (Z.to_nat (dend - off)) with (1 + Z.to_nat (dend - (off + 1)))%nat by lia.
  rewrite count_free_app. cbn [count_free]. rewrite S0. change (Z.of_nat 1) with 1.
  set (f := count_free skip (off + 1) (Z.to_nat (dend - (off + 1)))).
  destruct (Z.ltb_spec 256 (1 + 0 + f)); lia.
Qed.

Lemma write_val_ok skip : forall suf a d, len d <= count_free skip a (length suf) -> exists r, write_val skip a suf d = Ok r.
Proof.
  induction suf as [|y suf IH]; intros a d H.
  - cbn in H. destruct d; [eexists; reflexivity|]. rewrite len_cons in H. pose proof (len_nonneg d). lia.
  - destruct d as [|x d]; [eexists; reflexivity|]. cbn [write_val length count_free] in *. rewrite len_cons in H.
    destruct (in_skip skip a).
    + destruct (IH (a + 1) (x :: d)) as [r Hr]; [rewrite len_cons; lia|]. rewrite Hr. eexists; reflexivity.
    + destruct (IH (a + 1) d) as [r Hr]; [lia|]. rewrite Hr. eexists; reflexivity.
Qed.
Lemma term_pos_spec skip : forall n a t, term_pos skip a n = Some t -> a <= t < a + Z.of_nat n /\ in_skip skip t = false.
Proof. induction n as [|n IH]; intros a t H; cbn [term_pos] in H; [discriminate|].
  destruct (in_skip skip a) eqn:E; [apply IH in H; destruct H; split; [lia|assumption]|]. injection H as <-. split; [lia | exact E]. Qed.

Lemma place_inv skip c start d c' e : place skip c start d = Ok (c', e) -> 0 <= start -> start <= len c ->
  length c' = length c /\ start <= e <= len c
  /\ read_val skip start (skipn (Z.to_nat start) c') (length d) = Ok (d, e)
  /\ (forall x, 0 <= x -> x < start \/ in_skip skip x = true \/ e <= x -> get c' x = get c x).
Proof.
  unfold place. intros H H0 H1. replace (start <? 0) with false in H by lia.
  destruct (write_val skip start (skipn (Z.to_nat start) c) d) as [[s' e']| | |] eqn:E; cbn in H; try discriminate.
  injection H as <- <-. apply write_read in E. destruct E as (E1 & E2 & E3 & E4).
  assert (Hn : (Z.to_nat start <= length c)%nat) by (unfold len in H1; lia).
  rewrite skipn_length in E2. unfold len in E3. rewrite skipn_length in E3.
  repeat split.
  - rewrite app_length, firstn_length_le, E2 by lia. lia.
  - lia.
  - unfold len. lia.
  - rewrite skipn_app, firstn_length_le by lia. rewrite Nat.sub_diag, skipn_firstn_comm, Nat.sub_diag. cbn. exact E1.
  - intros x Hx Hc. unfold get. destruct (Z.ltb_spec x start) as [Hlt|Hge].
    + rewrite app_nth1 by (rewrite firstn_length_le by lia; lia). apply nth_firstn_lt. lia.
    + rewrite app_nth2; rewrite firstn_length_le by lia; [|lia].
      rewrite (E4 (Z.to_nat x - Z.to_nat start)%nat).
      * rewrite nth_skipn. f_equal. lia.
      * replace (start + Z.of_nat (Z.to_nat x - Z.to_nat start)) with x by lia. destruct Hc as [?|[?|?]]; [lia|left; assumption|right; assumption].
Qed.
Lemma place_ok skip c start d : 0 <= start -> start <= len c ->
  len d <= count_free skip start (Z.to_nat (len c - start)) -> exists r, place skip c start d = Ok r.
Proof.
  intros H0 H1 H. unfold place. replace (start <? 0) with false by lia.
  destruct (write_val_ok skip (skipn (Z.to_nat start) c) start d) as [r Hr].
  - rewrite skipn_length. unfold len in *. replace (length c - Z.to_nat start)%nat with (Z.to_nat (Z.of_nat (length c) - start)) by lia. exact H.
  - rewrite Hr. eexists; reflexivity.
Qed.

(* the writer's loop on two memories: the same positions are written, with the same values *)
Lemma write_val_det skip : forall s1 s2 a d s1' e1 s2' e2, write_val skip a s1 d = Ok (s1', e1) ->
  write_val skip a s2 d = Ok (s2', e2) -> length s1 = length s2 ->
  e1 = e2 /\ forall i, nth i s1' 0 = nth i s2' 0 \/ (nth i s1' 0 = nth i s1 0 /\ nth i s2' 0 = nth i s2 0).
Proof.
  induction s1 as [|y1 s1 IH]; intros s2 a d s1' e1 s2' e2 H1 H2 HL.
  - destruct s2; [|discriminate]. destruct d; cbn in H1, H2; [|discriminate]. injection H1 as <- <-. injection H2 as <- <-.
    split; [reflexivity|]. intro i. right. auto.
  - destruct s2 as [|y2 s2]; [discriminate|]. destruct d as [|x d].
    + cbn in H1, H2. injection H1 as <- <-. injection H2 as <- <-. split; [reflexivity|]. intro i. right. auto.
    + cbn [write_val] in H1, H2. destruct (in_skip skip a).
      * destruct (write_val skip (a + 1) s1 (x :: d)) as [[t1 f1]| | |] eqn:E1; cbn in H1; try discriminate.
        destruct (write_val skip (a + 1) s2 (x :: d)) as [[t2 f2]| | |] eqn:E2; cbn in H2; try discriminate.
        injection H1 as <- <-. injection H2 as <- <-.
        destruct (IH s2 (a + 1) (x :: d) t1 f1 t2 f2 E1 E2 ltac:(cbn in HL; lia)) as [Ee Hi]. split; [exact Ee|].
        intros [|i]; [right; auto | apply Hi].
      * destruct (write_val skip (a + 1) s1 d) as [[t1 f1]| | |] eqn:E1; cbn in H1; try discriminate.
        destruct (write_val skip (a + 1) s2 d) as [[t2 f2]| | |] eqn:E2; cbn in H2; try discriminate.
        injection H1 as <- <-. injection H2 as <- <-.
        destruct (IH s2 (a + 1) d t1 f1 t2 f2 E1 E2 ltac:(cbn in HL; lia)) as [Ee Hi]. split; [exact Ee|].
        intros [|i]; [left; reflexivity | apply Hi].
Qed.
Lemma place_det skip c1 c2 start d c1' e1 c2' e2 : place skip c1 start d = Ok (c1', e1) -> place skip c2 start d = Ok (c2', e2) ->
  length c1 = length c2 -> 0 <= start -> start <= len c1 ->
  e1 = e2 /\ forall x, 0 <= x -> get c1' x = get c2' x \/ (get c1' x = get c1 x /\ get c2' x = get c2 x).
Proof.
  unfold place. intros H1 H2 HL H0 Hs. replace (start <? 0) with false in H1, H2 by lia.
  destruct (write_val skip start (skipn (Z.to_nat start) c1) d) as [[t1 f1]| | |] eqn:E1; cbn in H1; try discriminate.
  destruct (write_val skip start (skipn (Z.to_nat start) c2) d) as [[t2 f2]| | |] eqn:E2; cbn in H2; try discriminate.
  injection H1 as <- <-. injection H2 as <- <-.
  destruct (write_val_det skip _ _ _ _ _ _ _ _ E1 E2 ltac:(rewrite !skipn_length; lia)) as [Ee Hi]. split; [exact Ee|].
  assert (Hn : (Z.to_nat start <= length c1)%nat) by (unfold len in Hs; lia).
  intros x Hx. unfold get. destruct (Z.ltb_spec x start) as [Hlt|Hge].
  - right. rewrite !app_nth1 by (rewrite firstn_length_le by lia; lia). rewrite !nth_firstn_lt by lia. auto.
  - rewrite !app_nth2 by (rewrite firstn_length_le by lia; lia). rewrite !firstn_length_le by lia.
    destruct (Hi (Z.to_nat x - Z.to_nat start)%nat) as [E|[Ea Eb]]; [left; exact E|right].
    rewrite Ea, Eb, !nth_skipn. replace (Z.to_nat start + (Z.to_nat x - Z.to_nat start))%nat with (Z.to_nat x) by lia. auto.
Qed.

Lemma list_eqb_spec a : forall b, list_eqb a b = true <-> a = b.
Proof. induction a as [|x a IH]; intros [|y b]; cbn; split; intro H; try reflexivity; try discriminate.
  - apply andb_true_iff in H. destruct H as [H1 H2]. apply Z.eqb_eq in H1. apply IH in H2. congruence.
  - injection H as -> ->. rewrite Z.eqb_refl. cbn. apply IH. reflexivity. Qed.

Lemma diffu_S n u a f c : c <> [] -> diffu (S n) u a f c =
  let rest := diffu n u (a + Z.of_nat u) (skipn u f) (skipn u c) in
  if list_eqb (firstn u c) (firstn u f) then rest else (a, firstn u c) :: rest.
Proof. destruct c; [congruence | reflexivity]. Qed.

Lemma apply_ws_app m w1 w2 : apply_ws m (w1 ++ w2) = apply_ws (apply_ws m w1) w2.
Proof. unfold apply_ws. apply fold_left_app. Qed.

Lemma apply1_at_prefix pre f u dat : length dat = u -> (u <= length f)%nat ->
  apply1 (pre ++ f) (len pre, dat) = (pre ++ dat) ++ skipn u f.
Proof.
  intros Hd Hu. unfold apply1. cbn [fst snd]. unfold len. rewrite Nat2Z.id.
  rewrite firstn_app, firstn_all, Nat.sub_diag. cbn [firstn]. rewrite app_nil_r.
  rewrite skipn_app, Hd. replace (length pre + u - length pre)%nat with u by lia.
  rewrite skipn_all2 by lia. cbn [app]. rewrite <- app_assoc. reflexivity.
Qed.

Section Units.
Variable u : nat.
Hypothesis upos : (0 < u)%nat.

Definition umixed (f c x : list Z) : Prop :=
  length x = length f /\
  forall q : nat, (forall i, (q * u <= i < q * u + u)%nat -> nth i x 0 = nth i f 0)
               \/ (forall i, (q * u <= i < q * u + u)%nat -> nth i x 0 = nth i c 0).

Lemma umixed_chunk f c chunk x : (u <= length f)%nat -> length c = length f ->
  chunk = firstn u f \/ chunk = firstn u c ->
  umixed (skipn u f) (skipn u c) x -> umixed f c (chunk ++ x).
Proof.
  intros Hu Hcf Hch [Hl Hq].
  assert (Hlc : length chunk = u) by (destruct Hch; subst chunk; rewrite firstn_length_le; lia).
  split; [rewrite app_length, Hl, skipn_length; lia|].
  intros [|q].
  - cbn [Nat.mul]. destruct Hch; subst chunk; [left | right]; intros i Hi;
      (rewrite app_nth1 by lia); apply nth_firstn_lt; lia.
  - cbn [Nat.mul]. destruct (Hq q) as [H|H]; [left | right]; intros i Hi;
      (rewrite app_nth2 by lia); rewrite Hlc, (H (i - u)%nat) by lia; rewrite nth_skipn; f_equal; lia.
Qed.
Lemma umixed_left f c : umixed f c f.
Proof. split; [reflexivity|]. intro q. left. reflexivity. Qed.

Lemma umixed_pointwise f c x : umixed f c x -> forall i, nth i x 0 = nth i f 0 \/ nth i x 0 = nth i c 0.
Proof.
  intros [_ Hq] i. pose proof (Nat.div_mod i u ltac:(lia)) as Hd. pose proof (Nat.mod_upper_bound i u ltac:(lia)) as Hm.
  destruct (Hq (i / u)%nat) as [H|H]; [left | right]; apply H; nia.
Qed.
(* if two caches differ in one unit only, an interrupted synchronize leaves one or the other *)
Lemma umixed_single f c x q0 : umixed f c x -> length c = length f ->
  (forall i, nth i f 0 <> nth i c 0 -> (i / u)%nat = q0) -> x = f \/ x = c.
Proof.
  intros [Hl Hq] Hcf Hd.
  assert (Hunit : forall i, (i / u * u <= i < i / u * u + u)%nat).
  { intro i. pose proof (Nat.div_mod i u ltac:(lia)). pose proof (Nat.mod_upper_bound i u ltac:(lia)). nia. }
  (* outside unit q0 the two caches agree, and x with them *)
  assert (Hout : forall i, (i / u)%nat <> q0 -> nth i x 0 = nth i f 0 /\ nth i x 0 = nth i c 0).
  { intros i E. assert (Efc : nth i f 0 = nth i c 0) by (destruct (Z.eq_dec (nth i f 0) (nth i c 0)) as [Efc|Efc]; [exact Efc | elim E; apply Hd, Efc]).
    destruct (Hq (i / u)%nat) as [H|H]; rewrite (H i (Hunit i)); split; congruence. }
  destruct (Hq q0) as [H0|H0]; [left | right]; apply (nth_ext _ _ 0 0); try congruence; intros i _;
    (destruct (Nat.eq_dec (i / u) q0) as [E|E]; [apply H0; rewrite <- E; apply Hunit | apply Hout, E]).
Qed.

(* an interrupted synchronize leaves a unit-wise mixture of the old and the new content, a complete one the new content *)
Lemma diffu_apply_prefix : forall k fuel a pre f c j, length c = (k * u)%nat -> length f = (k * u)%nat -> (k <= fuel)%nat ->
  a = len pre -> exists x, apply_ws (pre ++ f) (firstn j (diffu fuel u a f c)) = pre ++ x /\ umixed f c x /\
    ((length (diffu fuel u a f c) <= j)%nat -> x = c).
Proof.
  induction k as [|k IH]; intros fuel a pre f c j Hc Hf Hk Ha.
  - destruct c; [|discriminate]. destruct f; [|discriminate]. exists [].
    split; [destruct fuel; cbn; rewrite firstn_nil; reflexivity | split; [apply umixed_left | reflexivity]].
  - destruct fuel as [|n]; [lia|]. cbn [Nat.mul] in Hc, Hf.
    assert (Hne : c <> []) by (intro; subst c; cbn in Hc; lia).
    rewrite (diffu_S n u a f c Hne). cbv zeta.
    assert (Hsc : length (skipn u c) = (k * u)%nat) by (rewrite skipn_length; lia).
    assert (Hsf : length (skipn u f) = (k * u)%nat) by (rewrite skipn_length; lia).
    destruct (list_eqb (firstn u c) (firstn u f)) eqn:E.
    + apply list_eqb_spec in E.
      replace (pre ++ f) with ((pre ++ firstn u f) ++ skipn u f) by (rewrite <- app_assoc, firstn_skipn; reflexivity).
      destruct (IH n (a + Z.of_nat u) (pre ++ firstn u f) (skipn u f) (skipn u c) j Hsc Hsf) as (x & Hx & Hm & Hall); [lia | |].
      * rewrite len_app; unfold len in *; rewrite firstn_length_le by lia; lia.
      * exists (firstn u f ++ x). split; [rewrite Hx, <- app_assoc; reflexivity|].
        split; [apply umixed_chunk; [lia | lia | left; reflexivity | exact Hm]|].
        intro Hj. rewrite (Hall Hj), <- E. apply firstn_skipn.
    + destruct j as [|j].
      * exists f. split; [reflexivity|]. split; [apply umixed_left | cbn [length]; lia].
      * cbn [firstn apply_ws fold_left]. change (fold_left apply1 ?l ?m) with (apply_ws m l). subst a.
        rewrite (apply1_at_prefix pre f u) by (try rewrite firstn_length_le; lia).
        destruct (IH n (len pre + Z.of_nat u) (pre ++ firstn u c) (skipn u f) (skipn u c) j Hsc Hsf) as (x & Hx & Hm & Hall); [lia | |].
        -- rewrite len_app; unfold len in *; rewrite firstn_length_le by lia; lia.
        -- exists (firstn u c ++ x). split; [rewrite Hx, <- app_assoc; reflexivity|].
           split; [apply umixed_chunk; [lia | lia | right; reflexivity | exact Hm]|].
           intro Hj. cbn [length] in Hj. rewrite (Hall ltac:(lia)). apply firstn_skipn.
Qed.

(* the commands of a synchronize: unit aligned, inside the cache, and each contains a byte that differs *)
Lemma diffu_in : forall k fuel a f c b dat, length c = (k * u)%nat -> length f = (k * u)%nat ->
  In (b, dat) (diffu fuel u a f c) ->
  exists q, (q < k)%nat /\ b = a + Z.of_nat (q * u) /\ dat = firstn u (skipn (q * u) c) /\ dat <> firstn u (skipn (q * u) f).
Proof.
  induction k as [|k IH]; intros fuel a f c b dat Hc Hf Hin.
  - destruct c; [|discriminate]. destruct fuel; destruct Hin.
  - destruct fuel as [|n]; [destruct Hin|]. cbn [Nat.mul] in Hc, Hf.
    assert (Hne : c <> []) by (intro; subst c; cbn in Hc; lia).
    rewrite (diffu_S n u a f c Hne) in Hin. cbv zeta in Hin.
    assert (Hsc : length (skipn u c) = (k * u)%nat) by (rewrite skipn_length; lia).
    assert (Hsf : length (skipn u f) = (k * u)%nat) by (rewrite skipn_length; lia).
    assert (Hrest : In (b, dat) (diffu n u (a + Z.of_nat u) (skipn u f) (skipn u c)) ->
      exists q, (q < S k)%nat /\ b = a + Z.of_nat (q * u) /\ dat = firstn u (skipn (q * u) c) /\ dat <> firstn u (skipn (q * u) f)).
    { intro H. destruct (IH _ _ _ _ _ _ Hsc Hsf H) as (q & Hq & Hb & Hd & Hn). exists (S q).
      cbn [Nat.mul]. rewrite !skipn_skipn in Hd, Hn. repeat split; [lia | lia | exact Hd | exact Hn]. }
    destruct (list_eqb (firstn u c) (firstn u f)) eqn:E; [apply Hrest, Hin|].
    destruct Hin as [Hin|Hin]; [|apply Hrest, Hin]. injection Hin as <- <-. exists O. cbn [Nat.mul skipn].
    repeat split; [lia | lia |]. intro H. rewrite H in E.
    assert (list_eqb (firstn u f) (firstn u f) = true) by (apply list_eqb_spec; reflexivity). congruence.
Qed.
End Units.

Lemma lists_differ (a b : list Z) : length a = length b -> a <> b -> exists i, (i < length a)%nat /\ nth i a 0 <> nth i b 0.
Proof.
  revert b. induction a as [|x a IH]; intros [|y b] HL Hne; try discriminate; [congruence|].
  destruct (Z.eq_dec x y) as [->|Hxy].
  - destruct (IH b) as (i & Hi & Hd); [cbn in HL; lia | congruence |]. exists (S i). cbn. split; [lia | exact Hd].
  - exists O. cbn. split; [lia | exact Hxy].
Qed.

Lemma sync_cmd_spec u k f c b dat : (0 < u)%nat -> length c = (k * u)%nat -> length f = (k * u)%nat ->
  In (b, dat) (sync_cmds u f c) ->
  0 <= b /\ b mod Z.of_nat u = 0 /\ b + Z.of_nat u <= len c /\ len dat = Z.of_nat u
  /\ (forall x, b <= x < b + Z.of_nat u -> get dat (x - b) = get c x)
  /\ exists x, b <= x < b + Z.of_nat u /\ get c x <> get f x.
Proof.
  intros Hu Hc Hf Hin. unfold sync_cmds in Hin.
  destruct (diffu_in u Hu k _ _ _ _ _ _ Hc Hf Hin) as (q & Hq & Hb & Hd & Hn).
  assert (Hqk : (q * u + u <= k * u)%nat) by nia.
  assert (Hl1 : length (firstn u (skipn (q * u) c)) = u) by (rewrite firstn_length_le; [reflexivity | rewrite skipn_length; lia]).
  assert (Hl2 : length (firstn u (skipn (q * u) f)) = u) by (rewrite firstn_length_le; [reflexivity | rewrite skipn_length; lia]).
  repeat split.
  - lia.
  - subst b. rewrite Z.add_0_l, Nat2Z.inj_mul. apply Z_mod_mult.
  - unfold len. lia.
  - subst dat. unfold len. lia.
  - intros x Hx. subst dat. unfold get. rewrite nth_firstn_lt by lia. rewrite nth_skipn. f_equal. lia.
  - subst dat. destruct (lists_differ _ _ (eq_trans Hl1 (eq_sym Hl2)) Hn) as (i & Hi & Hd).
    rewrite Hl1 in Hi. rewrite !nth_firstn_lt, !nth_skipn in Hd by lia.
    exists (b + Z.of_nat i). split; [lia|]. unfold get.
    replace (Z.to_nat (b + Z.of_nat i)) with (q * u + i)%nat by lia. exact Hd.
Qed.

(* commands the tag does not refuse *)
Definition acceptable (n : Z) (ws : list write) : Prop := forall w, In w ws -> 0 <= fst w /\ fst w + len (snd w) <= n.
Lemma accept_all n ws : acceptable n ws -> accept n ws = (ws, true).
Proof. induction ws as [|w ws IH]; intro H; [reflexivity|]. cbn [accept].
  destruct (H w (or_introl eq_refl)) as [H1 H2]. replace ((0 <=? fst w) && (fst w + len (snd w) <=? n)) with true by lia.
  rewrite IH by (intros w' Hw'; apply H; right; exact Hw'). reflexivity. Qed.

Lemma sync_apply_prefix u k f c j : (0 < u)%nat -> length c = (k * u)%nat -> length f = (k * u)%nat ->
  umixed u f c (apply_ws f (firstn j (sync_cmds u f c))) /\
  ((length (sync_cmds u f c) <= j)%nat -> apply_ws f (firstn j (sync_cmds u f c)) = c).
Proof. intros Hu Hc Hf. unfold sync_cmds.
  destruct (diffu_apply_prefix u Hu k (length c) 0 [] f c j Hc Hf) as (x & Hx & Hm & Hall); [nia | reflexivity|].
  cbn [app] in Hx. rewrite Hx. auto. Qed.
Lemma sync_apply u k f c : (0 < u)%nat -> length c = (k * u)%nat -> length f = (k * u)%nat ->
  apply_ws f (sync_cmds u f c) = c.
Proof. intros Hu Hc Hf. rewrite <- (firstn_all (sync_cmds u f c)) at 1.
  apply (sync_apply_prefix u k f c _ Hu Hc Hf), le_n. Qed.

Lemma set_val_same L : set_val L (l_val L) = L.
Proof. destruct L; reflexivity. Qed.

Lemma read_tlv_inv em off skip t l v e : read_tlv em off skip = Ok (t, l, v, e) ->
  rd em off = Ok t /\ off + 1 <= e /\
  ((t = 0 \/ t = 254) \/
   (t <> 0 /\ t <> 254 /\ exists l0 voff, rd em (off + 1) = Ok l0 /\
      ((l0 <> 255 /\ l = l0 /\ voff = off + 2) \/
       (l0 = 255 /\ voff = off + 4 /\ exists h lo, rd em (off + 2) = Ok h /\ rd em (off + 3) = Ok lo /\ l = 256 * h + lo)) /\
      read_val skip voff (skipn (Z.to_nat voff) em) (Z.to_nat l) = Ok (v, e) /\ voff <= e)).
Proof.
  unfold read_tlv. intro H.
  destruct (rd em off) as [t0| | |] eqn:E0; cbn [bind] in H; try discriminate.
  destruct ((t0 =? 0) || (t0 =? 254)) eqn:Et.
  - injection H as <- <- <- <-. split; [reflexivity|]. split; [lia|]. left. lia.
  - destruct (rd em (off + 1)) as [l0| | |] eqn:E1; cbn [bind] in H; try discriminate.
    destruct (l0 =? 255) eqn:El.
    + destruct (rd em (off + 2)) as [h| | |] eqn:E2; cbn [bind] in H; try discriminate.
      destruct (rd em (off + 3)) as [lo| | |] eqn:E3; cbn [bind fst snd] in H; try discriminate.
      destruct (read_val skip (off + 4) (skipn (Z.to_nat (off + 4)) em) (Z.to_nat (256 * h + lo))) as [[v0 e0]| | |] eqn:E4;
        cbn [bind fst snd] in H; try discriminate.
      injection H as <- <- <- <-. pose proof (read_val_bounds _ _ _ _ _ _ E4) as [Hb _].
      split; [reflexivity|]. split; [lia|]. right. split; [lia|]. split; [lia|].
      exists l0, (off + 4). split; [reflexivity|]. split; [right; split; [lia|]; split; [reflexivity|]; exists h, lo; auto|].
      split; [exact E4 | lia].
    + cbn [bind fst snd] in H.
      destruct (read_val skip (off + 2) (skipn (Z.to_nat (off + 2)) em) (Z.to_nat l0)) as [[v0 e0]| | |] eqn:E4;
        cbn [bind fst snd] in H; try discriminate.
      injection H as <- <- <- <-. pose proof (read_val_bounds _ _ _ _ _ _ E4) as [Hb _].
      split; [reflexivity|]. split; [lia|]. right. split; [lia|]. split; [lia|].
      exists l0, (off + 2). split; [reflexivity|]. split; [left; split; [lia|]; auto|].
      split; [exact E4 | lia].
Qed.

(* read_tlv only depends on the addresses it reads (all below the returned end address) *)
Lemma read_tlv_congr em1 em2 off skip t l v e : read_tlv em1 off skip = Ok (t, l, v, e) ->
  length em1 = length em2 -> (forall a, 0 <= a < e -> get em1 a = get em2 a) ->
  read_tlv em2 off skip = Ok (t, l, v, e).
Proof.
  intros H HL HA. pose proof (read_tlv_inv _ _ _ _ _ _ _ H) as (H0 & He & Hc).
  assert (R : forall a, a < e -> rd em2 a = rd em1 a) by (intros a Ha; apply rd_congr; [congruence | intro; symmetry; apply HA; lia]).
  unfold read_tlv. rewrite (R off) by lia. rewrite H0. cbn [bind].
  destruct Hc as [Hc | (Hn0 & Hn254 & l0 & voff & E1 & Hl & Erv & Hv)].
  - replace ((t =? 0) || (t =? 254)) with true by lia. unfold read_tlv in H. rewrite H0 in H. cbn [bind] in H.
    replace ((t =? 0) || (t =? 254)) with true in H by lia. exact H.
  - replace ((t =? 0) || (t =? 254)) with false by lia.
    assert (Hvoff : off + 2 <= voff) by (destruct Hl as [(_ & _ & ->) | (_ & -> & _)]; lia).
    rewrite (R (off + 1)) by lia. rewrite E1. cbn [bind].
    pose proof (rd_inv _ _ _ H0) as [Hoff _].
    destruct Hl as [(Hl0 & -> & ->) | (-> & -> & h & lo & E2 & E3 & ->)].
    + replace (l0 =? 255) with false by lia. cbn [bind fst snd].
      rewrite (read_val_at_congr skip em1 em2 (off + 2) _ v e) by (try assumption; try lia; intros; apply HA; lia).
      reflexivity.
    + replace (255 =? 255) with true by reflexivity. rewrite (R (off + 2)), (R (off + 3)) by lia.
      rewrite E2, E3. cbn [bind fst snd].
      rewrite (read_val_at_congr skip em1 em2 (off + 4) _ v e) by (try assumption; try lia; intros; apply HA; lia).
      reflexivity.
Qed.

Lemma ctl_range_ok f clip v : length v = 3%nat -> exists r, ctl_range f clip v = Ok r.
Proof. destruct v as [|a [|b [|c [|d v]]]]; try discriminate. intros _. cbn. eauto. Qed.

(* tt1.py and tt2.py differ in the clip bound only: Model.T2T.t2_dispatch (1048576), Model.T1T.t1_dispatch_r and
   Model.TagReadAny.t1_dispatch_any (2048) are this function, by conversion *)
Definition dispatch_clip (clip : Z) (skip : ranges) (t l : Z) (v : list Z) : res tlv_action :=
  if t =? 0 then Ok (Next skip)
  else if t =? 1 then
    (if l =? 3 then do r <- ctl_range lock_byte_range clip v; Ok (Next (r :: skip)) else Ok (Next skip))
  else if t =? 2 then
    (if l =? 3 then do r <- ctl_range rsvd_byte_range clip v; Ok (Next (r :: skip)) else Ok (Next skip))
  else if t =? 3 then Ok Found
  else if t =? 254 then Ok Stop
  else Ok (Next skip).
Lemma dispatch_found clip skip t l v : dispatch_clip clip skip t l v = Ok Found -> t = 3.
Proof. unfold dispatch_clip. destruct (Z.eqb_spec t 0); [discriminate|].
  destruct (Z.eqb_spec t 1); [destruct (l =? 3); [destruct (ctl_range _ _ _); discriminate | discriminate]|].
  destruct (Z.eqb_spec t 2); [destruct (l =? 3); [destruct (ctl_range _ _ _); discriminate | discriminate]|].
  destruct (Z.eqb_spec t 3); [auto|]. destruct (t =? 254); discriminate. Qed.
(* a value of the length the length field announces is never too short for a control TLV *)
Lemma dispatch_total clip skip t l v : len v = Z.max l 0 -> exists a, dispatch_clip clip skip t l v = Ok a.
Proof.
  intro Hl. unfold dispatch_clip. destruct (t =? 0); [eauto|].
  destruct (t =? 1).
  { destruct (Z.eqb_spec l 3); [|eauto]. destruct (ctl_range_ok lock_byte_range clip v) as [r ->]; [unfold len in Hl; lia|]. cbn. eauto. }
  destruct (t =? 2).
  { destruct (Z.eqb_spec l 3); [|eauto]. destruct (ctl_range_ok rsvd_byte_range clip v) as [r ->]; [unfold len in Hl; lia|]. cbn. eauto. }
  destruct (t =? 3); [eauto|]. destruct (t =? 254); eauto.
Qed.

(* commands of a sequence of synchronize calls through the caches cs, starting from [from] *)
Fixpoint chain_cmds (u : nat) (from : list Z) (cs : list (list Z)) : list write :=
  match cs with [] => [] | c :: r => sync_cmds u from c ++ chain_cmds u c r end.
Inductive steps : list Z -> list phase -> list (list Z) -> Prop :=
| steps_nil from : steps from [] []
| steps_cons from (ph : phase) phs c cs : ph from = Ok c -> steps c phs cs -> steps from (ph :: phs) (c :: cs).

Lemma run_phases_chain u n : forall phs cs from acc, steps from phs cs -> acceptable n (chain_cmds u from cs) ->
  run_phases u n from phs acc = (Ok tt, acc ++ chain_cmds u from cs).
Proof.
  intros phs cs from acc H. revert acc. induction H as [from | from ph phs c cs Hp Hs IH]; intros acc Hacc.
  - cbn. rewrite app_nil_r. reflexivity.
  - cbn [run_phases chain_cmds] in *. rewrite Hp.
    rewrite accept_all by (intros w Hw; apply Hacc, in_or_app; left; exact Hw). cbn [fst snd].
    rewrite IH by (intros w Hw; apply Hacc, in_or_app; right; exact Hw). rewrite app_assoc. reflexivity.
Qed.

Fixpoint last_cache (from : list Z) (cs : list (list Z)) : list Z :=
  match cs with [] => from | c :: r => last_cache c r end.
Lemma chain_apply u k : (0 < u)%nat -> forall cs from, length from = (k * u)%nat -> Forall (fun c => length c = (k * u)%nat) cs ->
  apply_ws from (chain_cmds u from cs) = last_cache from cs.
Proof.
  intros Hu. induction cs as [|c r IH]; intros from Hf Hcs; [reflexivity|].
  inversion Hcs as [|? ? Hc Hr]; subst. cbn [chain_cmds last_cache]. rewrite apply_ws_app.
  rewrite (sync_apply u k from c Hu Hc Hf). apply IH; assumption.
Qed.

(* consecutive caches of from :: cs *)
Inductive adjacent : list Z -> list (list Z) -> list Z -> list Z -> Prop :=
| adj_here from c r : adjacent from (c :: r) from c
| adj_next from c r f x : adjacent c r f x -> adjacent from (c :: r) f x.

Lemma adjacent_inv from cs f x : adjacent from cs f x ->
  match cs with [] => False | c :: r => (f = from /\ x = c) \/ adjacent c r f x end.
Proof. intros [|]; auto. Qed.

Lemma adjacent_P (P : list Z -> Prop) : forall cs from f c, adjacent from cs f c -> P from -> Forall P cs -> P f /\ P c.
Proof. intros cs from f c H. induction H as [from c r | from c r f x H IH]; intros Hf Hcs; inversion Hcs; subst; auto. Qed.
Lemma chain_cmds_in u : forall cs from w, In w (chain_cmds u from cs) -> exists f c, adjacent from cs f c /\ In w (sync_cmds u f c).
Proof.
  induction cs as [|c r IH]; intros from w H; [destruct H|]. cbn [chain_cmds] in H. apply in_app_or in H. destruct H as [H|H].
  - exists from, c. split; [apply adj_here | exact H].
  - destruct (IH c w H) as (f & x & Ha & Hi). exists f, x. split; [apply adj_next; exact Ha | exact Hi].
Qed.

(* memory after the first j commands of a chain: a unit-wise mixture of two consecutive caches *)
Lemma chain_cut u k : (0 < u)%nat -> forall cs from j, length from = (k * u)%nat -> Forall (fun c => length c = (k * u)%nat) cs ->
  apply_ws from (firstn j (chain_cmds u from cs)) = last_cache from cs \/
  exists f c, adjacent from cs f c /\ umixed u f c (apply_ws from (firstn j (chain_cmds u from cs))).
Proof.
  intros Hu. induction cs as [|c r IH]; intros from j Hf Hcs.
  - left. cbn. rewrite firstn_nil. reflexivity.
  - inversion Hcs as [|? ? Hc Hr]; subst. cbn [chain_cmds last_cache]. rewrite firstn_app.
    destruct (Nat.le_gt_cases (length (sync_cmds u from c)) j) as [Hj|Hj].
    + rewrite firstn_all2 by exact Hj. rewrite apply_ws_app, (sync_apply u k from c Hu Hc Hf).
      destruct (IH c (j - length (sync_cmds u from c))%nat Hc Hr) as [H|(f & x & Ha & Hm)]; [left; exact H|].
      right. exists f, x. split; [apply adj_next; exact Ha | exact Hm].
    + replace (j - length (sync_cmds u from c))%nat with O by lia. cbn [firstn]. rewrite app_nil_r.
      right. exists from, c. split; [apply adj_here | apply (sync_apply_prefix u k from c j Hu Hc Hf)].
Qed.
