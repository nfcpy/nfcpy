(* C06 - SNEP put / get / refusal over the two-peer system.  Reaction lemmas for the client
   and server automata, reassembly as instances of SnepSched.feed_fragments, one run over the
   list channel per operation and session, and (with Proofs/SnepSched.v) its extension to every
   interleaving and every channel implementation. *)
From Coq Require Import ZArith List Bool Lia ZifyBool.
From NV Require Import Base.Result Base.Bytes Base.PyPrims Model.Snep Proofs.SnepChunks Proofs.SnepSched.
Import ListNotations.
Open Scope Z_scope.

Section ClientSession.
  Variable miu_cs : Z.
  Hypothesis Hmiu_cs : 0 <= miu_cs.
  Notation mkc := Build_csess.

  Lemma start_ops_cons op ops results st outs :
    client_start miu_cs op = (st, outs) -> (forall r, st <> CDone r) ->
    start_ops miu_cs (op :: ops) results = (mkc st ops results, map IMsg outs).
  Proof. intros E Hnd. cbn [start_ops]. rewrite E. destruct st; try reflexivity. exfalso. eapply Hnd; reflexivity. Qed.

  Lemma atb_map lim outs : Forall (fun m => len m <= lim) outs ->
    any_too_big lim (map IMsg outs) = false.
  Proof.
    induction 1 as [|m outs Hm _ IH]; [reflexivity|]. cbn [map any_too_big existsb too_big].
    unfold any_too_big in IH. rewrite IH. replace (len m >? lim) with false by lia. reflexivity.
  Qed.
  Lemma atb_one lim m : len m <= lim -> any_too_big lim [IMsg m] = false.
  Proof. intro H. apply (atb_map lim [m]). constructor; [exact H | constructor]. Qed.

  Lemma client_start_fits op : Forall (fun m => len m <= miu_cs) (snd (client_start miu_cs op)).
  Proof.
    assert (Hsr : forall k acc req, Forall (fun m => len m <= miu_cs) (snd (send_request miu_cs k acc req))).
    { intros k acc req. unfold send_request. destruct (len req <=? miu_cs) eqn:E; cbn [snd].
      - constructor; [lia | constructor].
      - constructor; [apply len_take_le; lia | constructor]. }
    destruct op as [o|o acc|o]; cbn [client_start].
    - destruct (snep_request (OpPut o)); try apply Hsr; constructor.
    - destruct (snep_request (OpGet o acc)); try apply Hsr; constructor.
    - cbn [snd]. apply chunks_le. lia.
  Qed.

  Lemma start_fits : forall ops results, any_too_big miu_cs (snd (start_ops miu_cs ops results)) = false.
  Proof.
    induction ops as [|op ops IH]; intro results; [reflexivity|].
    cbn [start_ops]. pose proof (client_start_fits op) as Hf.
    destruct (client_start miu_cs op) as [st outs]. cbn [snd] in Hf.
    destruct st; cbn [snd]; try (apply atb_map; exact Hf).
    rewrite any_too_big_app, IH, (atb_map _ _ Hf). reflexivity.
  Qed.

  Variable complete : list Z -> bool.
  Notation creact := (cl_react complete miu_cs).

  Lemma creact_go st p r i st' outs :
    client_react complete st i = (st', outs) -> st <> CIdle -> (forall x, st' <> CDone x) ->
    creact (mkc st p r) i = (mkc st' p r, map IMsg outs).
  Proof.
    intros E Hni Hnd. unfold cl_react, csess_react. cbn [c_cur c_pending c_results].
    destruct st; try congruence; rewrite E; destruct st'; try reflexivity; exfalso; eapply Hnd; reflexivity.
  Qed.
  Lemma creact_done st p r i x outs :
    client_react complete st i = (CDone x, outs) -> st <> CIdle ->
    creact (mkc st p r) i = (fst (start_ops miu_cs p (r ++ [x])), map IMsg outs ++ snd (start_ops miu_cs p (r ++ [x]))).
  Proof.
    intros E Hni. unfold cl_react, csess_react. cbn [c_cur c_pending c_results].
    destruct st; try congruence; rewrite E; reflexivity.
  Qed.
End ClientSession.

Section SnepProofs.
  Variable A : Type.
  Variable app_put : A -> list Z -> A * Z.
  Variable app_get : A -> list Z -> A * getres.
  Variables decodable complete : list Z -> bool.
  Variable miu_cs miu_sc max_acc : Z.
  Hypothesis Hmiu_cs : 6 <= miu_cs.
  Hypothesis Hmiu_sc : 6 <= miu_sc.

  Notation sreact := (snep_sys_react A app_put app_get decodable miu_sc max_acc).
  Notation sreact0 := (snep_react A app_put app_get decodable max_acc miu_sc).
  Notation creact := (cl_react complete miu_cs).
  Notation mks := (Build_srv A).
  Notation mkc := Build_csess.
  Notation G := (mkg csess (srv A)).
  Notation reachS := (reach csess (srv A) creact sreact miu_cs miu_sc).
  Notation respond' := (respond A app_put app_get decodable miu_sc).
  Notation process' := (process_snep_request A app_put app_get decodable).

  Definition hdr (rq L : Z) : list Z :=
    [16; rq; L / 16777216 mod 256; L / 65536 mod 256; L / 256 mod 256; L mod 256].
  Lemma len_hdr rq L body : len (hdr rq L ++ body) = 6 + len body.
  Proof. apply len6. Qed.
  Lemma take_hdr n rq L body : 6 <= n -> take n (hdr rq L ++ body) = hdr rq L ++ take (n - 6) body.
  Proof. intro H. apply take_app_ge. exact H. Qed.

  Lemma respond_st st st' a log data : respond' (mks st a log) data = respond' (mks st' a log) data.
  Proof. reflexivity. Qed.

  Lemma sreact0_first a log rq L body : 0 <= L <= 4294967295 ->
    sreact0 (mks SPoll a log) (IMsg (hdr rq L ++ body)) =
      if L >? max_acc then (mks SPoll a log, [RSP_REJECT])
      else if len body <? L then (mks (SMore (hdr rq L ++ body) L) a log, [RSP_CONTINUE])
      else respond' (mks SPoll a log) (hdr rq L ++ body).
  Proof.
    intro HL. unfold snep_react. cbn [sv_st hdr app]. rewrite unbe32_be32 by exact HL.
    change (Z.shiftr 16 4 >? 1) with false. cbv iota.
    rewrite len6, Z.add_simpl_l. reflexivity.
  Qed.

  (* how a response leaves the server: whole, or its first fragment with the rest kept for the Continue *)
  Definition srv_send (a : A) (log : list call) (resp : list Z) : srv A * list (list Z) :=
    if len resp <=? miu_sc then (mks SPoll a log, [resp])
    else (mks (SAwaitCont (chunks miu_sc (drop miu_sc resp))) a log, [take miu_sc resp]).
  Lemma respond_ok st a log data a' log' resp :
    process' a log data = (a', log', Ok resp) -> respond' (mks st a log) data = srv_send a' log' resp.
  Proof. intro E. unfold respond. cbn [sv_app sv_log]. rewrite E. reflexivity. Qed.
  Lemma srv_send_fits a log resp : Forall (fun m => len m <= miu_sc) (snd (srv_send a log resp)).
  Proof.
    unfold srv_send. destruct (len resp <=? miu_sc) eqn:E; cbn [snd]; (constructor; [|constructor]).
    - lia.
    - apply len_take_le. lia.
  Qed.

  Definition not_stopped (r : srv A * list (list Z)) : Prop := snep_server_stopped (fst r) = false.
  Lemma sreact_wrap s i : snep_server_stopped (fst (sreact0 s i)) = false ->
    sreact s i = (fst (sreact0 s i), map IMsg (snd (sreact0 s i))).
  Proof. intro H. unfold snep_sys_react. rewrite H. cbn [andb]. rewrite app_nil_r. reflexivity. Qed.
  Lemma sreact_sends s i a log resp : sreact0 s i = srv_send a log resp ->
    sreact s i = (fst (srv_send a log resp), map IMsg (snd (srv_send a log resp))).
  Proof.
    intro E. rewrite sreact_wrap; rewrite E; [reflexivity|].
    unfold srv_send. destruct (len resp <=? miu_sc); reflexivity.
  Qed.
  Lemma sreact_cont a log rest :
    sreact (mks (SAwaitCont rest) a log) (IMsg REQ_CONTINUE) = (mks SPoll a log, map IMsg rest).
  Proof. apply sreact_wrap. reflexivity. Qed.

  Lemma feed_more_all fs first L a log a' log' resp :
    Forall (fun c => c <> []) fs -> fs <> [] -> len (first ++ concat fs) = L + 6 ->
    process' a log (first ++ concat fs) = (a', log', Ok resp) ->
    feed sreact (mks (SMore first L) a log) (map IMsg fs) =
      (fst (srv_send a' log' resp), map IMsg (snd (srv_send a' log' resp))).
  Proof.
    intros Hne Hnil Hlen Hp.
    apply (feed_fragments sreact (fun data => mks (SMore data L) a log) (first ++ concat fs));
      [ | | exact Hne | exact Hnil | reflexivity].
    - intros data m q _ Hq E. rewrite E, !len_app in Hlen. apply len_pos in Hq.
      rewrite sreact_wrap; unfold snep_react; cbn [sv_st];
        replace (len (data ++ m) - 6 <? L) with true by (rewrite len_app; lia); reflexivity.
    - intros data m _ E. rewrite E in Hlen, Hp. apply sreact_sends. unfold snep_react. cbn [sv_st].
      replace (len (data ++ m) - 6 <? L) with false by lia. apply respond_ok. exact Hp.
  Qed.

  Lemma mk_response_ok code data : 0 <= code < 256 -> len data <= 4294967295 ->
    mk_response code data = Ok (hdr code (len data) ++ data).
  Proof.
    intros Hc Hl. unfold mk_response. replace ((0 <=? code) && (code <? 256)) with true by lia.
    rewrite pack_L_ok by (pose proof (len_nonneg data); lia). reflexivity.
  Qed.

  Lemma process_put a log L msg :
    process' a log (hdr 2 L ++ msg) =
      if decodable msg then (fst (app_put a msg), log ++ [CallPut msg], mk_response (snd (app_put a msg)) [])
      else (a, log, mk_response 194 []).
  Proof. reflexivity. Qed.

  Definition get_code_data (acc : Z) (r : getres) : Z * list Z :=
    match r with
    | GCode c => (c, [])
    | GMsg o => if len o >? acc then (193, []) else (129, o)
    | GEncodeError => (192, [])
    end.
  Lemma get_code_data_fits acc r : 0 <= acc -> len (snd (get_code_data acc r)) <= acc.
  Proof.
    intro H. destruct r as [c|o|]; cbn [get_code_data snd]; [exact H | | exact H].
    destruct (len o >? acc) eqn:E; cbn [snd]; [exact H | lia].
  Qed.

  Lemma process_get a log L acc octets : 0 <= acc <= 4294967295 -> decodable octets = true ->
    process' a log (hdr 1 L ++ be32 acc ++ octets) =
      (fst (app_get a octets), log ++ [CallGet octets],
       mk_response (fst (get_code_data acc (snd (app_get a octets)))) (snd (get_code_data acc (snd (app_get a octets))))).
  Proof.
    intros Hacc Hdec. unfold process_snep_request.
    assert (Hl : 10 <=? len (hdr 1 L ++ be32 acc ++ octets) = true).
    { rewrite len_hdr, len_app. change (len (be32 acc)) with 4. pose proof (len_nonneg octets). lia. }
    cbn [hdr app be32] in *. change (1 =? 1) with true. rewrite Hl. cbn [andb]. cbv iota.
    rewrite unbe32_be32 by exact Hacc. rewrite Hdec. unfold get_code_data.
    destruct (snd (app_get a octets)) as [c|o|]; reflexivity.
  Qed.

  Lemma creact_cont k acc rest p r :
    creact (mkc (CAwaitCont k acc rest) p r) (IMsg RSP_CONTINUE) = (mkc (CAwaitResp k acc) p r, map IMsg rest).
  Proof. apply creact_go; [reflexivity | discriminate | discriminate]. Qed.

  Definition finish_hdr (k : ckind) (code : Z) (body : list Z) : cres :=
    if code =? 129 then match k with KPut => RBool true | KGet => ROctets body end else RSnepError code.
  Lemma finish_eq k code L body : finish k (hdr code L ++ body) = finish_hdr k code body.
  Proof. unfold finish, finish_hdr. cbn [hdr app]. destruct (code =? 129); [|reflexivity]. destruct k; reflexivity. Qed.

  Lemma recv_first_hdr k acc code L body : 0 <= L <= 4294967295 ->
    recv_first k acc (hdr code L ++ body) =
      if L >? acc then (CDone (resp_none k), [])
      else if len body <? L then (CMoreResp k (hdr code L ++ body) L, [REQ_CONTINUE])
      else (CDone (finish_hdr k code body), []).
  Proof.
    intro HL. rewrite <- (finish_eq k code L body). unfold recv_first. cbn [hdr app].
    rewrite unbe32_be32 by exact HL. rewrite len6, Z.add_simpl_l. reflexivity.
  Qed.

  Lemma creact_resp_whole k acc p r code L body : 0 <= L <= 4294967295 -> L <= acc -> L <= len body ->
    creact (mkc (CAwaitResp k acc) p r) (IMsg (hdr code L ++ body)) =
      (fst (start_ops miu_cs p (r ++ [finish_hdr k code body])), snd (start_ops miu_cs p (r ++ [finish_hdr k code body]))).
  Proof.
    intros HL Hacc Hlen.
    rewrite (creact_done _ _ _ _ _ _ (finish_hdr k code body) []); [reflexivity | | discriminate].
    cbn [client_react]. rewrite recv_first_hdr by exact HL.
    replace (L >? acc) with false by lia. replace (len body <? L) with false by lia. reflexivity.
  Qed.

  Lemma creact_resp_first k acc p r code L body : 0 <= L <= 4294967295 -> L <= acc -> len body < L ->
    creact (mkc (CAwaitResp k acc) p r) (IMsg (hdr code L ++ body)) =
      (mkc (CMoreResp k (hdr code L ++ body) L) p r, [IMsg REQ_CONTINUE]).
  Proof.
    intros HL Hacc Hlen.
    apply (creact_go _ _ _ _ _ _ _ [REQ_CONTINUE]); [ | discriminate | discriminate].
    cbn [client_react]. rewrite recv_first_hdr by exact HL.
    replace (L >? acc) with false by lia. replace (len body <? L) with true by lia. reflexivity.
  Qed.

  Lemma feed_cmore_all fs k code first L body p r :
    Forall (fun c => c <> []) fs -> fs <> [] -> hdr code L ++ body = first ++ concat fs -> len body = L ->
    feed creact (mkc (CMoreResp k first L) p r) (map IMsg fs) =
      (fst (start_ops miu_cs p (r ++ [finish_hdr k code body])),
       snd (start_ops miu_cs p (r ++ [finish_hdr k code body]))).
  Proof.
    intros Hne Hnil Hm HL.
    apply (feed_fragments creact (fun data => mkc (CMoreResp k data L) p r) (hdr code L ++ body));
      [ | | exact Hne | exact Hnil | exact Hm].
    - intros data m q _ Hq E. apply (f_equal len) in E. rewrite len_hdr, !len_app in E. apply len_pos in Hq.
      apply (creact_go _ _ _ _ _ _ _ []); [ | discriminate | discriminate].
      cbn [client_react]. replace (len (data ++ m) - 6 <? L) with true by (rewrite len_app; lia). reflexivity.
    - intros data m _ E.
      rewrite (creact_done _ _ _ _ _ _ (finish_hdr k code body) []); [reflexivity | | discriminate].
      cbn [client_react]. rewrite <- E, finish_eq, len_hdr, Z.add_simpl_l, HL, Z.ltb_irrefl. reflexivity.
  Qed.

  (* the state between two operations *)
  Definition B (ops : list cop) (results : list cres) (a : A) (log : list call) :=
    G (fst (start_ops miu_cs ops results)) (mks SPoll a log) (snd (start_ops miu_cs ops results)) [] false.

  Lemma snep_init_B a ops : snep_init A list_chan miu_cs a ops = B ops [] a [].
  Proof.
    unfold snep_init, ginit, B, mkg. rewrite push_all_list, start_fits by lia. reflexivity.
  Qed.

  Lemma B_request op k acc req ops results a log :
    client_start miu_cs op = send_request miu_cs k acc req ->
    B (op :: ops) results a log =
      G (mkc (fst (send_request miu_cs k acc req)) ops results) (mks SPoll a log)
        (map IMsg (snd (send_request miu_cs k acc req))) [] false.
  Proof.
    intro Hstart. unfold B.
    rewrite (start_ops_cons _ _ _ _ (fst (send_request miu_cs k acc req)) (snd (send_request miu_cs k acc req))).
    - reflexivity.
    - rewrite Hstart. destruct (send_request miu_cs k acc req); reflexivity.
    - unfold send_request. destruct (len req <=? miu_cs); discriminate.
  Qed.
  Lemma start_put msg : len msg <= 4294967295 ->
    client_start miu_cs (OpPut msg) = send_request miu_cs KPut 0 (hdr 2 (len msg) ++ msg).
  Proof. intro HL. cbn [client_start snep_request]. rewrite pack_L_ok by (pose proof (len_nonneg msg); lia). reflexivity. Qed.
  Lemma start_get octets acc : 0 <= acc <= 4294967295 -> 4 + len octets <= 4294967295 ->
    client_start miu_cs (OpGet octets acc) =
      send_request miu_cs KGet acc (hdr 1 (len (be32 acc ++ octets)) ++ be32 acc ++ octets).
  Proof.
    intros Hacc HL. cbn [client_start snep_request]. rewrite !pack_L_ok by (pose proof (len_nonneg octets); lia).
    rewrite len_app. reflexivity.
  Qed.

  Lemma request_run k acc rq body ops results a log a' log' resp :
    let L := len body in let req := hdr rq L ++ body in
    L <= 4294967295 -> L <= max_acc -> process' a log req = (a', log', Ok resp) ->
    reachS (G (mkc (fst (send_request miu_cs k acc req)) ops results) (mks SPoll a log)
              (map IMsg (snd (send_request miu_cs k acc req))) [] false)
           (G (mkc (CAwaitResp k acc) ops results) (fst (srv_send a' log' resp)) []
              (map IMsg (snd (srv_send a' log' resp))) false).
  Proof.
    intros L req HL Hmax Hp. pose proof (len_nonneg body) as Hnn. fold L in Hnn.
    assert (Hreq : len req = 6 + L) by apply len_hdr.
    assert (Hfit : any_too_big miu_sc (map IMsg (snd (srv_send a' log' resp))) = false)
      by apply atb_map, srv_send_fits.
    unfold send_request. destruct (len req <=? miu_cs) eqn:E; cbn [fst snd map].
    - (* one fragment *)
      eapply reach_trans; [apply reach_server|]. rewrite (sreact_sends _ _ a' log' resp).
      + cbn [fst snd app orb]. rewrite Hfit. apply reach_refl.
      + unfold req. rewrite sreact0_first by lia. replace (L >? max_acc) with false by lia.
        unfold L. rewrite Z.ltb_irrefl. apply respond_ok. exact Hp.
    - (* first fragment, Continue, remaining fragments *)
      destruct (rest_fragments miu_cs req) as (Hne & Hnil & Hcat & Hle); [lia | lia |].
      set (rest := chunks miu_cs (drop miu_cs req)) in *.
      pose proof (len_take_le (miu_cs - 6) body) as Hlt.
      assert (Hfirst : take miu_cs req = hdr rq L ++ take (miu_cs - 6) body) by (apply take_hdr; lia).
      pose proof (sreact0_first a log rq L (take (miu_cs - 6) body) ltac:(lia)) as E0.
      replace (L >? max_acc) with false in E0 by lia.
      replace (len (take (miu_cs - 6) body) <? L) with true in E0 by lia.
      eapply reach_trans; [apply reach_server|]. rewrite Hfirst.
      rewrite sreact_wrap; rewrite E0; [|reflexivity].
      cbn [fst snd map app]. rewrite atb_one by (change (len RSP_CONTINUE) with 6; lia). cbn [orb].
      eapply reach_trans; [apply reach_client|]. rewrite creact_cont. cbn [fst snd app].
      rewrite atb_map by exact Hle. cbn [orb].
      eapply reach_trans; [apply reach_burst_server|]. rewrite <- Hfirst.
      rewrite Hcat in Hp, Hreq. rewrite (feed_more_all rest (take miu_cs req) L _ _ _ _ _ Hne Hnil ltac:(lia) Hp).
      cbn [fst snd app orb]. rewrite Hfit. apply reach_refl.
  Qed.

  Lemma response_run k acc code body ops results a log :
    let L := len body in let resp := hdr code L ++ body in
    L <= 4294967295 -> L <= acc ->
    reachS (G (mkc (CAwaitResp k acc) ops results) (fst (srv_send a log resp)) []
              (map IMsg (snd (srv_send a log resp))) false)
           (B ops (results ++ [finish_hdr k code body]) a log).
  Proof.
    intros L resp HL Hacc. pose proof (len_nonneg body) as Hnn. fold L in Hnn.
    assert (Hresp : len resp = 6 + L) by apply len_hdr.
    unfold srv_send. destruct (len resp <=? miu_sc) eqn:E; cbn [fst snd map].
    - eapply reach_trans; [apply reach_client|]. unfold resp.
      rewrite creact_resp_whole by (fold L; lia). cbn [fst snd app orb]. rewrite start_fits by lia. apply reach_refl.
    - destruct (rest_fragments miu_sc resp) as (Hne & Hnil & Hcat & Hle); [lia | lia |].
      set (rest := chunks miu_sc (drop miu_sc resp)) in *.
      pose proof (len_take_le (miu_sc - 6) body) as Hlt.
      assert (Hfirst : take miu_sc resp = hdr code L ++ take (miu_sc - 6) body) by (apply take_hdr; lia).
      eapply reach_trans; [apply reach_client|]. rewrite Hfirst.
      rewrite creact_resp_first by lia. cbn [fst snd app].
      rewrite atb_one by (change (len REQ_CONTINUE) with 6; lia). cbn [orb].
      eapply reach_trans; [apply reach_server|]. rewrite sreact_cont. cbn [fst snd app].
      rewrite atb_map by exact Hle. cbn [orb].
      eapply reach_trans; [apply reach_burst_client|]. rewrite <- Hfirst.
      rewrite (feed_cmore_all rest k code _ L body ops results Hne Hnil Hcat eq_refl).
      cbn [fst snd app orb]. rewrite start_fits by lia. apply reach_refl.
  Qed.

  (* a request the server accepts and answers with (code, data) *)
  Lemma exchange_run k acc rq body code data ops results a log a' log' :
    len body <= 4294967295 -> len body <= max_acc -> len data <= 4294967295 -> len data <= acc ->
    process' a log (hdr rq (len body) ++ body) = (a', log', Ok (hdr code (len data) ++ data)) ->
    reachS (G (mkc (fst (send_request miu_cs k acc (hdr rq (len body) ++ body))) ops results) (mks SPoll a log)
              (map IMsg (snd (send_request miu_cs k acc (hdr rq (len body) ++ body)))) [] false)
           (B ops (results ++ [finish_hdr k code data]) a' log').
  Proof. intros. eapply reach_trans; [apply request_run | apply response_run]; eassumption. Qed.

  Definition put_result (code : Z) : cres := if code =? 129 then RBool true else RSnepError code.

  Lemma put_op msg ops results a log :
    len msg <= 4294967295 -> len msg <= max_acc -> decodable msg = true ->
    0 <= snd (app_put a msg) < 256 ->
    reachS (B (OpPut msg :: ops) results a log)
           (B ops (results ++ [put_result (snd (app_put a msg))]) (fst (app_put a msg)) (log ++ [CallPut msg])).
  Proof.
    intros HL Hmax Hdec Hcode. rewrite (B_request _ _ _ _ _ _ _ _ (start_put msg HL)).
    apply (exchange_run KPut 0 2 msg (snd (app_put a msg)) []); [exact HL | exact Hmax | cbn; lia | cbn; lia |].
    rewrite process_put, Hdec, mk_response_ok by (cbn; lia). reflexivity.
  Qed.

  Lemma get_op octets acc ops results a log :
    0 <= acc <= 4294967295 -> 4 + len octets <= 4294967295 -> 4 + len octets <= max_acc ->
    decodable octets = true ->
    let cd := get_code_data acc (snd (app_get a octets)) in
    0 <= fst cd < 256 ->
    reachS (B (OpGet octets acc :: ops) results a log)
           (B ops (results ++ [finish_hdr KGet (fst cd) (snd cd)]) (fst (app_get a octets)) (log ++ [CallGet octets])).
  Proof.
    intros Hacc HL Hmax Hdec cd Hcode. rewrite (B_request _ _ _ _ _ _ _ _ (start_get octets acc Hacc HL)).
    assert (Hbody : len (be32 acc ++ octets) = 4 + len octets) by (rewrite len_app; reflexivity).
    pose proof (get_code_data_fits acc (snd (app_get a octets)) (proj1 Hacc)) as Hdata. fold cd in Hdata.
    apply exchange_run; [lia | lia | lia | lia |].
    rewrite process_get by assumption. fold cd. rewrite mk_response_ok by lia. reflexivity.
  Qed.

  (* a request whose length field exceeds max_acceptable_length: Reject, nothing else happens *)
  Definition refused_result (k : ckind) (reqlen : Z) : cres :=
    if reqlen <=? miu_cs then RSnepError 255 else send_failed k.

  Lemma excess_run k acc rq body ops results a log :
    let L := len body in let req := hdr rq L ++ body in
    L <= 4294967295 -> max_acc < L -> 0 <= acc ->
    reachS (G (mkc (fst (send_request miu_cs k acc req)) ops results) (mks SPoll a log)
              (map IMsg (snd (send_request miu_cs k acc req))) [] false)
           (B ops (results ++ [refused_result k (6 + L)]) a log).
  Proof.
    intros L req HL Hmax Hacc. pose proof (len_nonneg body) as Hnn. fold L in Hnn.
    assert (Hrej : forall b, sreact (mks SPoll a log) (IMsg (hdr rq L ++ b)) = (mks SPoll a log, [IMsg RSP_REJECT])).
    { intro b. rewrite sreact_wrap; rewrite sreact0_first by lia; replace (L >? max_acc) with true by lia; reflexivity. }
    assert (Hreq : len req = 6 + L) by apply len_hdr.
    unfold refused_result, send_request. rewrite <- Hreq.
    destruct (len req <=? miu_cs) eqn:E; cbn [fst snd map]; (eapply reach_trans; [apply reach_server|]); unfold req.
    - rewrite Hrej. cbn [fst snd app].
      rewrite atb_one by (change (len RSP_REJECT) with 6; lia). cbn [orb].
      eapply reach_trans; [apply reach_client|]. change RSP_REJECT with (hdr 255 0 ++ []).
      rewrite creact_resp_whole by (cbn; lia). cbn [fst snd app orb]. rewrite start_fits by lia. apply reach_refl.
    - rewrite take_hdr, Hrej by lia. cbn [fst snd app].
      rewrite atb_one by (change (len RSP_REJECT) with 6; lia). cbn [orb].
      eapply reach_trans; [apply reach_client|].
      rewrite (creact_done _ _ _ _ _ _ (send_failed k) []); [ | reflexivity | discriminate].
      cbn [fst snd map app orb]. rewrite start_fits by lia. apply reach_refl.
  Qed.

  Lemma put_excess_op msg ops results a log :
    len msg <= 4294967295 -> max_acc < len msg ->
    reachS (B (OpPut msg :: ops) results a log) (B ops (results ++ [refused_result KPut (6 + len msg)]) a log).
  Proof.
    intros HL Hmax. rewrite (B_request _ _ _ _ _ _ _ _ (start_put msg HL)).
    apply excess_run; [exact HL | exact Hmax | lia].
  Qed.

  Lemma get_excess_op octets acc ops results a log :
    0 <= acc <= 4294967295 -> 4 + len octets <= 4294967295 -> max_acc < 4 + len octets ->
    reachS (B (OpGet octets acc :: ops) results a log) (B ops (results ++ [refused_result KGet (10 + len octets)]) a log).
  Proof.
    intros Hacc HL Hmax. rewrite (B_request _ _ _ _ _ _ _ _ (start_get octets acc Hacc HL)).
    assert (Hbody : len (be32 acc ++ octets) = 4 + len octets) by (rewrite len_app; reflexivity).
    replace (10 + len octets) with (6 + len (be32 acc ++ octets)) by lia. apply excess_run; lia.
  Qed.

  Definition final (results : list cres) (a : A) (log : list call) :=
    G (mkc CIdle [] results) (mks SClosed a log) [] [] false.
  Lemma close_run results a log : reachS (B [] results a log) (final results a log).
  Proof. exists [false]. reflexivity. Qed.

  (* what the property demands of a list of operations performed on one connection, given the
     application state a: every message is within the 32 bit length field, is an NDEF message for
     the decoder, the application answers with a byte-sized code; messages above the acceptable
     length are allowed (they are refused) *)
  Fixpoint session_ok (a : A) (ops : list cop) : Prop :=
    match ops with
    | [] => True
    | OpPut msg :: r =>
        len msg <= 4294967295 /\
        (if len msg <=? max_acc
         then (decodable msg = true /\ 0 <= snd (app_put a msg) < 256 /\ session_ok (fst (app_put a msg)) r)
         else session_ok a r)
    | OpGet o acc :: r =>
        0 <= acc <= 4294967295 /\ 4 + len o <= 4294967295 /\
        (if 4 + len o <=? max_acc
         then (decodable o = true /\ 0 <= fst (get_code_data acc (snd (app_get a o))) < 256 /\
               session_ok (fst (app_get a o)) r)
         else session_ok a r)
    | OpHo _ :: _ => False
    end.
  Fixpoint session_results (a : A) (ops : list cop) : list cres :=
    match ops with
    | [] => []
    | OpPut msg :: r =>
        if len msg <=? max_acc then put_result (snd (app_put a msg)) :: session_results (fst (app_put a msg)) r
        else refused_result KPut (6 + len msg) :: session_results a r
    | OpGet o acc :: r =>
        if 4 + len o <=? max_acc
        then finish_hdr KGet (fst (get_code_data acc (snd (app_get a o)))) (snd (get_code_data acc (snd (app_get a o))))
             :: session_results (fst (app_get a o)) r
        else refused_result KGet (10 + len o) :: session_results a r
    | OpHo _ :: r => session_results a r
    end.
  Fixpoint session_log (a : A) (ops : list cop) : list call :=
    match ops with
    | [] => []
    | OpPut msg :: r =>
        if len msg <=? max_acc then CallPut msg :: session_log (fst (app_put a msg)) r else session_log a r
    | OpGet o acc :: r =>
        if 4 + len o <=? max_acc then CallGet o :: session_log (fst (app_get a o)) r else session_log a r
    | OpHo _ :: r => session_log a r
    end.
  Fixpoint session_app (a : A) (ops : list cop) : A :=
    match ops with
    | [] => a
    | OpPut msg :: r => if len msg <=? max_acc then session_app (fst (app_put a msg)) r else session_app a r
    | OpGet o acc :: r => if 4 + len o <=? max_acc then session_app (fst (app_get a o)) r else session_app a r
    | OpHo _ :: r => session_app a r
    end.

  (* one operation with result r and callbacks l, then the rest of the session *)
  Lemma session_cons op ops results a log r a' l rs a'' ls :
    reachS (B (op :: ops) results a log) (B ops (results ++ [r]) a' (log ++ l)) ->
    (forall results log, reachS (B ops results a' log) (B [] (results ++ rs) a'' (log ++ ls))) ->
    reachS (B (op :: ops) results a log) (B [] (results ++ r :: rs) a'' (log ++ l ++ ls)).
  Proof.
    intros H1 H2. eapply reach_trans; [exact H1|].
    specialize (H2 (results ++ [r]) (log ++ l)). rewrite <- !app_assoc in H2. exact H2.
  Qed.

  Lemma session_run : forall ops results a log, session_ok a ops ->
    reachS (B ops results a log)
           (B [] (results ++ session_results a ops) (session_app a ops) (log ++ session_log a ops)).
  Proof.
    induction ops as [|op ops IH]; intros results a log Hok.
    - cbn [session_results session_log session_app]. rewrite !app_nil_r. apply reach_refl.
    - destruct op as [msg|o acc|o]; cbn [session_ok session_results session_log session_app] in *.
      + destruct Hok as (HL & Hok). destruct (len msg <=? max_acc) eqn:E.
        * destruct Hok as (Hdec & Hcode & Hok).
          eapply session_cons with (l := [CallPut msg]); [apply put_op; [exact HL | lia | exact Hdec | exact Hcode] |].
          intros. apply IH. exact Hok.
        * eapply session_cons with (l := []); [rewrite app_nil_r; apply put_excess_op; [exact HL | lia] |].
          intros. apply IH. exact Hok.
      + destruct Hok as (Hacc & HL & Hok). destruct (4 + len o <=? max_acc) eqn:E.
        * destruct Hok as (Hdec & Hcode & Hok).
          eapply session_cons with (l := [CallGet o]); [apply get_op; [exact Hacc | exact HL | lia | exact Hdec | exact Hcode] |].
          intros. apply IH. exact Hok.
        * eapply session_cons with (l := []); [rewrite app_nil_r; apply get_excess_op; [exact Hacc | exact HL | lia] |].
          intros. apply IH. exact Hok.
      + contradiction.
  Qed.

  Section AnyChannel.
    Variable C : chan_ops.
    Variable Cok : chan_ok C.
    Notation runC := (run csess (srv A) creact sreact C miu_cs miu_sc).

    (* whatever deliveries have happened so far, the run can be completed, every completion has
       the same number n of deliveries, and it ends with nothing in transit, the client idle
       with the given results, the server loop left after the client's disconnect, with the given
       application state and callback log, and no send ever exceeded the MIU *)
    Definition snep_ends_in (a : A) (ops : list cop) (results : list cres) (a' : A) (log : list call) : Prop :=
      exists n, forall sch g, runC sch (snep_init A C miu_cs a ops) = Some g ->
        exists sch' g', (length sch + length sch' = n)%nat /\ runC sch' g = Some g' /\
          g_c g' = mkc CIdle [] results /\ g_s g' = mks SClosed a' log /\
          qlist C Cok (g_cs g') = [] /\ qlist C Cok (g_sc g') = [] /\ g_err g' = false.

    Lemma ends_from_run a ops results a' log :
      reachS (B ops [] a []) (B [] results a' log) -> snep_ends_in a ops results a' log.
    Proof.
      intro H. apply (always_ends_like csess (srv A) creact sreact miu_cs miu_sc C Cok).
      fold (snep_init A list_chan miu_cs a ops). rewrite snep_init_B.
      eapply reach_trans; [exact H | apply close_run].
    Qed.

    Theorem snep_session_exact a ops : session_ok a ops ->
      snep_ends_in a ops (session_results a ops) (session_app a ops) (session_log a ops).
    Proof. intro Hok. apply ends_from_run, (session_run ops [] a [] Hok). Qed.

    (* put: delivered exactly once, octet for octet; the client gets Success *)
    Theorem snep_put_exact a msg :
      len msg <= 4294967295 -> len msg <= max_acc -> decodable msg = true -> snd (app_put a msg) = 129 ->
      snep_ends_in a [OpPut msg] [RBool true] (fst (app_put a msg)) [CallPut msg].
    Proof.
      intros HL Hmax Hdec Hcode.
      pose proof (snep_session_exact a [OpPut msg]) as H.
      cbn [session_ok session_results session_log session_app] in H.
      replace (len msg <=? max_acc) with true in H by lia. rewrite Hcode in H. apply H.
      repeat split; try assumption; lia.
    Qed.

    (* get: request delivered exactly once, response returned octet for octet *)
    Theorem snep_get_exact a octets acc rsp :
      0 <= acc <= 4294967295 -> 4 + len octets <= 4294967295 -> 4 + len octets <= max_acc ->
      decodable octets = true -> snd (app_get a octets) = GMsg rsp -> len rsp <= acc ->
      snep_ends_in a [OpGet octets acc] [ROctets rsp] (fst (app_get a octets)) [CallGet octets].
    Proof.
      intros Hacc HL Hmax Hdec Hrsp Hfit.
      pose proof (snep_session_exact a [OpGet octets acc]) as H.
      cbn [session_ok session_results session_log session_app] in H.
      replace (4 + len octets <=? max_acc) with true in H by lia. rewrite Hrsp in H.
      unfold get_code_data in H. replace (len rsp >? acc) with false in H by lia. cbn [fst snd] in H.
      apply H. repeat split; try assumption; lia.
    Qed.

    (* a message above the server's acceptable length: Reject, no callback, nothing delivered *)
    Theorem snep_excess_refused_put a msg :
      len msg <= 4294967295 -> max_acc < len msg ->
      snep_ends_in a [OpPut msg] [if 6 + len msg <=? miu_cs then RSnepError 255 else RBool false] a [].
    Proof.
      intros HL Hmax. pose proof (snep_session_exact a [OpPut msg]) as H.
      cbn [session_ok session_results session_log session_app] in H.
      replace (len msg <=? max_acc) with false in H by lia. apply H. split; [exact HL | exact I].
    Qed.
    Theorem snep_excess_refused_get a octets acc :
      0 <= acc <= 4294967295 -> 4 + len octets <= 4294967295 -> max_acc < 4 + len octets ->
      snep_ends_in a [OpGet octets acc] [if 10 + len octets <=? miu_cs then RSnepError 255 else RNone] a [].
    Proof.
      intros Hacc HL Hmax. pose proof (snep_session_exact a [OpGet octets acc]) as H.
      cbn [session_ok session_results session_log session_app] in H.
      replace (4 + len octets <=? max_acc) with false in H by lia. apply H. repeat split; try assumption; lia.
    Qed.
    (* a response above the client's acceptable length: ExcessData, no part of it is returned *)
    Theorem snep_excess_refused_response a octets acc rsp :
      0 <= acc <= 4294967295 -> 4 + len octets <= 4294967295 -> 4 + len octets <= max_acc ->
      decodable octets = true -> snd (app_get a octets) = GMsg rsp -> acc < len rsp ->
      snep_ends_in a [OpGet octets acc] [RSnepError 193] (fst (app_get a octets)) [CallGet octets].
    Proof.
      intros Hacc HL Hmax Hdec Hrsp Hfit.
      pose proof (snep_session_exact a [OpGet octets acc]) as H.
      cbn [session_ok session_results session_log session_app] in H.
      replace (4 + len octets <=? max_acc) with true in H by lia. rewrite Hrsp in H.
      unfold get_code_data in H. replace (len rsp >? acc) with true in H by lia. cbn [fst snd] in H.
      apply H. repeat split; try assumption; lia.
    Qed.
  End AnyChannel.

  (* the connection breaks during the transfer of a put request: the loop processes what it has;
     if the decoder rejects those octets (they are a proper prefix of an NDEF message) no
     callback is made *)
  Lemma snep_broken_transfer_no_callback a log L part : decodable part = false ->
    sv_log (fst (sreact (mks (SMore (hdr 2 L ++ part) L) a log) IClosed)) = log /\
    sv_app (fst (sreact (mks (SMore (hdr 2 L ++ part) L) a log) IClosed)) = a /\
    snd (sreact (mks (SMore (hdr 2 L ++ part) L) a log) IClosed) = [].
  Proof.
    intro Hdec. unfold snep_sys_react, snep_react. cbn [sv_st].
    rewrite (respond_ok _ a log _ a log (hdr 194 0)) by (rewrite process_put, Hdec; reflexivity).
    unfold srv_send. destruct (len (hdr 194 0) <=? miu_sc); repeat split; reflexivity.
  Qed.

  (* the executable schedule (client first) reaches the same end *)
  Theorem snep_run_cp_ends a ops : session_ok a ops ->
    exists n, forall k, (n <= k)%nat ->
      run_cp csess (srv A) creact sreact list_chan miu_cs miu_sc k (snep_init A list_chan miu_cs a ops) =
      final (session_results a ops) (session_app a ops) (session_log a ops).
  Proof.
    intro Hok.
    destruct (reach_trans _ _ _ _ _ _ _ _ _ (session_run ops [] a [] Hok) (close_run _ _ _)) as [sch H].
    exists (length sch). intros k Hk. rewrite snep_init_B.
    eapply run_cp_ends; [reflexivity | exact H | apply quiescent_empty | exact Hk].
  Qed.
End SnepProofs.
