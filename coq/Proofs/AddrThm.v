(* C17 - the property theorems, for every controller (pair of controllers) that satisfies the invariant. *)
From Coq Require Import ZArith List Bool Lia ZifyBool.
From NV Require Import Base.Result Base.Bytes Base.PyPrims Model.Addr Proofs.Addr Proofs.AddrInv Proofs.AddrStep.
Import ListNotations.
Open Scope Z_scope.

(* the abstract address table: addr -> sockets bound there, name -> addr *)
Definition bound_set (c : ctl) (a : Z) : list nat := socks_of (sap_get c a).
Definition name_addr (c : ctl) (n : name) : option Z := lookup (c_snl c) n.
Definition least_free (c : ctl) (lo hi a : Z) : Prop :=
  lo <= a < hi /\ bound_set c a = [] /\ forall b, lo <= b < a -> bound_set c b <> [].
Definition none_free (c : ctl) (lo hi : Z) : Prop := forall b, lo <= b < hi -> bound_set c b <> [].
Definition bound_alone (c' : ctl) (i : nat) (a : Z) : Prop :=
  bound_set c' a = [i] /\ exists s', get_sock c' i = Some s' /\ s_addr s' = Some a.

Lemma free_abs c a : wf c -> 2 <= a < 64 -> (is_free c a = true <-> bound_set c a = []).
Proof.
  intros W R. unfold bound_set. split.
  - intro F. apply is_free_iff in F. rewrite F. reflexivity.
  - intro E. unfold is_free. destruct (sap_get c a) as [| |l sl] eqn:SG; auto.
    + exfalso. eapply (wf_nosd _ W a); eauto. lia.
    + cbn in E. subst l. exfalso. eapply (wf_nonempty _ W a); eauto. lia.
Qed.
Lemma notfree_abs c a : wf c -> 2 <= a < 64 -> (is_free c a = false <-> bound_set c a <> []).
Proof. intros W R. rewrite <- (free_abs c a W R). destruct (is_free c a); split; congruence. Qed.

(* free = no socket that is bound there and still open *)
Lemma free_no_open_socket c a : wf c -> 2 <= a < 64 -> bound_set c a = [] ->
  forall i s, get_sock c i = Some s -> s_addr s = Some a -> s_state s = StShutdown.
Proof.
  intros W R E i s G A. destruct (s_state s) eqn:St; auto; exfalso;
    (assert (L : listed c a i) by (eapply (wf_open_listed _ W); eauto; congruence));
    unfold listed in L; unfold bound_set in E; rewrite E in L; destruct L.
Qed.

Theorem bind_unique_state c : wf c ->
  (forall a b i, In i (bound_set c a) -> In i (bound_set c b) -> a = b) /\
  (forall a, NoDup (bound_set c a)) /\
  (forall a i, In i (bound_set c a) -> exists s, get_sock c i = Some s /\ s_addr s = Some a) /\
  (forall i s a, get_sock c i = Some s -> s_addr s = Some a -> s_state s <> StShutdown -> In i (bound_set c a)) /\
  (forall n1 n2 a, 2 <= a -> name_addr c n1 = Some a -> name_addr c n2 = Some a -> n1 = n2) /\
  (forall n a, name_addr c n = Some a -> 2 <= a -> bound_set c a <> []).
Proof.
  intro W. repeat split.
  - intros a b i La Lb. destruct (wf_listed_addr _ W a i La) as (s & G & A).
    destruct (wf_listed_addr _ W b i Lb) as (s' & G' & A'). congruence.
  - apply (wf_nodup _ W).
  - apply (wf_listed_addr _ W).
  - apply (wf_open_listed _ W).
  - apply (wf_snl_inj _ W).
  - intros n a L Ha. destruct (wf_snl_val _ W n a L) as [[_ ->]|(_ & _ & F & K)]; [lia|].
    apply notfree_abs; auto. destruct K as [K|[_ K]]; [destruct (wks_cases _ _ K); lia | lia].
Qed.

(* an address is handed out only while free, and a socket never changes its address *)
Theorem bind_unique_step st o sd : wf2 st ->
  forall j sj, get_sock (get_side st sd) j = Some sj -> exists sj', get_sock (get_side (fst (step st o)) sd) j = Some sj' /\
    (s_addr sj' = s_addr sj \/
     (s_addr sj = None /\ exists a, s_addr sj' = Some a /\ 2 <= a < 64 /\ bound_set (get_side st sd) a = [])).
Proof.
  intros W j sj G. destruct (step_side st o sd W) as [W' S]. destruct (S j sj G) as (sj' & G' & _ & H).
  exists sj'. split; auto. destruct H as [H|(N & a & A & F)]; auto. right. split; auto. exists a. split; auto.
  pose proof (wf_addr_range _ W' j sj' a G' A) as R. split; auto. apply free_abs; auto. apply wf2_side; auto.
Qed.

Definition documented (e : Z) : Prop := e = EADDRINUSE \/ e = EACCES \/ e = EFAULT \/ e = EAGAIN.

Lemma place_bound_alone c i s0 s a : wf c -> get_sock c i = Some s0 -> 2 <= a < 64 -> bound_alone (place c i s a) i a.
Proof.
  intros W G R. split.
  - unfold bound_set, place. rewrite sap_get_set_same; auto; [rewrite put_sock_sap; apply W | lia].
  - exists (set_addr s (Some a)). split; auto. eapply place_get_self; eauto.
Qed.

Lemma range_free c lo hi a : wf c -> 2 <= lo -> hi <= 64 ->
  lo <= a < hi /\ is_free c a = true /\ (forall b, lo <= b < a -> is_free c b = false) -> least_free c lo hi a.
Proof. intros W L H (R & F & B). split; auto. split; [apply free_abs; auto; lia|].
  intros b Hb. apply notfree_abs; auto; lia. Qed.
Lemma range_none c lo hi : wf c -> 2 <= lo -> hi <= 64 ->
  (forall b, lo <= b < hi -> is_free c b = false) -> none_free c lo hi.
Proof. intros W L H B b Hb. apply notfree_abs; auto; lia. Qed.

Lemma sap_remove_last c a i : wf c -> bound_set c a = [i] ->
  let c' := sap_remove c a i in
  bound_set c' a = [] /\ is_free c' a = true /\ (forall n, name_addr c' n <> Some a) /\
  (forall b, b <> a -> sap_get c' b = sap_get c b) /\
  (forall n b, b <> a -> (name_addr c' n = Some b <-> name_addr c n = Some b)) /\ c_socks c' = c_socks c.
Proof.
  intros W B. unfold bound_set in B. unfold sap_remove. destruct (sap_get c a) as [| |l sl] eqn:SG; try discriminate.
  cbn in B. subst l. rewrite remove_id_single. cbn zeta.
  assert (Ra : 0 <= a < 64) by (eapply sap_get_range; eauto; discriminate).
  assert (SGa : sap_get (set_snl (sap_set c a SapNone) (filter (fun kv : name * Z => negb (snd kv =? a)) (c_snl c))) a = SapNone).
  { change (sap_get (sap_set c a SapNone) a = SapNone). apply sap_get_set_same; auto. apply W. }
  unfold bound_set, is_free, name_addr. rewrite SGa. cbn [c_snl set_snl socks_of].
  split; auto. split; auto. split; [|split; [|split]].
  - intros n H. apply lookup_drop_addr in H; [tauto | apply W].
  - intros b Hb. change (sap_get (sap_set c a SapNone) b = sap_get c b). apply sap_get_set_other. auto.
  - intros n b Hb. rewrite lookup_drop_addr by apply W. tauto.
  - apply sap_set_socks.
Qed.

Lemma sap_remove_more c a i l : wf c -> bound_set c a = l -> (exists j, j <> i /\ In j l) ->
  let c' := sap_remove c a i in
  bound_set c' a = remove_id l i /\ bound_set c' a <> [] /\ c_snl c' = c_snl c /\ c_socks c' = c_socks c /\
  (forall b, b <> a -> sap_get c' b = sap_get c b).
Proof.
  intros W B (j & Nj & Hj). unfold bound_set in B. unfold sap_remove. destruct (sap_get c a) as [| |l0 sl] eqn:SG;
    try (cbn in B; subst l; destruct Hj). cbn in B. subst l0.
  assert (Ra : 0 <= a < 64) by (eapply sap_get_range; eauto; discriminate).
  pose proof (remove_id_keeps l i j Nj Hj) as K.
  destruct (remove_id l i) as [|x t] eqn:RM; [destruct K|]. cbn zeta.
  unfold bound_set. rewrite sap_get_set_same by (auto; apply W). cbn.
  split; auto. split; [discriminate|]. split; [apply sap_set_snl|]. split; [apply sap_set_socks|].
  intros b Hb. apply sap_get_set_other; auto.
Qed.

(* close() of a bound socket that does not have to wait for the peer: the socket is shut down, then remove_socket *)
Lemma do_close_now c i s a : wf c -> get_sock c i = Some s -> s_addr s = Some a -> s_pend s = PdNone ->
  bound_set c a <> [] -> sock_close s <> None ->
  exists s', wf (put_sock c i s') /\ do_close c i = (sap_remove (put_sock c i s') a i, Ok OUnit).
Proof.
  intros W G A P B SC. unfold do_close. rewrite G, P, A. unfold bound_set in B.
  destruct (sap_get c a) as [| |l sl]; try (destruct B; reflexivity).
  destruct (sock_close s) as [s'|] eqn:E; [|congruence]. exists s'. split; [|reflexivity].
  eapply wf_put_evolve; eauto. apply (sock_close_some _ _ E).
Qed.

(* ... of the last socket of a SAP *)
Theorem close_last c : wf c -> forall i s a c' r, get_sock c i = Some s -> s_addr s = Some a -> s_pend s = PdNone ->
  bound_set c a = [i] -> sock_close s <> None -> do_close c i = (c', r) ->
  r = Ok OUnit /\ bound_set c' a = [] /\ is_free c' a = true /\ (forall n, name_addr c' n <> Some a) /\
  (forall b, b <> a -> sap_get c' b = sap_get c b) /\
  (forall n b, b <> a -> (name_addr c' n = Some b <-> name_addr c n = Some b)).
Proof.
  intros W i s a c' r G A P B SC D.
  destruct (do_close_now c i s a W G A P) as (s' & W1 & E); [rewrite B; discriminate | exact SC |].
  rewrite E in D. inversion D; subst. split; [reflexivity|].
  pose proof (wf_addr_range _ W i s a G A) as R.
  destruct (sap_remove_last (put_sock c i s') a i W1) as (P1 & P2 & P3 & P4 & P5 & _); [exact B |].
  repeat split; auto; apply P5; auto.
Qed.

(* ... and of a socket that is not the last one: the address and its name stay *)
Theorem close_not_last c : wf c -> forall i s a c' r l, get_sock c i = Some s -> s_addr s = Some a -> s_pend s = PdNone ->
  bound_set c a = l -> (exists j, j <> i /\ In j l) -> sock_close s <> None -> do_close c i = (c', r) ->
  r = Ok OUnit /\ bound_set c' a = remove_id l i /\ bound_set c' a <> [] /\ c_snl c' = c_snl c.
Proof.
  intros W i s a c' r l G A P B J SC D.
  destruct (do_close_now c i s a W G A P) as (s' & W1 & E); [rewrite B; destruct J as (j & _ & Hj); intros ->; destruct Hj | exact SC |].
  rewrite E in D. inversion D; subst. split; [reflexivity|].
  destruct (sap_remove_more (put_sock c i s') a i (bound_set c a) W1 eq_refl J) as (P1 & P2 & P3 & _). auto.
Qed.

(* close() of an established connection waits (OPending); when the DM answer is dispatched the tail of
   remove_socket runs: same effect *)
Theorem close_pending_completes c : wf c -> forall i s' a, (exists s, get_sock c i = Some s /\ evolves s s') -> s_addr s' = Some a ->
  s_recvq s' <> [] -> bound_set c a = [i] ->
  let c' := fst (finish_close c i s') in
  bound_set c' a = [] /\ is_free c' a = true /\ (forall n, name_addr c' n <> Some a) /\
  (forall n b, b <> a -> (name_addr c' n = Some b <-> name_addr c n = Some b)).
Proof.
  intros W i s' a (s & G & Ev) A Q B. unfold finish_close. destruct (s_recvq s') as [|h t]; [congruence|]. rewrite A. cbn [fst].
  set (s2 := set_pend (base_close (set_recvq s' t)) PdNone).
  assert (E2 : evolves s s2) by (eapply evolves_trans; [exact Ev|]; unfold s2; ev_tac).
  pose proof (wf_put_evolve c i s s2 W G E2) as W1.
  assert (R : 2 <= a < 64). { eapply (wf_addr_range _ W i s a); eauto. rewrite <- A. symmetry. apply Ev. }
  destruct (sap_remove_last (put_sock c i s2) a i W1) as (P1 & P2 & P3 & P4 & P5 & _); [exact B |].
  repeat split; auto; apply P5; auto.
Qed.

(* after the address is free again the same name can be bound again and gets an address of the named range *)
Theorem rebind_after_close c j s n : wf c -> get_sock c j = Some s -> s_addr s = None ->
  name_valid n = true -> wks n = None -> name_addr c n = None -> (exists a, 16 <= a < 32 /\ bound_set c a = []) ->
  exists a, least_free c 16 32 a /\ snd (do_bind c j (BName n)) = Ok OUnit /\ name_addr (fst (do_bind c j (BName n))) n = Some a.
Proof.
  intros W G A V K L (a0 & R0 & F0). unfold name_addr in L. unfold do_bind, bind_name. rewrite G, A, V, L, K. cbn [negb].
  destruct (first_free c (zrange 16 32)) as [a|] eqn:FF.
  - exists a. split; [apply range_free, first_free_range_some; auto; lia|]. split; [reflexivity|].
    unfold name_addr. cbn. rewrite (lookup_app_none _ _ _ _ L), name_eqb_refl. reflexivity.
  - exfalso. apply (range_none c 16 32 W) with (b := a0); auto; try lia. apply first_free_range_none; auto.
Qed.

Theorem name_addr_meaning c : wf c -> forall n,
  match name_addr c n with
  | Some a => (n = name_sdp /\ a = 1) \/
              (2 <= a < 64 /\ bound_set c a <> [] /\
               forall i, In i (bound_set c a) -> exists s, get_sock c i = Some s /\ s_addr s = Some a /\
                 (s_bname s = Some n \/ (s_bname s = None /\ nolisten (s_state s))))
  | None => forall a i s, In i (bound_set c a) -> get_sock c i = Some s -> s_bname s <> Some n
  end.
Proof.
  intros W n. unfold name_addr. destruct (lookup (c_snl c) n) as [a|] eqn:L.
  - destruct (wf_snl_val _ W n a L) as [?|(V & A2 & F & K)]; auto. right.
    assert (R : 2 <= a < 64). { destruct K as [K|[_ K]]; [destruct (wks_cases _ _ K); lia | lia]. }
    split; auto. split; [apply notfree_abs; auto|].
    intros i Li. destruct (wf_listed_addr _ W a i Li) as (s & G & A). exists s. split; auto. split; auto.
    eapply (wf_snl_bname _ W); eauto.
  - intros a i s Li G B. rewrite (wf_bname_snl _ W a i s n Li G B) in L. discriminate.
Qed.

Lemma sock_enqueue_events c i s p c' evs : sock_enqueue c i s p = (c', Ok evs) ->
  forall j q, In (EvEnq j q) evs -> j = i /\ q = p.
Proof.
  assert (FC : forall x c1 e1, finish_connect c i x = (c1, e1) -> forall j q, ~ In (EvEnq j q) e1).
  { intros x c1 e1. unfold finish_connect. destruct (s_recvq x) as [|h t]; [intro H; inversion H; auto|].
    destruct h; intro H; inversion H; cbn; intuition discriminate. }
  assert (FX : forall x c1 e1, finish_close c i x = (c1, e1) -> forall j q, ~ In (EvEnq j q) e1).
  { intros x c1 e1. unfold finish_close. destruct (s_recvq x) as [|h t]; intro H; inversion H; cbn; intuition discriminate. }
  destruct (s_type s) eqn:Ty; [| |unfold sock_enqueue; rewrite Ty].
  1, 2: destruct (sock_enqueue_dgram c i s p) as [-> | [-> _]]; [congruence | |]; intro H; inversion H; cbn; intuition congruence.
  - destruct (negb (is_dlc_pdu p)).
    + destruct (negb (c_enq_blocks c) && sstate_eqb (s_state s) StEstablished); [intro H; inversion H; cbn; tauto|].
      destruct (sock_close s); [|discriminate]. destruct (s_pend s); intro H; inversion H; cbn; intuition discriminate.
    + destruct (s_state s); try (intro H; inversion H; cbn; tauto).
      all: destruct p; try (intro H; inversion H; cbn; tauto).
      all: cbn [is_connect]; cbn zeta; try (destruct (len (s_recvq s) <? s_rbuf s)); try (intro H; inversion H; cbn; intuition congruence).
      all: destruct (s_pend s); try (intro H; inversion H; cbn; intuition congruence).
      all: try match goal with |- context [finish_connect ?c ?i ?x] =>
             pose proof (FC x) as F; destruct (finish_connect c i x) as [c1 e1] end.
      all: try match goal with |- context [finish_close ?c ?i ?x] =>
             pose proof (FX x) as F; destruct (finish_close c i x) as [c1 e1] end.
      all: intro H; inversion H; subst; intros j q [E|E]; [inversion E; auto | exfalso; eapply F; eauto].
Qed.

(* service discovery answers with the address the name is bound to now, or 0 *)
Theorem sdreq_answer c : wf c -> forall rq rs c' r, dispatch c (PSnl rq rs) = (c', r) ->
  sd_sdres c' = sd_sdres c ++ map (fun x => (fst x, match name_addr c (snd x) with Some a => a | None => 0 end)) rq /\
  c_sap c' = c_sap c /\ c_snl c' = c_snl c /\ c_socks c' = c_socks c.
Proof.
  intros W rq rs c' r. unfold dispatch. cbn [pdu_dsap]. rewrite (wf_sap1 _ W). unfold sd_enqueue.
  destruct (sd_take_res _ _ _ _) as [cache tids]. destruct (wake _ _) as [evs w]. intro H; inversion H; subst. cbn. auto.
Qed.

(* CONNECT by service name: reaches the listening socket bound under that name, or absence is reported by DM *)
Theorem connect_by_name c ssap n c' r : wf c -> dispatch c (PConnect 1 ssap (Some n)) = (c', r) ->
  match name_addr c n with
  | None => (* nothing in the table is bound under n *)
      r = Ok [] /\ c_socks c' = c_socks c /\ c_sap c' = c_sap c /\ sd_dmpdu c' = sd_dmpdu c ++ [PDM ssap 1 2]
  | Some a =>
      a = 1 \/
      (2 <= a /\
       ((exists i s, In i (bound_set c a) /\ get_sock c i = Some s /\ s_state s = StListen /\ s_bname s = Some n /\
                     sock_enqueue c i s (PConnect a ssap None) = (c', r) /\
                     (forall j, j <> i -> get_sock c' j = get_sock c j) /\
                     (forall evs j q, r = Ok evs -> In (EvEnq j q) evs -> j = i)) \/
        ((forall i s, In i (bound_set c a) -> get_sock c i = Some s -> s_state s <> StListen) /\
         r = Ok [] /\ c_socks c' = c_socks c /\
         exists l sl, sap_get c a = Sap l sl /\ sap_get c' a = Sap l (sl ++ [PDM ssap a 2]))))
  end.
Proof.
  intros W D. unfold dispatch in D. unfold name_addr. destruct (lookup (c_snl c) n) as [a|] eqn:L.
  - destruct (wf_snl_val _ W n a L) as [[_ ->]|(V & A2 & F & K)]; [left; auto|]. right. split; auto.
    replace (negb (a =? 0) && negb (is_free c a)) with true in D by (rewrite F; lia).
    cbn [pdu_dsap] in D. unfold is_free in F. destruct (sap_get c a) as [| |l sl] eqn:SG; try discriminate.
    { exfalso. eapply (wf_nosd _ W a); eauto. lia. }
    unfold sap_enqueue in D. cbn [is_connect pdu_ssap pdu_dsap] in D.
    destruct (pick_sock c l (fun s => sstate_eqb (s_state s) StListen)) as [[i s]|] eqn:P.
    + left. destruct (pick_sock_some _ _ _ _ _ P) as (Li & G & St). exists i, s.
      assert (Lb : In i (bound_set c a)) by (unfold bound_set; rewrite SG; auto).
      assert (St' : s_state s = StListen) by (destruct (s_state s); auto; discriminate).
      split; auto. split; auto. split; auto. split.
      { destruct (wf_snl_bname _ W a i s n A2 L Lb G) as [B|[_ NL]]; auto. exfalso. unfold nolisten in NL. rewrite St' in NL.
        intuition discriminate. }
      split; auto. split.
      * intros j Nj. replace c' with (fst (sock_enqueue c i s (PConnect a ssap None))) by (rewrite D; auto).
        apply (sock_enqueue_good c i s _ W G); auto. destruct (wf_listed_addr _ W a i Lb) as (s0 & G0 & A0). cbn. congruence.
      * intros evs j q -> Hin. eapply sock_enqueue_events; eauto.
    + inversion D; subst. right. split.
      * intros i s Li G St. unfold bound_set in Li. rewrite SG in Li.
        pose proof (pick_sock_none _ _ _ P i s Li G) as F'. cbn in F'. rewrite St in F'. discriminate.
      * split; auto. split; [apply sap_set_socks|]. exists l, sl. split; auto.
        apply sap_get_set_same; [apply W | eapply sap_get_range; eauto; discriminate].
  - cbn in D. inversion D; subst. cbn. auto.
Qed.

(* what enqueueing a CONNECT to a listening connection socket does: queued (recv queue grows by exactly it) or refused by DM *)
Lemma enqueue_connect_listen c i s a ssap c' r : s_type s = TDlc -> s_state s = StListen -> get_sock c i = Some s ->
  sock_enqueue c i s (PConnect a ssap None) = (c', r) ->
  (r = Ok [EvEnq i (PConnect a ssap None)] /\ get_sock c' i = Some (set_recvq s (s_recvq s ++ [PConnect a ssap None]))) \/
  (r = Ok [] /\ get_sock c' i = Some (set_sendq s (s_sendq s ++ [PDM ssap a 32]))).
Proof.
  intros T St G. unfold sock_enqueue. rewrite T, St. cbn [negb is_dlc_pdu is_connect pdu_ssap pdu_dsap].
  destruct (len (s_recvq s) <? s_rbuf s); intro H; inversion H; subst; [left | right]; split; auto; eapply get_put_same; eauto.
Qed.

(* sending side: sendto() queues exactly one UI PDU carrying the message, the destination and the
   socket's own address as source, behind everything queued before *)
Theorem datagram_sendto c : wf c -> forall i s msg d c', get_sock c i = Some s -> s_type s = TLdl ->
  do_sendto c i msg d = (c', Ok (OBool true)) ->
  exists s' a, get_sock c' i = Some s' /\ s_addr s' = Some a /\ (s_addr s = None \/ s_addr s = Some a) /\
               s_sendq s' = s_sendq s ++ [PUI d a msg] /\ s_recvq s' = s_recvq s /\
               (s_peer s = None \/ s_peer s = Some 0 \/ s_peer s = Some d) /\ len msg <= link_miu.
Proof.
  intros W i s msg d c' G T. unfold do_sendto. rewrite G, T. destruct (s_pend s); try discriminate.
  destruct (autobind c i s) as [c1 [s1|]] eqn:AB; [|discriminate].
  destruct (autobind_good _ _ _ _ _ W G AB) as (_ & G1 & (ST & SS & SP & SR & SQ & SSQ & _) & (a & A1) & K).
  rewrite unless_shutdown. destruct (sstate_eqb (s_state s1) StShutdown); [discriminate|]. cbv zeta.
  destruct (match s_peer s1 with Some p => negb (p =? 0) && negb (d =? p) | None => false end) eqn:PB; [discriminate|].
  destruct (link_miu <? len msg) eqn:M; [discriminate|]. intro H. inversion H; subst.
  exists (set_sendq s1 (s_sendq s1 ++ [PUI d match s_addr s1 with Some a0 => a0 | None => 0 end msg])), a.
  split; [eapply get_put_same; eauto|]. split; [exact A1|].
  split. { (* the address is the old one, or the one autobind gave *)
    destruct (s_addr s) eqn:A0; [right; destruct K as [-> _]; [congruence | congruence] | left; auto]. }
  split; [cbn; rewrite A1, SSQ; reflexivity|]. split; [cbn; auto|].
  split; [|lia].
  (* PB: a socket with a peer sends to that peer only *)
  rewrite SP in PB. destruct (s_peer s) as [p|]; auto. right.
  destruct (p =? 0) eqn:E0; [left; f_equal; lia | right; f_equal; cbn in PB; lia].
Qed.

(* the link: collect takes the head of a send queue, unchanged; the peer dispatches exactly that PDU
   (xfer_same_pdu).  The statement is about the PDU taken: a FRMR dequeue clears the rest of the queue; for
   datagram sockets the rest is exactly the old tail *)
Theorem collect_head c : wf c -> forall a miu p c', collect1 c a miu = Some (p, c') ->
  (exists i s s', In i (bound_set c a) /\ get_sock c i = Some s /\ s_addr s = Some a /\ get_sock c' i = Some s' /\
                  (exists rest, s_sendq s = p :: rest /\ (s_sendq s' = rest \/ s_sendq s' = [])) /\
                  forall k, k <> i -> get_sock c' k = get_sock c k) \/
  (exists l sl, sap_get c a = Sap l (p :: sl) /\ sap_get c' a = Sap l sl /\ c_socks c' = c_socks c) \/
  (a = 1 /\ c_socks c' = c_socks c).
Proof.
  intros W a miu p c' C. destruct (collect_cases _ _ _ _ _ C) as [(i & s & s' & L & G & D & ->)|[(l & t & SG & ->)|[SG D]]].
  - left. destruct (wf_listed_addr _ W a i L) as (s0 & G0 & A0). rewrite G in G0. inversion G0; subst s0.
    exists i, s, s'. split; [exact L|]. split; auto. split; auto. split; [eapply get_put_same; eauto|].
    split; [destruct (sock_dequeue_cases _ _ _ _ D) as (rest & Q & R & _); eauto | intros; apply get_put_other; auto].
  - right. left. exists l, t. split; auto.
    split; [apply sap_get_set_same; [apply W | eapply sap_get_range; eauto; discriminate] | apply sap_set_socks].
  - right. right. split; [|eapply sd_dequeue_good; eauto].
    destruct (Z.eq_dec a 1); auto. exfalso. eapply (wf_nosd _ W a); eauto.
Qed.

Theorem xfer_same_pdu st from a miu st' p evs : step st (XXfer from a miu) = (st', Ok (OXfer (Some p) evs)) ->
  exists c1, collect1 (get_side st from) a miu = Some (p, c1) /\
             dispatch (get_side (set_side st from c1) (other from)) p = (get_side st' (other from), Ok evs).
Proof.
  cbn [step]. destruct (collect1 (get_side st from) a miu) as [[p1 c1]|] eqn:C; [|intro H; inversion H].
  destruct (dispatch (get_side (set_side st from c1) (other from)) p1) as [c2 r] eqn:D.
  intro H. inversion H; subst. destruct r; inversion H2; subst. exists c1. split; auto. rewrite D.
  rewrite get_set_side_same. reflexivity.
Qed.

(* recvfrom() on a datagram socket returns the head of its queue: payload and source of the oldest datagram *)
Theorem datagram_recvfrom c i s c' data ssap : get_sock c i = Some s -> s_type s = TLdl ->
  do_recvfrom c i = (c', Ok (ODgram data ssap)) ->
  exists d q, s_recvq s = PUI d ssap data :: q /\ get_sock c' i = Some (set_recvq s q).
Proof.
  intros G T. unfold do_recvfrom. rewrite G, T. destruct (s_pend s); try discriminate.
  destruct (negb _); [discriminate|]. destruct (s_state s); try discriminate;
  (destruct (s_recvq s) as [|p q]; [discriminate|]; destruct p; try discriminate; intro H; inversion H; subst;
   exists d, q; split; auto; eapply get_put_same; eauto).
Qed.
