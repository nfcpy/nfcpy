(* len_encode: the length reported by __len__ is the length of the encoding, for every PDU that encodes. *)
From Coq Require Import ZArith List Bool Lia ZifyBool.
From NV Require Import Base.Result Base.Bytes Model.Pdu Proofs.PduBase.
Import ListNotations.
Open Scope Z_scope.

Section PduInd.
Variable P : pdu -> Prop.
Hypothesis Hagf : forall d s ps, Forall P ps -> P (Agf d s ps).
Hypothesis Hother : forall p, is_agf p = false -> P p.
Fixpoint pdu_ind' (p : pdu) : P p :=
  match p with
  | Agf d s ps => Hagf d s ps ((fix go (l : list pdu) : Forall P l :=
                                 match l with [] => Forall_nil P | q :: r => Forall_cons q (pdu_ind' q) (go r) end) ps)
  | q => Hother q eq_refl
  end.
End PduInd.

Lemma ebind_ok {A B} (r : eres A) (f : A -> eres B) b : ebind r f = EOk b -> exists a, r = EOk a /\ f a = EOk b.
Proof. destruct r as [a| |]; [exists a; split; [reflexivity | assumption] | discriminate..]. Qed.
Lemma guard_ok {A} (c : bool) (r : eres A) b : (if c then EEncodeError else r) = EOk b -> r = EOk b.
Proof. destruct c; [discriminate | trivial]. Qed.

Lemma encode_header_len pt d s h : encode_header pt d s = EOk h -> len h = 2.
Proof. unfold encode_header. intro H. do 2 apply guard_ok in H. destruct (in_range _ _ _); [injection H as <-; reflexivity | discriminate]. Qed.
Lemma encode_nheader_len pt d s ns nr h : encode_nheader pt d s ns nr = EOk h -> len h = 3.
Proof. unfold encode_nheader. intro H. apply ebind_ok in H as (h0 & Hh%encode_header_len & H). do 2 apply guard_ok in H.
  injection H as <-. rewrite len_app, Hh. reflexivity. Qed.
Lemma packB_len v b : packB v = EOk b -> len b = 1.
Proof. unfold packB. destruct (in_range _ _ _); [intros [= <-]; reflexivity | discriminate]. Qed.
Lemma packH_len v b : packH v = EOk b -> len b = 2.
Proof. unfold packH. destruct (in_range _ _ _); [intros [= <-]; reflexivity | discriminate]. Qed.
Lemma rawB_len v b : rawB v = EOk b -> len b = 1.
Proof. unfold rawB. destruct (in_range _ _ _); [intros [= <-]; reflexivity | discriminate]. Qed.

Definition tlv_len (t : tlv) : Z :=
  match t with
  | TVersion _ | TLto _ | TRw _ | TOpt _ => 3
  | TMiux _ | TWks _ | TSdres _ _ => 4
  | TSn b | TEcpk b | TRn b | TOther _ b => 2 + len b
  | TSdreq _ sn => 3 + len sn
  end.
Lemma param_encode_len t b : param_encode t = EOk b -> len b = tlv_len t.
Proof.
  destruct t; cbn [param_encode tlv_len]; intro H.
  1, 4, 5, 7: apply ebind_ok in H as (x & Hx%packB_len & [= <-]); rewrite len2, Hx; reflexivity.
  1, 2: apply ebind_ok in H as (x & Hx%packH_len & [= <-]); rewrite len2, Hx; reflexivity.
  1, 4, 5: apply guard_ok in H; injection H as <-; apply len2.
  - apply guard_ok in H. apply ebind_ok in H as (x & Hx%packB_len & [= <-]). rewrite len2, len_app, Hx. lia.
  - apply ebind_ok in H as (x & Hx%packB_len & H). apply ebind_ok in H as (y & Hy%packB_len & [= <-]).
    rewrite len2, len_app, Hx, Hy. reflexivity.
  - discriminate H.
Qed.

Lemma opt_tlv_len o mk b : opt_tlv o mk = EOk b -> len b = match o with Some v => tlv_len (mk v) | None => 0 end.
Proof. destruct o; [apply param_encode_len | intros [= <-]; reflexivity]. Qed.
Lemma optb_tlv_len o mk b : optb_tlv o mk = EOk b -> len b = match o with Some (x :: v) => tlv_len (mk (x :: v)) | _ => 0 end.
Proof. destruct o as [[|x v]|]; [intros [= <-]; reflexivity | apply param_encode_len | intros [= <-]; reflexivity]. Qed.

Lemma zsum_cons x l : zsum (x :: l) = x + zsum l. Proof. reflexivity. Qed.
Lemma len_concat (l : list (list Z)) : len (concat l) = zsum (map len l).
Proof. induction l as [|x l IH]; [reflexivity|]. cbn [concat map]. rewrite len_app, zsum_cons, IH. reflexivity. Qed.

Lemma emapM_cons {A B} (f : A -> eres B) x r : emapM f (x :: r) = edo y <- f x; edo ys <- emapM f r; EOk (y :: ys).
Proof. reflexivity. Qed.
Lemma emapM_sum {A B} (f : A -> eres B) (g : A -> Z) (h : B -> Z) l :
  Forall (fun x => forall b, f x = EOk b -> g x = h b) l ->
  forall bs, emapM f l = EOk bs -> zsum (map g l) = zsum (map h bs).
Proof.
  induction 1 as [|x r Hx _ IH]; intros bs H.
  - injection H as <-. reflexivity.
  - rewrite emapM_cons in H. apply ebind_ok in H as (y & Hy & H). apply ebind_ok in H as (ys & Hys & H).
    injection H as <-. cbn [map]. rewrite !zsum_cons, (Hx _ Hy), (IH _ Hys). reflexivity.
Qed.
Lemma emapM_length {A B} (f : A -> eres B) l : forall bs, emapM f l = EOk bs -> length bs = length l.
Proof. induction l as [|x r IH]; intros bs H; [inversion H; reflexivity|].
  rewrite emapM_cons in H. apply ebind_ok in H as (y & _ & H). apply ebind_ok in H as (ys & Hys & [= <-]).
  cbn. f_equal. apply IH, Hys. Qed.

Lemma agf_body_len encs : forall b, agf_body encs = EOk b -> len b = zsum (map (fun e => 2 + len e) encs).
Proof.
  induction encs as [|e r IH]; intros b H; [inversion H; reflexivity|].
  cbn [agf_body] in H. destruct (in_range _ _ _); [|discriminate]. apply ebind_ok in H as (t & Ht & [= <-]).
  cbn [map]. rewrite zsum_cons, len2, len_app, (IH _ Ht). lia.
Qed.

Lemma zsum_const4 {A} (l : list A) : zsum (map (fun _ => 4) l) = len l * 4.
Proof. induction l as [|x l IH]; [reflexivity|]. cbn [map]. rewrite zsum_cons, IH, len_cons. lia. Qed.

(* the optional MIUX / RW parameter of CONNECT and CC *)
Lemma if_tlv_len (c : bool) t b : (if c then param_encode t else EOk []) = EOk b -> len b = if c then tlv_len t else 0.
Proof. destruct c; [apply param_encode_len | intros [= <-]; reflexivity]. Qed.

Lemma econcat_len {A} (f : A -> eres (list Z)) (g : A -> Z) l b :
  (forall x e, f x = EOk e -> len e = g x) -> econcat (emapM f l) = EOk b -> len b = zsum (map g l).
Proof.
  intros Hf H. apply ebind_ok in H as (bs & Hbs & [= <-]). rewrite len_concat. symmetry. revert bs Hbs. apply emapM_sum.
  apply Forall_forall. intros x _ e He. symmetry. exact (Hf x e He).
Qed.

Theorem len_encode : forall p b, encode p = EOk b -> pdu_len p = len b.
Proof.
  induction p as [d s ps IH | p Hp] using pdu_ind'; intros b H.
  - (* AGF: the members by the induction hypothesis *)
    cbn [encode] in H. apply guard_ok in H.
    apply ebind_ok in H as (h & Hh%encode_header_len & H).
    apply ebind_ok in H as (encs & Hencs & H).
    apply ebind_ok in H as (body & Hbody%agf_body_len & [= <-]).
    cbn [pdu_len]. rewrite len_app, Hh, Hbody. f_equal. clear Hbody. revert encs Hencs. apply emapM_sum.
    apply (Forall_impl _ (P := fun q => forall b, encode q = EOk b -> pdu_len q = len b)); [|exact IH].
    intros q Hq e He. rewrite (Hq e He). reflexivity.
  - destruct p; try discriminate Hp; cbn [encode pdu_len] in H |- *.
    + (* SYMM *) apply guard_ok in H. symmetry. exact (encode_header_len _ _ _ _ H).
    + (* PAX *) apply guard_ok in H.
      apply ebind_ok in H as (h & Hh%encode_header_len & H).
      apply ebind_ok in H as (a & Ha%opt_tlv_len & H).
      apply ebind_ok in H as (b1 & Hb%opt_tlv_len & H).
      apply ebind_ok in H as (c & Hc%opt_tlv_len & H).
      apply ebind_ok in H as (e & He%opt_tlv_len & H).
      apply ebind_ok in H as (f & Hf%opt_tlv_len & [= <-]).
      cbn [tlv_len] in *. unfold some1. rewrite !len_app. lia.
    + (* UI *) apply ebind_ok in H as (h & Hh%encode_header_len & [= <-]). rewrite len_app. lia.
    + (* CONNECT *)
      apply ebind_ok in H as (h & Hh%encode_header_len & H).
      apply ebind_ok in H as (a & Ha%if_tlv_len & H).
      apply ebind_ok in H as (b1 & Hb%if_tlv_len & H).
      apply ebind_ok in H as (c & Hc%optb_tlv_len & [= <-]).
      cbn [tlv_len] in Ha, Hb, Hc. unfold optb_len. rewrite !len_app. lia.
    + (* DISC *) symmetry. exact (encode_header_len _ _ _ _ H).
    + (* CC *)
      apply ebind_ok in H as (h & Hh%encode_header_len & H).
      apply ebind_ok in H as (a & Ha%if_tlv_len & H).
      apply ebind_ok in H as (b1 & Hb%if_tlv_len & [= <-]).
      cbn [tlv_len] in Ha, Hb. rewrite !len_app. lia.
    + (* DM *)
      apply ebind_ok in H as (h & Hh%encode_header_len & H).
      apply ebind_ok in H as (r & Hr%rawB_len & [= <-]). rewrite len_app. lia.
    + (* FRMR *)
      apply ebind_ok in H as (h & Hh%encode_header_len & H).
      apply ebind_ok in H as (b0 & H0%rawB_len & H). apply ebind_ok in H as (b1 & H1%rawB_len & H).
      apply ebind_ok in H as (b2 & H2%rawB_len & H). apply ebind_ok in H as (b3 & H3%rawB_len & [= <-]).
      rewrite !len_app. lia.
    + (* SNL *)
      apply ebind_ok in H as (h & Hh%encode_header_len & H).
      apply ebind_ok in H as (a & Ha%(econcat_len _ (fun x => 3 + len (snd x)) _ _ (fun x => param_encode_len (TSdreq _ _))) & H).
      apply ebind_ok in H as (b1 & Hb%(econcat_len _ (fun _ => 4) _ _ (fun x => param_encode_len (TSdres _ _))) & [= <-]).
      rewrite zsum_const4 in Hb. rewrite !len_app. lia.
    + (* DPS *) apply guard_ok in H.
      apply ebind_ok in H as (h & Hh%encode_header_len & H).
      apply ebind_ok in H as (a & Ha%optb_tlv_len & H).
      apply ebind_ok in H as (b1 & Hb%optb_tlv_len & [= <-]).
      cbn [tlv_len] in Ha, Hb. unfold optb_len. rewrite !len_app. lia.
    + (* I *) apply ebind_ok in H as (h & Hh%encode_nheader_len & [= <-]). rewrite len_app. lia.
    + (* RR *) symmetry. exact (encode_nheader_len _ _ _ _ _ _ H).
    + (* RNR *) symmetry. exact (encode_nheader_len _ _ _ _ _ _ H).
    + (* unknown *) apply ebind_ok in H as (h & Hh%encode_header_len & [= <-]). rewrite len_app. lia.
Qed.
