(* C18 - connect(): trace measures, specifications of the primitives and of the three
   _xxx_connect blocks, structure of the main loop.  For ALL options and ALL oracle states. *)
From Coq Require Import ZArith List Bool Arith Lia.
From NV Require Import Model.Connect Proofs.ConnectSense.
Import ListNotations.

(* every run of m from s ends with a result, a trace and a state that satisfy P *)
Definition post (A : Type) : Type := A -> list ev -> st -> Prop.
Definition runs {A} (m : M A) (s : st) (P : post A) : Prop :=
  forall a l s', m s = (a, l, s') -> P a l s'.
(* P of a trace that continues pre: the rules below walk along a computation and collect its trace in pre *)
Definition after {A} (pre : list ev) (P : post A) : post A := fun a l => P a (pre ++ l).

Lemma runs_ret {A} (a : A) s pre (P : post A) : P a pre s -> runs (ret a) s (after pre P).
Proof. intros H a' l s' E. inversion E; subst. unfold after. rewrite app_nil_r. exact H. Qed.
Lemma runs_bind {A B} (m : M A) (f : A -> M B) s pre Q (P : post B) :
  runs m s Q -> (forall a l s1, Q a l s1 -> runs (f a) s1 (after (pre ++ l) P)) -> runs (bind m f) s (after pre P).
Proof.
  intros Hm Hf b l s2 E. unfold bind in E. destruct (m s) as [[a l1] s1] eqn:E1. destruct (f a s1) as [[b' l2] s2'] eqn:E2.
  inversion E; subst. unfold after. rewrite app_assoc. exact (Hf a l1 s1 (Hm _ _ _ E1) _ _ _ E2).
Qed.
Lemma runs_start {A} (m : M A) s (P : post A) : runs m s (after [] P) -> runs m s P.
Proof. exact (fun H => H). Qed.
Lemma runs_tail {A} (m : M A) s pre Q (P : post A) : runs m s Q -> (forall a l s', Q a l s' -> P a (pre ++ l) s') -> runs m s (after pre P).
Proof. intros Hm H a l s' E. exact (H _ _ _ (Hm _ _ _ E)). Qed.
Lemma runs_emit {B} e (k : M B) s pre (P : post B) : runs k s (after (pre ++ [e]) P) -> runs (emit e ;;; k) s (after pre P).
Proof.
  intro H. apply (runs_bind _ _ _ _ (fun _ l s' => l = [e] /\ s' = s)).
  - intros a l s' E. inversion E. auto.
  - intros _ l s1 [-> ->]. exact H.
Qed.

(* the terminate() answers still to come: never more than before, same default *)
Definition st_le (s' s : st) : Prop := length (s_term s') <= length (s_term s) /\ s_termd s' = s_termd s.
(* m logs nothing and asks terminate() nothing *)
Definition silent {A} (m : M A) : Prop := forall s, runs m s (fun _ l s' => l = [] /\ st_le s' s).

Lemma runs_silent {A B} (m : M A) (f : A -> M B) s pre (P : post B) :
  silent m -> (forall a s1, st_le s1 s -> runs (f a) s1 (after pre P)) -> runs (bind m f) s (after pre P).
Proof. intros Hm Hf. apply (runs_bind _ _ _ _ _ _ (Hm s)). intros a l s1 [-> L]. rewrite app_nil_r. exact (Hf a s1 L). Qed.

Lemma pop_silent {X} (g : st -> list X) d (u : st -> list X -> st) :
  (forall s r, st_le (u s r) s) -> silent (fun s => let '(v, r) := hd_tl (g s) d in (v, [], u s r)).
Proof. intros H s a l s' E. destruct (hd_tl (g s) d) as [v r]. inversion E; subst. split; [reflexivity | apply H]. Qed.
Lemma ret_silent {A} (a : A) : silent (ret a).
Proof. intros s a' l s' E. inversion E; subst. split; [reflexivity | split; reflexivity]. Qed.
Lemma cb_value_silent user d : silent (cb_value user d).
Proof.
  intros s a l s' E. unfold cb_value in E. destruct user; [destruct (hd_tl (s_cbs s) VTrue)|]; inversion E; subst; (split; [reflexivity | split; reflexivity]).
Qed.

(* walks over emits, silent primitives and case distinctions up to the next step that needs a lemma of its own *)
Ltac run :=
  cbn [app out_tail];
  lazymatch goal with
  | |- runs (ret _) _ _ => apply runs_ret
  | |- runs (emit _ ;;; _) _ _ => apply runs_emit; run
  | |- runs (bind _ _) _ _ =>
    try (apply runs_silent; [first [apply cb_value_silent | apply ret_silent | apply pop_silent; split; reflexivity] | intros ? ? ?; run])
  | |- runs (if negb ?c then _ else _) _ _ => destruct c eqn:?; cbn [negb]; run
  | |- runs (if ?c then _ else _) _ _ => destruct c eqn:?; run
  | |- runs (match ?x with _ => _ end) _ _ => destruct x; run
  | _ => idtac
  end.

Inductive cev := CStartup (b : blk) | CDiscover (b : blk) (v : cbval) | CConnect (b : blk) (v : cbval) | CRelease (b : blk) (v : cbval).
Definition cb_of (e : ev) : option cev :=
  match e with
  | EvStartup b _ => Some (CStartup b) | EvDiscover b _ v => Some (CDiscover b v)
  | EvConnect b _ v => Some (CConnect b v) | EvRelease b _ v => Some (CRelease b v)
  | _ => None
  end.
(* the callback invocations of a trace, in order (default callbacks included) *)
Fixpoint cbs (l : list ev) : list cev :=
  match l with [] => [] | e :: r => match cb_of e with Some c => c :: cbs r | None => cbs r end end.
Lemma cbs_app l1 l2 : cbs (l1 ++ l2) = cbs l1 ++ cbs l2.
Proof. induction l1 as [|e l1 IH]; cbn; [reflexivity|]. destruct (cb_of e); cbn; rewrite IH; reflexivity. Qed.

(* the documented reading of the result: the first event that decides it *)
Definition decisive (e : ev) : option (out rv) :=
  match e with
  | EvRaise x => Some (handle x)                                   (* terminated by an exception *)
  | EvConnect b _ v => if truthy v then None else Some (Ret (RObj b))   (* on-connect returned a false value *)
  | EvRelease _ _ _ => Some (Ret RTrue)                            (* activation and deactivation completed *)
  | _ => None
  end.
Fixpoint spec_scan (l : list ev) : option (out rv) :=
  match l with [] => None | e :: r => match decisive e with Some x => Some x | None => spec_scan r end end.
Lemma spec_scan_app l1 l2 : spec_scan (l1 ++ l2) = match spec_scan l1 with Some x => Some x | None => spec_scan l2 end.
Proof. induction l1 as [|e l1 IH]; cbn; [reflexivity|]. destruct (decisive e); auto. Qed.
Definition spec_result (l : list ev) : out rv := match spec_scan l with Some x => x | None => Ret RNone end.

(* a discovery / activation step is started *)
Definition starts (e : ev) : bool :=
  match e with EvMute | EvSense _ _ | EvListen _ | EvTagActivate _ | EvLlcActivate _ | EvEmulate _ => true | _ => false end.
Definition is_term_true (e : ev) : bool := match e with EvTerm true => true | _ => false end.
Fixpoint stops_b (seen : bool) (l : list ev) : bool :=
  match l with [] => true | e :: r => if seen && starts e then false else stops_b (seen || is_term_true e) r end.
Definition has_term_true (l : list ev) : bool := existsb is_term_true l.
Lemma stops_app : forall l1 seen l2, stops_b seen (l1 ++ l2) = stops_b seen l1 && stops_b (seen || has_term_true l1) l2.
Proof.
  induction l1 as [|e l1 IH]; intros seen l2; cbn.
  - rewrite orb_false_r. reflexivity.
  - destruct (seen && starts e); [reflexivity|]. rewrite IH. unfold has_term_true. rewrite orb_assoc. reflexivity.
Qed.
Lemma has_term_app l1 l2 : has_term_true (l1 ++ l2) = has_term_true l1 || has_term_true l2.
Proof. apply existsb_app. Qed.
Lemma stops_no_term : forall l, has_term_true l = false -> stops_b false l = true.
Proof.
  induction l as [|e l IH]; cbn; [reflexivity|]. intro H. apply orb_false_iff in H. destruct H as [H1 H2].
  rewrite H1. apply IH, H2.
Qed.

(* every on-connect that returned true is followed by its on-release before anything else; no other release *)
Definition blk_eqb (a b : blk) : bool :=
  match a, b with Rdwr, Rdwr | Llcp, Llcp | Card, Card => true | _, _ => false end.
Fixpoint held_after (h : option blk) (l : list cev) : option (option blk) :=
  match l with
  | [] => Some h
  | CStartup _ :: r | CDiscover _ _ :: r => match h with None => held_after None r | Some _ => None end
  | CConnect b v :: r => match h with None => held_after (if truthy v then Some b else None) r | Some _ => None end
  | CRelease b _ :: r => match h with Some b' => if blk_eqb b b' then held_after None r else None | None => None end
  end.
Lemma held_after_app : forall l1 h l2,
  held_after h (l1 ++ l2) = match held_after h l1 with Some h' => held_after h' l2 | None => None end.
Proof.
  induction l1 as [|c l1 IH]; intros h l2; cbn; [reflexivity|].
  destruct c; destruct h; try reflexivity; try apply IH.
  destruct (blk_eqb b b0); [apply IH | reflexivity].
Qed.

(* events that can only come from the segment of block b *)
Definition owned (b : blk) (e : ev) : bool :=
  match e with
  | EvStartup _ _ => false
  | EvDiscover b' _ _ | EvConnect b' _ _ | EvRelease b' _ _ => blk_eqb b b'
  | EvTerm _ | EvRaise _ => true
  | EvMute => match b with Llcp => false | _ => true end
  | EvSense _ _ | EvTagActivate _ | EvBeepOn | EvBeepOff | EvPresent => blk_eqb b Rdwr
  | EvLlcActivate _ | EvLlcRun => blk_eqb b Llcp
  | EvListen _ | EvEmulate _ | EvProcess | EvSendRsp => blk_eqb b Card
  | EvCmdTo _ | EvRspTo _ => false
  end.

(* callback pattern of one block segment; fin = the segment ends connect() *)
Definition seg_cbs (b : blk) (l : list cev) (fin : bool) : bool :=
  match l with
  | [] => true
  | [CDiscover b1 _] => blk_eqb b b1 && negb (blk_eqb b Llcp)
  | [CDiscover b1 v; CConnect b2 c] =>      (* c false: object returned; c true: exception in the hold phase *)
    fin && blk_eqb b b1 && blk_eqb b b2 && negb (blk_eqb b Llcp) && truthy v
  | [CDiscover b1 v; CConnect b2 c; CRelease b3 _] =>
    fin && blk_eqb b b1 && blk_eqb b b2 && blk_eqb b b3 && negb (blk_eqb b Llcp) && truthy v && truthy c
  | [CConnect b1 c] => fin && blk_eqb b b1 && blk_eqb b Llcp
  | [CConnect b1 c; CRelease b2 _] => fin && blk_eqb b b1 && blk_eqb b b2 && blk_eqb b Llcp && truthy c
  | _ => false
  end.

Definition neutral (e : ev) : bool :=
  match cb_of e, decisive e with None, None => true | _, _ => false end.
Definition quiet (e : ev) : bool := negb (starts e).
(* events of block b outside its callbacks: of the discovery (no terminate() poll), of the hold phase (starts nothing) *)
Definition disc_ev (b : blk) (e : ev) : bool := neutral e && owned b e && negb (is_term_true e).
Definition hold_ev (b : blk) (e : ev) : bool := neutral e && owned b e && quiet e.

Lemma forallb_impl {A} (P Q : A -> bool) l : (forall x, P x = true -> Q x = true) -> forallb P l = true -> forallb Q l = true.
Proof. intros H. induction l as [|x l IH]; cbn; [auto|]. intro E. apply andb_true_iff in E. destruct E as [E1 E2]. rewrite (H _ E1), (IH E2). reflexivity. Qed.

Lemma neutral_facts b (p : ev -> bool) l : forallb (fun e => neutral e && owned b e && p e) l = true ->
  forallb (owned b) l = true /\ cbs l = [] /\ spec_scan l = None /\ forallb p l = true.
Proof.
  induction l as [|e l IH]; cbn; [auto|]. unfold neutral. destruct (cb_of e); [discriminate|]. destruct (decisive e); [discriminate|].
  cbn. intro H. apply andb_true_iff in H. destruct H as [H1 H2]. apply andb_true_iff in H1. destruct H1 as [-> ->]. exact (IH H2).
Qed.
Lemma quiet_stops l : forallb quiet l = true -> forall seen, stops_b seen l = true.
Proof. induction l as [|e l IH]; cbn; [auto|]. intros E seen. apply andb_true_iff in E. destruct E as [E1 E2].
  unfold quiet in E1. apply negb_true_iff in E1. rewrite E1, andb_false_r. auto. Qed.
Lemma noterm_has l : forallb (fun e => negb (is_term_true e)) l = true -> has_term_true l = false.
Proof. induction l as [|e l IH]; cbn; [auto|]. intro E. apply andb_true_iff in E. destruct E as [E1 E2].
  apply negb_true_iff in E1. rewrite E1. auto. Qed.

Definition res_of (r : bres) : option (out rv) :=
  match r with BNone => None | BRet v => Some (Ret v) | BRaise e => Some (handle e) | BHang => Some Hang end.
Definition is_fin (r : bres) : bool := match r with BNone => false | _ => true end.

(* callbacks balanced, or an on-connect(true) left pending by an exception in the hold phase *)
Definition held_ok (r : bres) (x : option (option blk)) : bool :=
  match x with
  | Some None => true
  | Some (Some _) => match r with BRaise XIOError | BRaise XKbd => true | _ => false end
  | None => false
  end.

Record block_ok (b : blk) (r : bres) (l : list ev) : Prop := {
  bo_owned : forallb (owned b) l = true;
  bo_cbs : seg_cbs b (cbs l) (is_fin r) = true;
  bo_scan : spec_scan l = res_of r;
  bo_stops : stops_b false l = true;
  bo_noterm : r = BNone -> has_term_true l = false;
  bo_held : held_ok r (held_after None (cbs l)) = true }.
Definition block_spec (b : blk) (r : bres) (l : list ev) : Prop := r <> BHang -> block_ok b r l.

Lemma block_ok_nil b : block_ok b BNone [].
Proof. constructor; reflexivity. Qed.

Lemma disc_block b l : forallb (disc_ev b) l = true -> cbs l = [] /\ block_ok b BNone l.
Proof.
  intro H. destruct (neutral_facts _ _ _ H) as (Ho & Hc & Hs & Ht). apply noterm_has in Ht.
  split; [exact Hc|]. constructor; rewrite ?Hc; auto using stops_no_term.
Qed.

(* a segment that did not end connect() and called nothing back, followed by more of the same block *)
Lemma block_ok_app b r l1 l2 : cbs l1 = [] -> block_ok b BNone l1 -> block_ok b r l2 -> block_ok b r (l1 ++ l2).
Proof.
  intros Hc [o1 c1 sc1 st1 nt1 h1] [o2 c2 sc2 st2 nt2 h2]. specialize (nt1 eq_refl). cbn in sc1.
  constructor.
  - rewrite forallb_app, o1, o2. reflexivity.
  - rewrite cbs_app, Hc. exact c2.
  - rewrite spec_scan_app, sc1. exact sc2.
  - rewrite stops_app, st1, nt1. exact st2.
  - intro E. rewrite has_term_app, nt1, (nt2 E). reflexivity.
  - rewrite cbs_app, Hc. exact h2.
Qed.

(* the log of a hold loop can be cut out of a segment after which nothing is started *)
Lemma block_ok_hold b r l1 m l2 : forallb (hold_ev b) m = true -> forallb quiet l2 = true -> r <> BNone ->
  block_ok b r (l1 ++ l2) -> block_ok b r (l1 ++ m ++ l2).
Proof.
  intros Hm Hq Hr [o c sc st _ h]. destruct (neutral_facts _ _ _ Hm) as (mo & mc & ms & mq).
  rewrite forallb_app in o. rewrite cbs_app in c, h. rewrite spec_scan_app in sc. rewrite stops_app in st.
  apply andb_true_iff in o, st. destruct o as [o1 o2], st as [st1 _].
  constructor; rewrite ?forallb_app, ?cbs_app, ?spec_scan_app, ?stops_app, ?mo, ?mc, ?ms; auto.
  - rewrite o1, o2. reflexivity.
  - rewrite st1, !quiet_stops; auto.
  - intro E. contradiction.
Qed.

Definition term_log (has v : bool) : list ev := if has then [EvTerm v] else [].
Lemma poll_term_runs has s : runs (poll_term has) s (fun v l _ => l = term_log has v /\ (has = false -> v = false)).
Proof.
  intros v l s'. unfold poll_term, term_log. destruct has.
  - destruct (hd_tl (s_term s) (s_termd s)) as [x r]. intro H; inversion H; subst. split; [reflexivity | discriminate].
  - intro H; inversion H; subst. auto.
Qed.
Lemma runs_poll {B} has (f : bool -> M B) s pre (P : post B) :
  (forall v s1, (has = false -> v = false) -> runs (f v) s1 (after (pre ++ term_log has v) P)) ->
  runs (bind (poll_term has) f) s (after pre P).
Proof. intro H. apply (runs_bind _ _ _ _ _ _ (poll_term_runs has s)). intros v l s1 [-> Hv]. exact (H v s1 Hv). Qed.
Lemma term_log_hold b has v : forallb (hold_ev b) (term_log has v) = true.
Proof. destruct has, b; reflexivity. Qed.

(* the log of a discovery step of block b: driver calls, then the exception if one is raised *)
Definition disc_log {A} (b : blk) (r : out A) (l : list ev) (s s' : st) : Prop :=
  r <> Hang /\ st_le s' s /\ exists l0, forallb (disc_ev b) l0 = true /\ l = l0 ++ out_tail r.

Lemma do_sense_runs ts iters s : runs (do_sense ts iters) s (fun r l => disc_log Rdwr r l s).
Proof.
  intros r l s'. unfold do_sense. destruct (hd_tl (s_sense s) []) as [tb rest].
  destruct (sense true (s_ncall s) ts iters tb None) as [[res l1] st] eqn:E. intro H; inversion H; subst.
  destruct (sense_log _ _ _ _ _ _ _ _ _ E) as (Hh & l0 & H0 & ->). repeat split; auto.
  exists l0. split; [|reflexivity]. revert H0. apply forallb_impl. intros []; cbn; congruence.
Qed.

(* the driver calls of listen() on an open device *)
Definition listen_calls (t : lspec) : list ev :=
  match t with LsNotLocal => [] | _ => EvMute :: match listen_drv t with Some d => [EvListen d] | None => [] end end.
Lemma listen_log n t o :
  let '(r, l, _) := listen true n t o None in
  r <> Hang /\ exists l0, forallb (disc_ev Card) l0 = true /\ l = l0 ++ out_tail r.
Proof.
  enough (let '(r, l, _) := listen true n t o None in
          r <> Hang /\ forallb (disc_ev Card) (listen_calls t) = true /\ l = listen_calls t ++ out_tail r) as H.
  { destruct (listen true n t o None) as [[r l] x]. destruct H as (Hh & Hd & ->). eauto. }
  destruct t, o; (split; [discriminate | split; reflexivity]).
Qed.

Lemma do_listen_runs t s : runs (do_listen t) s (fun r l => disc_log Card r l s).
Proof.
  intros r l s'. unfold do_listen. destruct (listen_calls_driver t).
  - destruct (hd_tl (s_listen s) LNone) as [o rest]. pose proof (listen_log (S (s_nlisten s)) t o) as G.
    destruct (listen true _ t o None) as [[res l1] x]. intro H; inversion H; subst. destruct G. repeat split; auto.
  - pose proof (listen_log (S (s_nlisten s)) t LNone) as G.
    destruct (listen true _ t LNone None) as [[res l1] x]. intro H; inversion H; subst. destruct G. repeat split; auto.
Qed.

(* the log of a hold loop of block b; the loops are left only by IOError or KeyboardInterrupt *)
Definition hold_tail (h : hold) : list ev := match h with HoldRaise e => [EvRaise e] | _ => [] end.
Definition hold_exn (b : blk) (h : hold) : Prop :=
  match h with HoldRaise e => held_ok (BRaise e) (Some (Some b)) = true | _ => True end.
Definition hold_log (b : blk) (h : hold) (l : list ev) : Prop :=
  match h with
  | HoldRaise e => hold_exn b h /\ exists m, forallb (hold_ev b) m = true /\ l = m ++ [EvRaise e]
  | _ => forallb (hold_ev b) l = true
  end.

Lemma hold_log_app b h m l : forallb (hold_ev b) m = true -> hold_log b h l -> hold_log b h (m ++ l).
Proof.
  intro Hm. destruct h as [|e|]; cbn; try (intro H; rewrite forallb_app, Hm; exact H).
  intros (He & m' & Hm' & ->). split; [exact He|]. exists (m ++ m'). rewrite forallb_app, Hm, app_assoc. auto.
Qed.

Lemma presence_loop_runs has : forall fuel s, runs (presence_loop fuel has) s (fun h l _ => hold_log Rdwr h l).
Proof.
  induction fuel as [|f IH]; intro s; cbn [presence_loop]; apply runs_start.
  - run. reflexivity.
  - apply runs_poll. intros v s1 _.
    assert (Hp : forallb (hold_ev Rdwr) (term_log has false ++ [EvPresent]) = true) by (rewrite forallb_app, term_log_hold; reflexivity).
    run; try exact Hp; try (split; [reflexivity|]; eexists; split; [exact Hp | reflexivity]).
    + apply term_log_hold.
    + apply (runs_tail _ _ _ _ _ (IH _)). intros h l _. apply hold_log_app, Hp.
Qed.

Lemma card_loop_runs has : forall fuel s, runs (card_loop fuel has) s (fun h l _ => hold_log Card h l).
Proof.
  induction fuel as [|f IH]; intro s; cbn [card_loop]; apply runs_start.
  - run. reflexivity.
  - apply runs_poll. intros v s1 _.
    assert (Hp : forallb (hold_ev Card) (term_log has false ++ [EvSendRsp]) = true) by (rewrite forallb_app, term_log_hold; reflexivity).
    run; try exact Hp; try (split; [reflexivity|]; eexists; split; [exact Hp | reflexivity]).
    + apply term_log_hold.
    + apply (runs_tail _ _ _ _ _ (IH _)). intros h l _. apply hold_log_app. rewrite forallb_app, Hp. reflexivity.
    + apply (runs_tail _ _ _ _ _ (IH _)). intros h l _. apply hold_log_app, Hp.
Qed.

Lemma run_polls_runs has : forall n s, runs (run_polls n has) s (fun _ l _ => forallb (hold_ev Llcp) l = true).
Proof.
  induction n as [|n IH]; intro s; cbn [run_polls]; apply runs_start.
  - run. reflexivity.
  - apply runs_poll. intros v s1 _. run.
    + apply term_log_hold.
    + apply (runs_tail _ _ _ _ _ (IH _)). intros _ l _ H. rewrite forallb_app, term_log_hold. exact H.
Qed.

(* a block starts with a discovery step, whose log stands in front of the rest of the segment *)
Lemma runs_disc {A} b (m : M (out A)) (f : out A -> M bres) s :
  runs m s (fun x l => disc_log b x l s) ->
  (forall x s1, x <> Hang -> runs (f x) s1 (after (out_tail x) (fun r l _ => block_spec b r l))) ->
  runs (bind m f) s (fun r l _ => block_spec b r l).
Proof.
  intros Hm Hf. apply runs_start, (runs_bind _ _ _ _ _ _ Hm). intros x l s1 (Hx & _ & l0 & Hd & ->).
  apply (runs_tail _ _ _ _ _ (Hf x s1 Hx)). intros r l s' H Hnh. cbn [app]. rewrite <- app_assoc.
  destruct (disc_block _ _ Hd) as [Hc Hb]. exact (block_ok_app _ _ _ _ Hc Hb (H Hnh)).
Qed.

(* a log of the hold phase in the middle of a segment: what follows starts nothing, and is judged without it;
   g reads the result of the computation as the result of the block *)
Definition held_spec {B} (b : blk) (g : B -> bres) (pre : list ev) : post B :=
  fun x l _ => g x <> BNone /\ forallb quiet l = true /\ block_spec b (g x) (pre ++ l).

Lemma runs_mid {A B} b g (m : M A) (f : A -> M B) s pre :
  runs m s (fun _ l _ => forallb (hold_ev b) l = true) -> (forall a s1, runs (f a) s1 (after [] (held_spec b g pre))) ->
  runs (bind m f) s (after pre (fun x l _ => block_spec b (g x) l)).
Proof.
  intros Hm Hf. apply (runs_bind _ _ _ _ _ _ Hm). intros a lm s1 H. apply (runs_tail _ _ _ _ _ (Hf a s1)).
  intros r l s' (Hr & Hq & B0) Hnh. rewrite <- app_assoc. exact (block_ok_hold _ _ _ _ _ H Hq Hr (B0 Hnh)).
Qed.
Lemma runs_hold {B} b g (m : M hold) (f : hold -> M B) s pre :
  runs m s (fun h l _ => hold_log b h l) ->
  (forall h s1, hold_exn b h -> runs (f h) s1 (after (hold_tail h) (held_spec b g pre))) ->
  runs (bind m f) s (after pre (fun x l _ => block_spec b (g x) l)).
Proof.
  intros Hm Hf. apply (runs_bind _ _ _ _ _ _ Hm). intros h lh s1 H.
  assert (G : exists m, forallb (hold_ev b) m = true /\ lh = m ++ hold_tail h /\ hold_exn b h).
  { destruct h as [|e|]; cbn in H |- *; [exists lh; rewrite app_nil_r; repeat split; auto | | exists lh; rewrite app_nil_r; repeat split; auto].
    destruct H as (He & m0 & Hm0 & ->). exists m0. auto. }
  destruct G as (m0 & Hm0 & -> & H'). apply (runs_tail _ _ _ _ _ (Hf h s1 H')).
  intros r l s' (Hr & Hq & B0) Hnh. rewrite <- !app_assoc. exact (block_ok_hold _ _ _ _ _ Hm0 Hq Hr (B0 Hnh)).
Qed.

Lemma block_spec_hang b l : block_spec b BHang l.
Proof. intro H. contradiction H. reflexivity. Qed.

(* a segment of concrete events: evaluate the six fields, with what is known of the callback values *)
Ltac leaf :=
  cbv beta iota delta [after held_spec]; cbn [app out_tail hold_tail]; try (split; [discriminate | split; [reflexivity|]]);
  first [ apply block_spec_hang
        | intros _; constructor; cbn; repeat match goal with E : truthy _ = _ |- _ => rewrite E; clear E end; easy ].

Lemma rdwr_connect_ok fuel has rr s : runs (rdwr_connect fuel has rr) s (fun r l _ => block_spec Rdwr r l).
Proof.
  unfold rdwr_connect. apply (runs_disc Rdwr _ _ _ (do_sense_runs _ _ s)). intros x s1 Hx. run; try leaf.
  destruct (opt_default _ _); run; apply (runs_hold Rdwr _ _ _ _ _ (presence_loop_runs _ _ _)); intros h sh Hh; run; leaf.
Qed.

(* one pass of the role loop of _llcp_connect *)
Lemma llcp_role_ok has o m s :
  runs (llcp_role has o m) s (fun x l _ => block_spec Llcp (match x with Some b => b | None => BNone end) l).
Proof.
  unfold llcp_role. apply runs_start. run; try leaf.
  apply (runs_mid Llcp _ _ _ _ _ (run_polls_runs _ _ _)). intros stopped sp. run; leaf.
Qed.

Lemma seg_cbs_llcp_cont l : seg_cbs Llcp l false = true -> l = [].
Proof.
  destruct l as [|c1 [|c2 [|c3 [|c4 l]]]]; cbn; try reflexivity; try discriminate;
    destruct c1; try discriminate; try (destruct b; discriminate);
    try (destruct c2; try discriminate; try (destruct c3; discriminate)).
Qed.

Lemma llcp_connect_ok has o s : runs (llcp_connect has o) s (fun r l _ => block_spec Llcp r l).
Proof.
  unfold llcp_connect. apply runs_start, (runs_bind _ _ _ _ _ _ (llcp_role_ok has o MacTarget s)).
  intros [b|] l1 s1 H1; [run; exact H1|].
  apply (runs_bind _ _ _ _ _ _ (llcp_role_ok has o MacInitiator s1)). intros x2 l2 s2 H2.
  assert (G : block_spec Llcp (match x2 with Some b => b | None => BNone end) (([] ++ l1) ++ l2)).
  { intro Hnh. pose proof (H1 ltac:(discriminate)) as B1.
    exact (block_ok_app _ _ _ _ (seg_cbs_llcp_cont _ (bo_cbs _ _ _ B1)) B1 (H2 Hnh)). }
  destruct x2; run; exact G.
Qed.

Lemma card_connect_ok fuel has cr s : runs (card_connect fuel has cr) s (fun r l _ => block_spec Card r l).
Proof.
  unfold card_connect. apply (runs_disc Card _ _ _ (do_listen_runs _ s)). intros x s1 Hx. run; try leaf.
  apply (runs_hold Card _ _ _ _ _ (card_loop_runs _ _ _)); intros h sh Hh; run; leaf.
Qed.

Definition final (r : bres) : out rv := match res_of r with Some o => o | None => Hang end.

Lemma run_block_runs {X} (f : X -> M bres) o s (Q : post bres) :
  (forall x, runs (f x) s Q) -> Q BNone [] s -> runs (run_block (option_map f o)) s Q.
Proof. intros Hf H0. destruct o as [x|]; [apply Hf|]. exact (runs_ret BNone s [] Q H0). Qed.

(* result = self._xxx_connect(..); if bool(result) is True: return result   -- and the rest k of the round *)
Lemma runs_round (m : M bres) (k : M (out rv)) s pre Q (P : post (out rv)) :
  runs m s Q ->
  (forall r l s1, Q r l s1 -> is_fin r = true -> P (final r) (pre ++ l) s1) ->
  (forall l s1, Q BNone l s1 -> runs k s1 (after (pre ++ l) P)) ->
  runs (let* r := m in match r with BRet v => ret (Ret v) | BRaise e => ret (handle e) | BHang => ret Hang | BNone => k end)
       s (after pre P).
Proof.
  intros Hm Hfin Hk. apply (runs_bind _ _ _ _ _ _ Hm). intros r l s1 H.
  destruct r; [exact (Hk l s1 H) | | |]; apply runs_ret; exact (Hfin _ _ _ H eq_refl).
Qed.

Inductive mrounds (has : bool) : out rv -> list ev -> Prop :=
| MFuel : mrounds has Hang []
| MStop : mrounds has (Ret RNone) [EvTerm true]
| MRound : forall s1 s2 s3 r rest,
    block_ok Rdwr BNone s1 -> block_ok Llcp BNone s2 -> block_ok Card BNone s3 -> mrounds has r rest ->
    mrounds has r (term_log has false ++ s1 ++ s2 ++ s3 ++ rest)
| MFin1 : forall r1 s1, is_fin r1 = true -> block_spec Rdwr r1 s1 -> mrounds has (final r1) (term_log has false ++ s1)
| MFin2 : forall r2 s1 s2, is_fin r2 = true -> block_ok Rdwr BNone s1 -> block_spec Llcp r2 s2 ->
    mrounds has (final r2) (term_log has false ++ s1 ++ s2)
| MFin3 : forall r3 s1 s2 s3, is_fin r3 = true -> block_ok Rdwr BNone s1 -> block_ok Llcp BNone s2 -> block_spec Card r3 s3 ->
    mrounds has (final r3) (term_log has false ++ s1 ++ s2 ++ s3).

Lemma main_loop_mrounds inner has a : forall fuel s, runs (main_loop fuel inner has a) s (fun r l _ => mrounds has r l).
Proof.
  induction fuel as [|f IH]; intro s; cbn [main_loop]; apply runs_start; [run; constructor|].
  apply runs_poll. intros [|] s0 Ht; cbn [app].
  { run. destruct has; [constructor | discriminate (Ht eq_refl)]. }
  apply (runs_round _ _ _ _ (fun r l _ => block_spec Rdwr r l)).
  { apply run_block_runs; [intro; apply rdwr_connect_ok | exact (fun _ => block_ok_nil _)]. }
  { intros r1 l1 _ B1 F1. apply MFin1; auto. }
  intros l1 s1 B1. specialize (B1 ltac:(discriminate)).
  apply (runs_round _ _ _ _ (fun r l _ => block_spec Llcp r l)).
  { apply run_block_runs; [intro; apply llcp_connect_ok | exact (fun _ => block_ok_nil _)]. }
  { intros r2 l2 _ B2 F2. rewrite <- app_assoc. apply MFin2; auto. }
  intros l2 s2 B2. specialize (B2 ltac:(discriminate)).
  apply (runs_round _ _ _ _ (fun r l _ => block_spec Card r l)).
  { apply run_block_runs; [intro; apply card_connect_ok | exact (fun _ => block_ok_nil _)]. }
  { intros r3 l3 _ B3 F3. rewrite <- !app_assoc. apply MFin3; auto. }
  intros l3 s3 B3. specialize (B3 ltac:(discriminate)).
  apply (runs_tail _ _ _ _ _ (IH s3)). intros r l _ H. rewrite <- !app_assoc. apply MRound; auto.
Qed.

Definition opt_startup (b : blk) (l : list ev) : Prop := l = [] \/ exists u, l = [EvStartup b u].
Definition startup_shape (pre : list ev) : Prop :=
  exists x y z, pre = x ++ y ++ z /\ opt_startup Llcp x /\ opt_startup Rdwr y /\ opt_startup Card z.

(* the on-startup functions call back at most once and leave the oracle alone *)
Lemma startup_llcp_runs o s : runs (startup_llcp o) s (fun _ l s' => opt_startup Llcp l /\ s' = s).
Proof.
  unfold startup_llcp. apply runs_start. destruct o as [lo|]; [destruct (l_startup lo)|]; run;
    (split; [|reflexivity]); first [left; reflexivity | right; eexists; reflexivity].
Qed.
Lemma startup_card_runs o s : runs (startup_card o) s (fun _ l s' => opt_startup Card l /\ s' = s).
Proof.
  unfold startup_card. apply runs_start. destruct o as [co|]; [destruct (c_startup co) as [|[]|]|]; run;
    (split; [|reflexivity]); first [left; reflexivity | right; eexists; reflexivity].
Qed.
Lemma startup_rdwr_runs o s : runs (startup_rdwr o) s (fun x l s' =>
  x <> Hang /\ s' = s /\ exists y, opt_startup Rdwr y /\ l = y ++ out_tail x /\ (forall e, x = Raise e -> e = XTypeError)).
Proof.
  unfold startup_rdwr. apply runs_start. destruct o as [ro|]; [destruct (r_startup ro)|]; run;
    (split; [discriminate|]); (split; [reflexivity|]);
    first [ exists [] ; split; [left; reflexivity | split; [reflexivity | intros e E; inversion E; reflexivity]]
          | eexists [EvStartup Rdwr _]; split; [right; eexists; reflexivity | split; [reflexivity | intros e E; inversion E; reflexivity]] ].
Qed.

(* the trace of connect(): on-startup calls, then either an early end or the main loop *)
Lemma connect_struct o fuel inner s : runs (connect true o fuel inner) s (fun r l _ =>
  exists pre body, l = pre ++ body /\ startup_shape pre /\
    ((r = Raise XTypeError /\ body = [EvRaise XTypeError]) \/ (r = Ret RNone /\ body = []) \/ mrounds (o_term o) r body)).
Proof.
  unfold connect. cbn [negb]. apply runs_start.
  apply (runs_bind _ _ _ _ _ _ (startup_llcp_runs _ s)). intros x l1 s1 [H1 _].
  apply (runs_bind _ _ _ _ _ _ (startup_rdwr_runs _ s1)). intros y l2 s2 (Hh & _ & y0 & Hy & -> & He). cbn [app].
  destruct y as [rr|e|]; [| |congruence]; cbn [out_tail].
  - rewrite app_nil_r. apply (runs_bind _ _ _ _ _ _ (startup_card_runs _ s2)). intros c l3 s3 [H3 _].
    assert (Hs : startup_shape ((l1 ++ y0) ++ l3)) by (exists l1, y0, l3; rewrite <- app_assoc; auto).
    destruct (no_options _).
    + run. exists ((l1 ++ y0) ++ l3), []. rewrite app_nil_r. auto 6.
    + apply (runs_tail _ _ _ _ _ (main_loop_mrounds _ _ _ _ _)). intros r l _ Hm. exists ((l1 ++ y0) ++ l3), l. auto.
  - run. rewrite (He e eq_refl). exists (l1 ++ y0 ++ []), [EvRaise XTypeError]. rewrite <- !app_assoc.
    repeat split; auto. exists l1, y0, []. repeat split; auto. left; reflexivity.
Qed.

Lemma connect_nodev o fuel inner s : connect false o fuel inner s = (Raise XIOError, [EvRaise XIOError], s).
Proof. reflexivity. Qed.
