(* dep_frame_bound: no frame on the air exceeds the LR announced by its receiver -
   for every fault script, payload list, application behaviour and fuel. *)
From Coq Require Import ZArith List Bool Lia ZifyBool.
From NV Require Import Base.Result Base.Bytes Model.Dep Proofs.DepCodec Proofs.DepTarget.
Import ListNotations.
Open Scope Z_scope.
Ltac Zify.zify_post_hook ::= Z.to_euclidean_division_equations.

Section Bound.
Variables (ic : icfg) (tc : tcfg) (LRI LRT : Z).
Hypothesis Hi : 1 <= ic_miu ic /\ ic_miu ic + 3 + b2z (is_some (ic_did ic)) + b2z (is_some (ic_nad ic)) <= LRT /\ LRT <= 254.
Hypothesis Ht : 1 <= tc_miu tc /\ tc_miu tc + 3 + b2z (is_some (tc_did tc)) + b2z (is_some (tc_nad tc)) <= LRI /\ LRI <= 254.

Lemma Hmiu_t : 1 <= tc_miu tc /\ tc_miu tc + 3 + b2z (is_some (tc_did tc)) + b2z (is_some (tc_nad tc)) <= 254.
Proof. lia. Qed.

(* transport data length of a frame: without the 106A start byte and the length byte *)
Definition tlen (b106 : bool) (f : list Z) : Z := len f - 1 - b2z b106.

Definition ent_ok (e : logent) : Prop :=
  if l_ini e then tlen (ic_106 ic) (l_data e) <= LRT else tlen (tc_106 tc) (l_data e) <= LRI.
Definition Wok (w : world) : Prop := Tinv tc (w_t w) /\ Forall ent_ok (w_log w).

Lemma tlen_encode b body f : encode_frame b body = Ok f -> tlen b f = len body.
Proof.
  unfold encode_frame. destruct (255 <? len body + 1); [discriminate|]. intro H. injection H as <-.
  unfold tlen. destruct b; cbn [app b2z]; rewrite ?len_cons; lia.
Qed.

Lemma len_opt_list o : len (opt_list o) = b2z (is_some o).
Proof. destruct o; reflexivity. Qed.

(* whatever the target answers fits the initiator's LR *)
Lemma out_small x : (exists r, x = PDepRes r /\ resp_ok tc r) \/ x = PDslRes (tc_did tc) \/ x = PRlsRes (tc_did tc) ->
  len (enc_pdu x) <= LRI.
Proof.
  pose proof Ht. intros [(r & -> & (_ & Hd & Hn & Hl))|[->| ->]]; cbn [enc_pdu].
  - rewrite len_enc_dep, Hd, Hn. change (len [213; 7]) with 2. lia.
  - rewrite len_app, len_opt_list. change (len [213; 9]) with 2. destruct (tc_nad tc); cbn [is_some b2z] in *; lia.
  - rewrite len_app, len_opt_list. change (len [213; 11]) with 2. destruct (tc_nad tc); cbn [is_some b2z] in *; lia.
Qed.

Lemma absorb_inv t frame : Tinv tc t ->
  Tinv tc (fst (tgt_absorb tc t frame)) /\ (forall f, snd (tgt_absorb tc t frame) = Some f -> tlen (tc_106 tc) f <= LRI).
Proof.
  intro HI. unfold tgt_absorb.
  (* without a response: the application may have been stopped, which leaves packet number and retransmission buffer *)
  assert (Hn : forall t0, Tinv tc t0 -> Tinv tc t0 /\ (forall f, @None (list Z) = Some f -> tlen (tc_106 tc) f <= LRI))
    by (intros t0 H0; split; [exact H0 | discriminate]).
  destruct (t_pos t); try exact (Hn t HI).
  all: destruct (decode_frame_tgt (tc_106 tc) frame) as [req|e|c|]; try exact (Hn t HI).
  all: destruct (step_inv tc Hmiu_t t req HI) as [HI1 Ho1]; destruct (tgt_step tc t req) as [t1 o1]; cbn [fst snd] in HI1, Ho1.
  all: destruct o1 as [rsp|]; [|exact (Hn t1 HI1)].
  all: destruct (encode_frame (tc_106 tc) (enc_pdu rsp)) as [f|e|c|] eqn:Ee; try exact (Hn t1 HI1).
  all: split; [exact HI1|]; intros f0 Hf; injection Hf as <-; rewrite (tlen_encode _ _ _ Ee).
  all: exact (out_small rsp (Ho1 rsp eq_refl)).
Qed.

(* Every function of the initiator leaves a world that is Wok: the world changes in `air` only, and the frames sent
   there are those of requests with req_small. *)
Lemma air_ok body frame timeout w : Wok w -> encode_frame (ic_106 ic) body = Ok frame -> len body <= LRT ->
  Wok (snd (air tc frame timeout w)).
Proof.
  intros [HT HL] He Hb. unfold air.
  assert (He1 : forall fq, ent_ok (mklog true frame fq)).
  { intro fq. unfold ent_ok. cbn. rewrite (tlen_encode _ _ _ He). exact Hb. }
  destruct (fst (hd (FD, FD) (w_script w))); try (split; [exact HT | constructor; [apply He1 | exact HL]]).
  destruct (absorb_inv (w_t w) frame HT) as [HT1 Ho1].
  destruct (tgt_absorb tc (w_t w) frame) as [t1 [rsp|]]; [|split; [exact HT1 | constructor; [apply He1 | exact HL]]].
  assert (He2 : forall fs, ent_ok (mklog false rsp fs)) by (intro fs; exact (Ho1 rsp eq_refl)).
  destruct (snd (hd (FD, FD) (w_script w))); (split; [exact HT1 | constructor; [apply He2 | constructor; [apply He1 | exact HL]]]).
Qed.

Definition req_small (req : pdu) : Prop := len (enc_pdu req) <= LRT.

Lemma srr1_ok req timeout w : Wok w -> req_small req -> Wok (snd (srr1 ic tc req timeout w)).
Proof.
  intros HW Hs. unfold srr1.
  destruct (encode_frame (ic_106 ic) (enc_pdu req)) as [cmd|e|c|] eqn:Ee; try exact HW.
  pose proof (air_ok _ _ timeout w HW Ee Hs) as HW1.
  destruct (air tc cmd timeout w) as [[rsp| |] w1]; try exact HW1.
  destruct (decode_frame_ini (ic_106 ic) rsp) as [x|e|c|]; try exact HW1.
  destruct (pdu_name x =? pdu_name req); exact HW1.
Qed.

Lemma i_dep_small f p d : len d <= ic_miu ic -> req_small (PDepReq (i_dep ic f p d)).
Proof.
  intro H. unfold req_small, i_dep. cbn [enc_pdu]. rewrite len_enc_dep. cbn [Dep.did Dep.nad Dep.data].
  change (len [212; 6]) with 2. lia.
Qed.
Lemma nil_small : len (@nil Z) <= ic_miu ic. Proof. change (len (@nil Z)) with 0. pose proof Hi. lia. Qed.
Lemma one_small (x : Z) : len [x] <= ic_miu ic. Proof. change (len [x]) with 1. pose proof Hi. lia. Qed.

Lemma req_atn_ok n : forall rwt deadline w, Wok w -> Wok (snd (req_atn n ic tc rwt deadline w)).
Proof.
  induction n as [|n IH]; intros rwt deadline w HW; cbn [req_atn]; [exact HW|].
  destruct (Z.min rwt (deadline - w_now w) <=? 0); [exact HW|].
  pose proof (srr1_ok _ (Z.min rwt (deadline - w_now w)) w HW (i_dep_small F_ATN 0 _ nil_small)) as HW1.
  destruct (srr1 ic tc _ _ w) as [[x|e|c|] w1]; try exact HW1.
  - destruct x; try exact HW1.
    destruct (fmt d =? F_RTOX); [exact HW1|]. destruct (negb (fmt d =? F_ATN)); exact HW1.
  - apply IH, HW1.
Qed.

Lemma req_nak_ok n : forall p ch rwt deadline w, Wok w -> Wok (snd (req_nak n ic tc p ch rwt deadline w)).
Proof.
  induction n as [|n IH]; intros p ch rwt deadline w HW; cbn [req_nak]; [exact HW|].
  destruct (Z.min rwt (deadline - w_now w) <=? 0); [exact HW|].
  pose proof (srr1_ok _ (Z.min rwt (deadline - w_now w)) w HW (i_dep_small F_NAK p _ nil_small)) as HW1.
  destruct (srr1 ic tc _ _ w) as [[x|e|c|] w1]; try exact HW1.
  - destruct x; try exact HW1.
    destruct (fmt d =? F_RTOX); [exact HW1|].
    destruct (negb ((fmt d =? F_INF) || (fmt d =? F_MORE) || (ch && (fmt d =? F_ACK)))); exact HW1.
  - apply IH, HW1.
Qed.

Lemma srr_loop_ok fuel : forall p req rwt deadline w, Wok w -> req_small req ->
  Wok (snd (srr_loop fuel ic tc p req rwt deadline w)).
Proof.
  induction fuel as [|f IH]; intros p req rwt deadline w HW Hs; cbn [srr_loop]; [exact HW|].
  destruct (Z.min rwt (deadline - w_now w) <=? 0); [exact HW|].
  pose proof (srr1_ok req (Z.min rwt (deadline - w_now w)) w HW Hs) as HW1.
  destruct (srr1 ic tc req _ w) as [[x|e|c|] w1]; try exact HW1.
  destruct e; try exact HW1.
  - apply req_nak_ok, HW1.
  - pose proof (req_atn_ok 2 rwt deadline w1 HW1) as HW2.
    destruct (req_atn 2 ic tc rwt deadline w1) as [[y|e|c|] w2]; try exact HW2.
    apply IH; [exact HW2 | exact Hs].
Qed.

Lemma srr_ok fuel p d rwt timeout w : Wok w -> req_small (PDepReq d) -> Wok (snd (srr fuel ic tc p d rwt timeout w)).
Proof.
  intros HW Hs. unfold srr.
  pose proof (srr_loop_ok fuel p _ rwt (w_now w + timeout) w HW Hs) as HW1.
  destruct (srr_loop fuel ic tc p _ rwt _ w) as [[x|e|c|] w1]; try exact HW1.
  destruct x; try exact HW1.
  destruct (fmt d0 =? F_NAK); exact HW1.
Qed.

Lemma rtox_loop_ok n : forall fuel p r timeout w, Wok w -> Wok (snd (rtox_loop n fuel ic tc p r timeout w)).
Proof.
  induction n as [|n IH]; intros fuel p r timeout w HW; cbn [rtox_loop]; [exact HW|].
  destruct (data r) as [|y rest]; [exact HW|].
  destruct (negb ((0 <? y) && (y <? 60))); [exact HW|].
  pose proof (srr_ok fuel p _ (y * 1) timeout w HW (i_dep_small F_RTOX 0 _ (one_small y))) as HW1.
  destruct (srr fuel ic tc p _ _ timeout w) as [[z|e|c|] w1]; try exact HW1.
  destruct (fmt z =? F_RTOX); [apply IH, HW1 | exact HW1].
Qed.

Lemma after_rtox_ok fuel p r timeout w : Wok w -> Wok (snd (after_rtox fuel ic tc p r timeout w)).
Proof. intro HW. unfold after_rtox. destruct (fmt r =? F_RTOX); [apply rtox_loop_ok, HW | exact HW]. Qed.

(* the tail both loops of exchange() share: the time-out extension handshake, then two tests and the next iteration *)
Lemma srr_rtox_ok {A} fuel p d timeout w (k : deppdu -> world -> res A * world) : Wok w -> req_small (PDepReq d) ->
  (forall r w2, Wok w2 -> Wok (snd (k r w2))) ->
  Wok (snd (match srr fuel ic tc p d 1 timeout w with
            | (Ok r0, w1) =>
                match after_rtox fuel ic tc p r0 timeout w1 with
                | (Ok r, w2) => k r w2
                | (Err e, w2) => (Err e, w2) | (Crash c, w2) => (Crash c, w2) | (Hang, w2) => (Hang, w2)
                end
            | (Err e, w1) => (Err e, w1) | (Crash c, w1) => (Crash c, w1) | (Hang, w1) => (Hang, w1)
            end)).
Proof.
  intros HW Hs Hk. pose proof (srr_ok fuel p d 1 timeout w HW Hs) as HW1.
  destruct (srr fuel ic tc p d 1 timeout w) as [[z|e|c|] w1]; try exact HW1.
  pose proof (after_rtox_ok fuel p z timeout w1 HW1) as HW2.
  destruct (after_rtox fuel ic tc p z timeout w1) as [[y|e|c|] w2]; try exact HW2.
  apply Hk, HW2.
Qed.

Lemma send_loop_ok n : forall fuel p sd last timeout w, Wok w -> Wok (snd (send_loop n fuel ic tc p sd last timeout w)).
Proof.
  induction n as [|n IH]; intros fuel p sd last timeout w HW;
    (destruct sd as [|b sd]; cbn [send_loop]; [destruct last; exact HW|]); [exact HW|].
  apply srr_rtox_ok; [exact HW | apply i_dep_small, len_take_le; lia|].
  intros r w2 HW2. destruct (_ && _); [exact HW2|]. destruct (negb _); [exact HW2 | apply IH, HW2].
Qed.

Lemma recv_loop_ok n : forall fuel p r acc timeout w, Wok w -> Wok (snd (recv_loop n fuel ic tc p r acc timeout w)).
Proof.
  induction n as [|n IH]; intros fuel p r acc timeout w HW; cbn [recv_loop];
    (destruct (negb (fmt r =? F_MORE)); [exact HW|]); [exact HW|].
  apply srr_rtox_ok; [exact HW | apply i_dep_small, nil_small|].
  intros r1 w2 HW2. destruct (negb (_ || _)); [exact HW2|]. destruct (negb _); [exact HW2 | apply IH, HW2].
Qed.

Lemma ini_exchange_ok n fuel p sd timeout w : Wok w -> Wok (snd (ini_exchange n fuel ic tc p sd timeout w)).
Proof.
  intro HW. unfold ini_exchange. pose proof (send_loop_ok n fuel p sd None timeout w HW) as HW1.
  destruct (send_loop n fuel ic tc p sd None timeout w) as [[[p1 r]|e|c|] w1]; try exact HW1.
  destruct (negb _); [exact HW1 | apply recv_loop_ok, HW1].
Qed.

Lemma ini_app_ok n fuel ps : forall p timeout w, Wok w -> Wok (snd (ini_app n fuel ic tc p ps timeout w)).
Proof.
  induction ps as [|x ps IH]; intros p timeout w HW; cbn [ini_app]; [exact HW|].
  pose proof (ini_exchange_ok n fuel p x timeout w HW) as HW1.
  destruct (ini_exchange n fuel ic tc p x timeout w) as [[[p1 d]|e|c|] w1]; try exact HW1.
  pose proof (IH p1 timeout w1 HW1) as HW2. destruct (ini_app n fuel ic tc p1 ps timeout w1). exact HW2.
Qed.

Lemma ini_deactivate_ok release w : Wok w -> Wok (ini_deactivate ic tc release w).
Proof.
  intro HW. unfold ini_deactivate. destruct release as [b|]; [|exact HW].
  apply srr1_ok; [exact HW|].
  unfold req_small. pose proof Hi. destruct b; cbn [enc_pdu]; rewrite len_app, len_opt_list;
    [change (len [212; 10]) with 2 | change (len [212; 8]) with 2]; destruct (ic_nad ic); cbn [is_some b2z] in *; lia.
Qed.

Theorem conversation_frames_ok n fuel script payloads app timeout release :
  Forall ent_ok (o_frames (conversation n fuel ic tc script payloads app timeout release)).
Proof.
  unfold conversation.
  assert (H0 : Wok (mkw (tgt_init app) script 0 [])).
  { split; cbn; [split; cbn; intros; discriminate | constructor]. }
  pose proof (ini_app_ok n fuel payloads 0 timeout _ H0) as H1.
  destruct (ini_app n fuel ic tc 0 payloads timeout (mkw (tgt_init app) script 0 [])) as [ir w1].
  pose proof (ini_deactivate_ok release w1 H1) as [_ H2].
  cbn [o_frames]. apply Forall_rev. exact H2.
Qed.
End Bound.

(* the configurations that a fault-free activation produces (C19: Negotiate) *)
Theorem dep_frame_bound_all : forall n fuel b106 lri lrt did nad script payloads app timeout release e,
  In e (o_frames (conversation n fuel (mk_icfg b106 lrt did nad) (mk_tcfg b106 lri did) script payloads app timeout release)) ->
  tlen b106 (l_data e) <= (if l_ini e then lr_of lrt else lr_of lri).
Proof.
  intros n fuel b106 lri lrt did nad script payloads app timeout release e He.
  pose proof (lr_of_range lri) as Hri. pose proof (lr_of_range lrt) as Hrt.
  refine (_ (proj1 (Forall_forall _ _) (conversation_frames_ok (mk_icfg b106 lrt did nad) (mk_tcfg b106 lri did) (lr_of lri) (lr_of lrt)
                                          _ _ n fuel script payloads app timeout release) e He)).
  - unfold ent_ok. cbn. destruct (l_ini e); auto.
  - cbn. destruct did, nad; cbn; lia.
  - cbn. destruct (tdid_of did); cbn; lia.
Qed.
