(* agf_local: the members of a decoded aggregate are the PDUs decoded from their own length-prefixed bytes. *)
From Coq Require Import ZArith List Bool Lia ZifyBool.
From NV Require Import Base.Result Base.Bytes Model.Pdu Model.PduSpec Proofs.PduBase Proofs.PduWin Proofs.PduTotal.
Import ListNotations.
Open Scope Z_scope.
Ltac Zify.zify_post_hook ::= Z.to_euclidean_division_equations.

Lemma sub_w_decode_w e p : sub_w e = Ok p -> decode_w e = Ok p.
Proof.
  unfold sub_w, decode_w, dec_w. destruct e as [|a [|b info]]; try discriminate. cbv zeta.
  destruct (_ =? 2); [discriminate | exact (fun H => H)].
Qed.

Lemma bytes_ok_frames subs : bytes_ok (concat (map frame subs)) -> Forall bytes_ok subs.
Proof.
  induction subs as [|e subs IH]; intro H; constructor; cbn [map concat] in H; apply bytes_ok_app in H; destruct H as [Hfr Hr].
  - unfold frame in Hfr. apply bytes_ok_app in Hfr. apply Hfr.
  - apply IH, Hr.
Qed.

Lemma agf_w_members : forall fuel w acc l, bytes_ok w -> agf_w fuel w acc = Ok l ->
  exists subs ps, l = acc ++ ps /\ w = concat (map frame subs) /\
                  Forall2 (fun e p => sub_w e = Ok p /\ len e <= 65535) subs ps.
Proof.
  induction fuel as [|f IH]; intros w acc l Hw H.
  - destruct w as [|h r]; [|discriminate H]. injection H as <-. exists [], []. rewrite app_nil_r. repeat split. constructor.
  - destruct w as [|h [|lo rest]]; cbn [agf_w] in H.
    + injection H as <-. exists [], []. rewrite app_nil_r. repeat split. constructor.
    + discriminate H.
    + destruct (bytes_ok2_inv _ _ _ Hw) as (Hh & Hl & Hr). pose proof (len_nonneg rest) as Hn.
      set (n := h * 256 + lo) in *. assert (Hn0 : 0 <= n <= 65535) by (unfold n; lia).
      destruct (n >? len rest) eqn:E; [discriminate H|].
      destruct (sub_w (take n rest)) as [p| | |] eqn:Es; cbn [bind] in H; try discriminate H.
      destruct (IH _ _ _ (bytes_ok_drop n _ Hr) H) as (subs & ps & Hl' & Hw' & Hf).
      assert (Hlen : len (take n rest) = n) by (apply len_take; lia).
      exists (take n rest :: subs), (p :: ps). split; [|split].
      * rewrite Hl', <- app_assoc. reflexivity.
      * cbn [map concat]. unfold frame at 1. rewrite Hlen. rewrite <- Hw'. cbn [app].
        replace (n / 256) with h by (unfold n; lia). replace (n mod 256) with lo by (unfold n; lia).
        rewrite take_drop. reflexivity.
      * constructor; [split; [exact Es | lia] | exact Hf].
Qed.

Theorem agf_members_w w d s ps : bytes_ok w -> decode_w w = Ok (Agf d s ps) ->
  exists a b subs, w = a :: b :: concat (map frame subs) /\ Forall2 (fun e p => decode_w e = Ok p) subs ps.
Proof.
  intros Hw H. destruct w as [|a [|b info]]; try discriminate H.
  (* an aggregate can only come out of the AGF slot: every other class yields a PDU with is_agf = false *)
  assert (Ha : agfdec_w (a :: b :: info) = Ok (Agf d s ps)).
  { destruct (dec_w_split agfdec_w _ Hw) as [E | Hi]; [rewrite <- E; exact H|].
    unfold decode_w in H. rewrite H in Hi. destruct Hi as [[_ Hna] _]. discriminate Hna. }
  unfold agfdec_w in Ha.
  destruct (negb (Z.shiftr a 2 =? 0) || negb (Z.land b 63 =? 0)); [discriminate Ha|].
  destruct (agf_w (Z.to_nat (len info)) info []) as [l| | |] eqn:El; cbn [bind] in Ha; try discriminate Ha.
  injection Ha as _ _ <-.
  destruct (agf_w_members _ _ _ _ (proj2 (proj2 (bytes_ok2_inv _ _ _ Hw))) El) as (subs & ps' & Hl & Hi & Hf).
  cbn [app] in Hl. subst l. exists a, b, subs. split; [rewrite Hi; reflexivity|].
  clear - Hf. induction Hf as [|e p subs ps [He _] _ IH]; constructor; [apply sub_w_decode_w, He | exact IH].
Qed.

(* stated on decode: every member of a decoded aggregate is what decode returns for the member's own bytes alone *)
Theorem agf_local data off size d s ps : 0 <= off -> bytes_ok data ->
  decode data off size = Ok (Agf d s ps) ->
  exists hdr subs, slice data off (off + size) = hdr ++ concat (map frame subs) /\ len hdr = 2 /\
                   Forall2 (fun e p => bytes_ok e /\ decode e 0 (len e) = Ok p) subs ps.
Proof.
  intros Ho Hd E0. destruct (decode_ok_w _ _ _ _ Ho Hd E0) as [Hs E].
  destruct (agf_members_w _ _ _ _ Hs E) as (a & b & subs & Hw & Hf).
  exists [a; b], subs. split; [rewrite Hw; reflexivity|]. split; [reflexivity|].
  rewrite Hw in Hs. apply bytes_tl, bytes_tl, bytes_ok_frames in Hs.
  clear - Hs Hf. revert Hs. induction Hf as [|e p subs ps He _ IH]; intro Hs; constructor.
  - pose proof (Forall_inv Hs) as Hbe. split; [exact Hbe|]. rewrite decode_whole by exact Hbe. exact He.
  - apply IH, (Forall_inv_tail Hs).
Qed.
