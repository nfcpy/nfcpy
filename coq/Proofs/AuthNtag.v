(* C20: NTAG21x password authentication against the tag model, password provisioning. *)
From Coq Require Import ZArith List Bool Lia.
From NV Require Import Base.Result Base.Bytes Base.PyPrims Base.PyAuth Model.FelicaMac Model.Ntag Proofs.AuthMac.
Import ListNotations.
Open Scope Z_scope.

Lemma ntag_key_length pw key : ntag_key pw = Ok key -> length key = 6%nat.
Proof.
  unfold ntag_key. destruct ((0 <? len pw) && (len pw <? 6)) eqn:E; [discriminate|].
  intro H. replace key with (if len pw =? 0 then [255; 255; 255; 255; 0; 0] else firstn 6 pw) by congruence.
  destruct (len pw =? 0) eqn:E0; [reflexivity|]. rewrite firstn_length. unfold len in *. lia.
Qed.

(* PWD_AUTH against the tag: exact comparison of all 48 bits *)
Theorem ntag_auth_exact tg st pw key :
  n_target st = true -> ntag_key pw = Ok key ->
  exists b tg', ntag_authenticate nhonest pw (tg, st) = ((tg', mkN true b), Ok b) /\
    nt_cfg tg' = nt_cfg tg /\ nt_mem tg' = nt_mem tg /\ nt_eff tg' = nt_eff tg /\
    (b = true <-> (firstn 4 key = nt_pwd tg /\ nt_pack tg = skipn 4 key)).
Proof.
  intros Ht Hk. destruct (list6 key (ntag_key_length pw key Hk)) as (k0 & k1 & k2 & k3 & k4 & k5 & ->).
  unfold ntag_authenticate, ntag_authenticate_inner, nbind, nlift. rewrite Hk.
  unfold transceive. cbn [fst snd]. rewrite Ht. cbn [negb firstn nexchange_retry]. unfold nhonest.
  cbn [ntag_step]. destruct st as [tgt au]. cbn [n_target n_auth] in *. subst tgt.
  destruct (list_eqb [k0; k1; k2; k3] (nt_pwd tg)) eqn:EP.
  - apply list_eqb_eq in EP. change (slice [k0; k1; k2; k3; k4; k5] 4 6) with [k4; k5].
    exists (list_eqb (nt_pack tg) [k4; k5]), (mkNT (nt_cfg tg) (nt_mem tg) (nt_eff tg) true).
    do 4 (split; [reflexivity|]). split.
    + intro H. apply list_eqb_eq in H. split; [exact EP | exact H].
    + intros [_ H]. apply list_eqb_eq. exact H.
  - change (slice [k0; k1; k2; k3; k4; k5] 4 6) with [k4; k5].
    exists false, (mkNT (nt_cfg tg) (nt_mem tg) (nt_eff tg) false).
    split.
    + unfold NAK. cbn [list_eqb]. rewrite andb_false_r. reflexivity.
    + do 3 (split; [reflexivity|]). split; [discriminate|].
      intros [H _]. cbn [firstn] in H. rewrite <- H, list_eqb_refl in EP. discriminate.
Qed.

Definition nt_wf (tg : ntag) : Prop := forall q, length (nt_mem tg q) = 4%nat.

(* open = not yet protected: AUTH0 beyond the last page, so that every page can be read and written *)
Definition nt_open (tg : ntag) : Prop :=
  nt_wf tg /\ nt_authed tg = false /\ 4 <= nt_cfg tg /\ nt_cfg tg + 3 < 256 /\ nt_cfg tg + 3 < nt_auth0 tg.

Lemma nt_read_page_len tg p : nt_wf tg -> length (nt_read_page tg p) = 4%nat.
Proof.
  intro H. unfold nt_read_page. destruct (_ =? _); [reflexivity|]. destruct (_ =? _); [|apply H].
  rewrite app_length, skipn_length, H. reflexivity.
Qed.

Lemma nopen_read tg st p :
  nt_open tg -> n_target st = true -> 0 <= p <= nt_cfg tg + 3 ->
  nread nhonest nsense_present p (tg, st) =
    ((tg, st), Ok (nt_read_page tg p ++ nt_read_page tg (p + 1) ++ nt_read_page tg (p + 2) ++ nt_read_page tg (p + 3))).
Proof.
  intros (Hwf & Hau & _ & Hc & Ha0) Ht Hp. unfold nread, nbind, transceive. cbn [fst snd]. rewrite Ht. cbn [negb nexchange_retry].
  rewrite Z.mod_small by lia. unfold nhonest. cbn [ntag_step]. unfold nt_npages.
  replace ((p <? 0) || (nt_cfg tg + 4 <=? p)) with false by lia.
  replace (nt_auth0 tg <=? p) with false by lia. rewrite andb_false_r.
  set (data := nt_read_page tg p ++ _).
  assert (HL : len data = 16) by (unfold data, len; rewrite !app_length, !nt_read_page_len by assumption; reflexivity).
  rewrite HL. reflexivity.
Qed.

Definition nt_with_page (tg : ntag) (p : Z) (d : list Z) : ntag :=
  mkNT (nt_cfg tg) (mem_set (nt_mem tg) p d) (nt_eff tg) (nt_authed tg).

(* page writes change neither the configuration in effect nor the page count *)
Lemma nt_open_with_page tg p d : nt_open tg -> length d = 4%nat -> nt_open (nt_with_page tg p d).
Proof.
  intros (Hwf & Hrest) Hd. split; [|exact Hrest]. exact (mem_set_length _ p d _ Hwf Hd).
Qed.

Lemma nopen_write tg st p d :
  nt_open tg -> n_target st = true -> 2 <= p <= nt_cfg tg + 3 -> length d = 4%nat ->
  nwrite nhonest p d (tg, st) = ((nt_with_page tg p d, st), Ok true).
Proof.
  intros (_ & Hau & _ & Hc & Ha0) Ht Hp Hd. destruct (list4 d Hd) as (a & b & c & e & ->).
  unfold nwrite. cbn [len length Z.of_nat Pos.of_succ_nat Pos.succ Z.eqb Pos.eqb negb].
  unfold nbind, transceive. cbn [fst snd]. rewrite Ht. cbn [negb app nexchange_retry].
  rewrite Z.mod_small by lia. unfold nhonest. cbn [ntag_step]. unfold nt_npages.
  replace ((p <? 2) || (nt_cfg tg + 4 <=? p)) with false by lia.
  replace (nt_auth0 tg <=? p) with false by lia. rewrite andb_false_r. reflexivity.
Qed.

(* the four pages written back: PWD is the first four key bytes, PACK starts with the other two *)
Lemma ntag_cfg_edit_pages cfg key rp pf : length cfg = 16%nat -> length key = 6%nat ->
  let c := ntag_cfg_edit cfg key rp pf in
  length (slice c 0 4) = 4%nat /\ length (slice c 4 8) = 4%nat /\ length (slice c 12 16) = 4%nat /\
  slice c 8 12 = firstn 4 key /\ firstn 2 (slice c 12 16) = skipn 4 key.
Proof.
  intros Hc Hk.
  destruct (list16 cfg Hc) as (c0 & c1 & c2 & c3 & c4 & c5 & c6 & c7 & c8 & c9 & c10 & c11 & c12 & c13 & c14 & c15 & ->).
  destruct (list6 key Hk) as (k0 & k1 & k2 & k3 & k4 & k5 & ->). repeat split.
Qed.

Lemma ntag_cc_edit_length cc rp : length cc = 4%nat -> length (ntag_cc_edit cc rp) = 4%nat.
Proof. intro H. destruct (list4 cc H) as (a & b & c & d & ->). reflexivity. Qed.

Lemma ntag_key_of_key key : length key = 6%nat -> ntag_key key = Ok key.
Proof. intro H. destruct (list6 key H) as (k0 & k1 & k2 & k3 & k4 & k5 & ->). reflexivity. Qed.

(* re-activation makes the written PWD and PACK the ones in effect, and PWD_AUTH with them succeeds *)
Lemma reselect_auth cfg tg st key : nt_cfg tg = cfg -> length key = 6%nat ->
  nt_mem tg (cfg + 2) = firstn 4 key -> firstn 2 (nt_mem tg (cfg + 3)) = skipn 4 key ->
  exists tg', nbind (do_sense nsense_present) (fun present : bool => if present then ntag_authenticate nhonest key else nret false) (tg, st)
                = ((tg', mkN true true), Ok true) /\
    nt_cfg tg' = cfg /\ nt_pwd tg' = firstn 4 key /\ nt_pack tg' = skipn 4 key.
Proof.
  intros <- Hkl Hp Hk. unfold nbind at 1, do_sense, nsense_present. cbn [fst snd].
  destruct (ntag_auth_exact (ntag_reselect tg) (mkN true (n_auth st)) key key eq_refl (ntag_key_of_key key Hkl))
    as (b & tg' & HA & Hc' & _ & He' & Hb).
  assert (b = true) by (apply Hb; split; [symmetry; exact Hp | exact Hk]). subst b.
  exists tg'. split; [exact HA|]. split; [exact Hc'|].
  unfold nt_pwd, nt_pack. rewrite Hc', He'. split; [exact Hp | exact Hk].
Qed.

Theorem ntag_protect_honest tg st pw rp pf key :
  nt_open tg -> n_target st = true -> ntag_key pw = Ok key ->
  exists tg', ntag_protect nhonest nsense_present (nt_cfg tg) pw rp pf (tg, st) = ((tg', mkN true true), Ok true) /\
    nt_cfg tg' = nt_cfg tg /\ nt_pwd tg' = firstn 4 key /\ nt_pack tg' = skipn 4 key.
Proof.
  intros Ho Ht Hk. pose proof (ntag_key_length pw key Hk) as Hkl.
  pose proof Ho as (Hwf & _ & Hc4 & _).
  unfold ntag_protect. unfold nbind at 1. unfold nlift at 1. rewrite Hk.
  unfold nbind at 1. rewrite nopen_read by (assumption || lia).
  set (data := nt_read_page tg (nt_cfg tg) ++ _).
  assert (Hdl : length data = 16%nat) by (unfold data; rewrite !app_length, !nt_read_page_len by exact Hwf; reflexivity).
  destruct (ntag_cfg_edit_pages data key rp pf Hdl Hkl) as (L0 & L1 & L3 & S2 & S3).
  set (c := ntag_cfg_edit data key rp pf) in *. rewrite S2.
  assert (L2 : length (firstn 4 key) = 4%nat) by (rewrite firstn_length, Hkl; reflexivity).
  set (cfg := nt_cfg tg) in *.
  unfold nbind at 1. rewrite nopen_write by (assumption || (fold cfg; lia)).
  set (tg1 := nt_with_page tg cfg (slice c 0 4)).
  assert (Ho1 : nt_open tg1) by (apply nt_open_with_page; assumption).
  unfold nbind at 1. rewrite nopen_write by (assumption || (change (nt_cfg tg1) with cfg; lia)).
  set (tg2 := nt_with_page tg1 (cfg + 1) (slice c 4 8)).
  assert (Ho2 : nt_open tg2) by (apply nt_open_with_page; assumption).
  unfold nbind at 1. rewrite nopen_write by (assumption || (change (nt_cfg tg2) with cfg; lia)).
  set (tg3 := nt_with_page tg2 (cfg + 2) (firstn 4 key)).
  assert (Ho3 : nt_open tg3) by (apply nt_open_with_page; assumption).
  unfold nbind at 1. rewrite nopen_write by (assumption || (change (nt_cfg tg3) with cfg; lia)).
  set (tg4 := nt_with_page tg3 (cfg + 3) (slice c 12 16)).
  assert (Ho4 : nt_open tg4) by (apply nt_open_with_page; assumption).
  assert (M2 : nt_mem tg4 (cfg + 2) = firstn 4 key).
  { unfold tg4, tg3, nt_with_page. cbn [nt_mem]. rewrite mem_set_other by lia. apply mem_set_same. }
  assert (M3 : firstn 2 (nt_mem tg4 (cfg + 3)) = skipn 4 key).
  { unfold tg4, nt_with_page. cbn [nt_mem]. rewrite mem_set_same. exact S3. }
  (* the capability container update, if any, leaves these two pages alone *)
  destruct (pf <=? 3).
  - unfold nbind at 1. unfold nbind at 1. rewrite nopen_read by (assumption || (change (nt_cfg tg4) with cfg; lia)).
    set (cc := slice _ 0 4).
    assert (Hcc : length cc = 4%nat).
    { unfold cc. change (slice ?l 0 4) with (firstn 4 l). rewrite firstn_length, app_length, nt_read_page_len by apply Ho4. reflexivity. }
    destruct (ntag_cc_test cc).
    + unfold nbind at 1. rewrite nopen_write by (assumption || (change (nt_cfg tg4) with cfg; lia) || apply ntag_cc_edit_length, Hcc).
      unfold nret at 1. apply reselect_auth; [reflexivity | exact Hkl | | ]; unfold nt_with_page at 1; cbn [nt_mem];
        rewrite mem_set_other by lia; assumption.
    + unfold nret at 1. apply (reselect_auth cfg tg4 st key eq_refl Hkl M2 M3).
  - unfold nbind at 1. unfold nret at 1. apply (reselect_auth cfg tg4 st key eq_refl Hkl M2 M3).
Qed.

(* after protect(pw): authenticate(pw) is True, and False for every password whose 6 key bytes differ *)
Theorem ntag_protect_then_auth tg st pw rp pf key :
  nt_open tg -> n_target st = true -> ntag_key pw = Ok key ->
  exists s1, ntag_protect nhonest nsense_present (nt_cfg tg) pw rp pf (tg, st) = (s1, Ok true) /\
    snd (ntag_authenticate nhonest pw s1) = Ok true /\
    forall pw' key', ntag_key pw' = Ok key' -> key' <> key -> snd (ntag_authenticate nhonest pw' s1) = Ok false.
Proof.
  intros Ho Ht Hk. destruct (ntag_protect_honest tg st pw rp pf key Ho Ht Hk) as (tg' & HP & Hc & Hpwd & Hpack).
  exists (tg', mkN true true). split; [exact HP|]. split.
  - destruct (ntag_auth_exact tg' (mkN true true) pw key eq_refl Hk) as (b & tg2 & HA & _ & _ & _ & Hb).
    rewrite HA. cbn [snd]. f_equal. apply Hb. split; congruence.
  - intros pw' key' Hk' Hne.
    destruct (ntag_auth_exact tg' (mkN true true) pw' key' eq_refl Hk') as (b & tg2 & HA & _ & _ & _ & Hb).
    rewrite HA. cbn [snd]. f_equal. destruct b; [|reflexivity]. exfalso. apply Hne.
    destruct Hb as [Hb _]. destruct (Hb eq_refl) as [H1 H2].
    rewrite <- (firstn_skipn 4 key'), <- (firstn_skipn 4 key). congruence.
Qed.

(* the factory-state tag models are open *)
Lemma ntag_blank_open cfg : In cfg [16; 37; 41; 131; 227] -> nt_open (ntag_blank cfg).
Proof.
  intro H. unfold nt_open, ntag_blank, nt_wf, nt_auth0, ntag_blank_mem. cbn [nt_mem nt_eff nt_cfg nt_authed].
  rewrite Z.eqb_refl. cbn [nth]. repeat split; try (cbn in H; intuition lia).
  intro q. destruct (q =? cfg); [reflexivity|]. destruct (q =? cfg + 2); [reflexivity|]. destruct (q =? 3); reflexivity.
Qed.
