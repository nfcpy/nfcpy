(* C05 - sliding-window invariant of one direction X -> Y of a data link connection
   (DESIGN.md Appendix A.2) and the primitive preservation lemmas; the two-direction system
   invariant and the induction over op lists are in Proofs/Dlc.v. *)
From Coq Require Import ZArith List Bool Lia ZifyBool.
From NV Require Import Base.Result Base.Bytes Model.Dlc.
Import ListNotations.
Open Scope Z_scope.

(* what a wire / send queue carries for each of the two directions it serves *)

(* (N(S), data) of the I PDUs: serves the direction of the PDU's sender *)
Fixpoint Is (l : list pdu) : list (Z * msg) :=
  match l with
  | [] => []
  | PI ns _ d :: r => (ns, d) :: Is r
  | _ :: r => Is r
  end.
(* N(R) of every numbered PDU: serves the opposite direction *)
Fixpoint nrs (l : list pdu) : list Z :=
  match l with
  | [] => []
  | PI _ nr _ :: r => nr :: nrs r
  | PRR nr :: r => nr :: nrs r
  | PRNR nr :: r => nr :: nrs r
  | PFRMR _ _ _ _ _ _ _ _ :: r => nrs r
  end.
Definition isI (p : pdu) : bool := match p with PI _ _ _ => true | _ => false end.
Definition notF (p : pdu) : bool := match p with PFRMR _ _ _ _ _ _ _ _ => false | _ => true end.

Lemma Is_app a b : Is (a ++ b) = Is a ++ Is b.
Proof. induction a as [|p a IH]; [reflexivity|]. destruct p; cbn; rewrite IH; reflexivity. Qed.
Lemma nrs_app a b : nrs (a ++ b) = nrs a ++ nrs b.
Proof. induction a as [|p a IH]; [reflexivity|]. destruct p; cbn; rewrite IH; reflexivity. Qed.

(* the k-th message sent travels as I PDU with N(S) = k mod 16 *)
Fixpoint number (k : Z) (l : list msg) : list (Z * msg) :=
  match l with [] => [] | d :: r => (k mod 16, d) :: number (k + 1) r end.
Lemma number_app k a b : number k (a ++ b) = number k a ++ number (k + len a) b.
Proof. revert k; induction a as [|d a IH]; intro k; cbn [app number].
  - rewrite len_nil, Z.add_0_r. reflexivity.
  - rewrite IH, len_cons. f_equal. f_equal. f_equal. lia. Qed.
Lemma map_snd_number k l : map snd (number k l) = l.
Proof. revert k; induction l as [|d l IH]; intro k; cbn; [reflexivity|]. rewrite IH. reflexivity. Qed.
Lemma len_snoc {A} (l : list A) (x : A) : len (l ++ [x]) = len l + 1.
Proof. unfold len. rewrite app_length. cbn. lia. Qed.
Lemma len_map {A B} (f : A -> B) l : len (map f l) = len l.
Proof. unfold len. rewrite map_length. reflexivity. Qed.

(* N(R) values in flight towards the sender: read with the sender's un-wrapping rule
   n := lo + (v - lo) mod 16 they form a non-decreasing sequence between SA and RA *)
Fixpoint nr_ok (lo hi : Z) (l : list Z) : Prop :=
  match l with
  | [] => lo <= hi
  | v :: r => 0 <= v < 16 /\ lo + (v - lo) mod 16 <= hi /\ nr_ok (lo + (v - lo) mod 16) hi r
  end.
Lemma nr_ok_le l : forall lo hi, nr_ok lo hi l -> lo <= hi.
Proof.
  induction l as [|v l IH]; intros lo hi H; cbn in H; [exact H|]. destruct H as (_ & _ & H). apply IH in H.
  pose proof (Z.mod_pos_bound (v - lo) 16). lia.
Qed.

(* the invariant of one direction (sender X, receiver Y) *)
Definition DirInv (xvs xvsa xrw xmiu : Z) (flight : list (Z * msg))
                  (yvr yvra yrw ybuf ymiu yconfs : Z) (yrq : list msg) (nl : list Z) (g : ghost) : Prop :=
  xvs = len (sent g) mod 16 /\ xvsa = gSA g mod 16 /\ yvr = gR g mod 16 /\ yvra = gRA g mod 16 /\
  0 <= gSA g /\ gRA g <= len (dlv g) /\ len (dlv g) <= gR g /\ gR g <= len (sent g) /\
  len (sent g) - gSA g <= xrw /\ xrw = yrw /\ ybuf = yrw /\ 0 <= yrw <= 15 /\ xmiu = ymiu /\
  yconfs = len (dlv g) - gRA g /\
  len yrq = gR g - len (dlv g) /\
  sent g = dlv g ++ yrq ++ map snd flight /\
  flight = number (gR g) (map snd flight) /\
  Forall (fun d => len d <= ymiu) (map snd flight) /\
  nr_ok (gSA g) (gRA g) nl /\
  lost g = false /\ frmr g = false /\ rterr g = false.

Ltac dir_intro H :=
  destruct H as (Hvs & Hvsa & Hvr & Hvra & HSA & HRA & HC & HR & Hwin & Hrw & Hbuf & Hrng & Hmiu & Hconf & Hrq & Hsent
                 & Hnum & Hsz & Hnr & Hlost & Hfrmr & Hrt);
  pose proof (nr_ok_le _ _ _ Hnr) as HSARA.

Lemma dir_unflagged xvs xvsa xrw xmiu flight yvr yvra yrw ybuf ymiu yconfs yrq nl g :
  DirInv xvs xvsa xrw xmiu flight yvr yvra yrw ybuf ymiu yconfs yrq nl g ->
  lost g = false /\ frmr g = false /\ rterr g = false.
Proof. intro H. dir_intro H. auto. Qed.

Lemma dir_sender xvs xvsa xrw xmiu flight yvr yvra yrw ybuf ymiu yconfs yrq nl g :
  DirInv xvs xvsa xrw xmiu flight yvr yvra yrw ybuf ymiu yconfs yrq nl g ->
  xvs = len (sent g) mod 16 /\ xvsa = gSA g mod 16 /\ xrw = yrw /\ 0 <= yrw <= 15 /\ xmiu = ymiu.
Proof. intro H. dir_intro H. auto. Qed.

(* all modulo-16 reasoning of C05 is in this section; the other Dlc files use its lemmas *)
Section Mod16.
Ltac Zify.zify_post_hook ::= Z.to_euclidean_division_equations.

Lemma nr_ok_snoc l : forall lo hi hi' v, nr_ok lo hi l -> hi <= hi' -> hi' - lo <= 15 -> v = hi' mod 16 ->
  nr_ok lo hi' (l ++ [v]).
Proof.
  induction l as [|u l IH]; intros lo hi hi' v H Hh Hw Hv; cbn in H |- *.
  - subst v. repeat split; lia.
  - destruct H as (H0 & H1 & H2). split; [lia|]. split; [lia|]. eapply IH; eauto. lia.
Qed.

(* the modulo-16 computations of tco.py on wrapped counters give the true difference of the
   un-wrapped ones as long as that difference is within 0..15 *)
Lemma slots_true w s a : 0 <= w - (s - a) <= 15 -> (w - s mod 16 + a mod 16) mod 16 = w - (s - a).
Proof. lia. Qed.
Lemma diff_true s a : 0 <= s - a <= 15 -> (s mod 16 - a mod 16) mod 16 = s - a.
Proof. lia. Qed.

Lemma dir_len_flight xvs xvsa xrw xmiu flight yvr yvra yrw ybuf ymiu yconfs yrq nl g :
  DirInv xvs xvsa xrw xmiu flight yvr yvra yrw ybuf ymiu yconfs yrq nl g ->
  len flight = len (sent g) - gR g.
Proof. intro H. dir_intro H. rewrite Hsent, !len_app, len_map. lia. Qed.

(* the counters, un-wrapped: what the window computations of either side really say *)
Lemma dir_counters xvs xvsa xrw xmiu flight yvr yvra yrw ybuf ymiu yconfs yrq nl g :
  DirInv xvs xvsa xrw xmiu flight yvr yvra yrw ybuf ymiu yconfs yrq nl g ->
  0 <= len (sent g) - gSA g <= yrw /\ 0 <= gR g - gRA g <= yrw /\
  (xvs - xvsa) mod 16 = len (sent g) - gSA g /\
  (xrw - xvs + xvsa) mod 16 = yrw - (len (sent g) - gSA g) /\
  (yrw - yvr + yvra) mod 16 = yrw - (gR g - gRA g) /\
  len flight + len yrq + yconfs = len (sent g) - gRA g /\ gSA g <= gRA g.
Proof.
  intro H. pose proof (dir_len_flight _ _ _ _ _ _ _ _ _ _ _ _ _ _ H) as Hfl. dir_intro H.
  subst xvs xvsa yvr yvra xrw. rewrite !slots_true, diff_true by lia. repeat split; lia.
Qed.

(* X.send accepts m *)
Lemma dir_send xvs xvsa xrw xmiu flight yvr yvra yrw ybuf ymiu yconfs yrq nl g m :
  DirInv xvs xvsa xrw xmiu flight yvr yvra yrw ybuf ymiu yconfs yrq nl g ->
  (xrw - xvs + xvsa) mod 16 <> 0 -> len m <= xmiu ->
  DirInv ((xvs + 1) mod 16) xvsa xrw xmiu (flight ++ [(xvs, m)]) yvr yvra yrw ybuf ymiu yconfs yrq nl (g_sent g m).
Proof.
  intros H Hslot Hm. destruct (dir_counters _ _ _ _ _ _ _ _ _ _ _ _ _ _ H) as (_ & _ & _ & Hs & _).
  rewrite Hs in Hslot. clear Hs. pose proof (dir_len_flight _ _ _ _ _ _ _ _ _ _ _ _ _ _ H) as Hfl. dir_intro H. subst xvs xvsa yvr yvra.
  unfold DirInv, g_sent; cbn [sent dlv gSA gR gRA lost frmr rterr].
  rewrite len_snoc, map_app. cbn [map snd].
  repeat split; try assumption; try lia.
  - rewrite Hsent at 1. rewrite <- !app_assoc. reflexivity.
  - rewrite number_app, <- Hnum. f_equal. cbn [number]. f_equal. f_equal. rewrite len_map. lia.
  - apply Forall_app. split; [assumption|]. constructor; [lia|constructor].
Qed.

(* Y.enqueue takes the first I PDU in flight *)
Lemma dir_accept xvs xvsa xrw xmiu ns d fl yvr yvra yrw ybuf ymiu yconfs yrq nl g :
  DirInv xvs xvsa xrw xmiu ((ns, d) :: fl) yvr yvra yrw ybuf ymiu yconfs yrq nl g ->
  ns = yvr /\ len d <= ymiu /\ len yrq < ybuf /\
  DirInv xvs xvsa xrw xmiu fl ((yvr + 1) mod 16) yvra yrw ybuf ymiu yconfs (yrq ++ [d]) nl (g_enq g EnqAccepted).
Proof.
  intro H. pose proof (dir_len_flight _ _ _ _ _ _ _ _ _ _ _ _ _ _ H) as Hfl. rewrite len_cons in Hfl.
  pose proof (len_nonneg fl). dir_intro H. subst xvs xvsa yvr yvra.
  cbn [map snd number] in Hnum, Hsz, Hsent. injection Hnum as Hns Hnum'.
  inversion Hsz as [|? ? Hd Hsz']; subst.
  split; [lia|]. split; [assumption|]. split; [lia|].
  unfold DirInv, g_enq; cbn [sent dlv gSA gR gRA lost frmr rterr].
  rewrite len_snoc.
  repeat split; try assumption; try lia.
  rewrite Hsent at 1. rewrite <- !app_assoc. reflexivity.
Qed.

(* Y.recv returns the head of the receive queue *)
Lemma dir_recv xvs xvsa xrw xmiu flight yvr yvra yrw ybuf ymiu yconfs d q nl g :
  DirInv xvs xvsa xrw xmiu flight yvr yvra yrw ybuf ymiu yconfs (d :: q) nl g ->
  yconfs + 1 <= yrw /\
  DirInv xvs xvsa xrw xmiu flight yvr yvra yrw ybuf ymiu (yconfs + 1) q nl (g_dlv g d).
Proof.
  intro H. dir_intro H. subst xvs xvsa yvr yvra. rewrite len_cons in Hrq. pose proof (len_nonneg q).
  split; [lia|].
  unfold DirInv, g_dlv; cbn [sent dlv gSA gR gRA lost frmr rterr].
  rewrite len_snoc.
  repeat split; try assumption; try lia.
  rewrite Hsent at 1. rewrite <- !app_assoc. reflexivity.
Qed.

(* Y puts its receive confirmations into an acknowledgement (RR / RNR / piggy-backed) *)
Lemma dir_ack xvs xvsa xrw xmiu flight yvr yvra yrw ybuf ymiu yconfs yrq nl g n v :
  DirInv xvs xvsa xrw xmiu flight yvr yvra yrw ybuf ymiu yconfs yrq nl g ->
  n = yconfs -> v = (yvra + yconfs) mod 16 ->
  DirInv xvs xvsa xrw xmiu flight yvr v yrw ybuf ymiu 0 yrq (nl ++ [v]) (g_ra g n).
Proof.
  intros H Hn Hv. dir_intro H. subst xvs xvsa yvr yvra n. rewrite Z.add_mod_idemp_l in Hv by discriminate.
  unfold DirInv, g_ra; cbn [sent dlv gSA gR gRA lost frmr rterr].
  repeat split; try assumption; try lia.
  eapply nr_ok_snoc; [exact Hnr| lia | lia | lia].
Qed.

(* Y emits a numbered PDU carrying the unchanged V(RA) *)
Lemma dir_push xvs xvsa xrw xmiu flight yvr yvra yrw ybuf ymiu yconfs yrq nl g n :
  DirInv xvs xvsa xrw xmiu flight yvr yvra yrw ybuf ymiu yconfs yrq nl g ->
  n = 0 ->
  DirInv xvs xvsa xrw xmiu flight yvr yvra yrw ybuf ymiu yconfs yrq (nl ++ [yvra]) (g_ra g n).
Proof.
  intros H Hn. dir_intro H. subst xvs xvsa yvr yvra. subst n.
  unfold DirInv, g_ra; cbn [sent dlv gSA gR gRA lost frmr rterr].
  repeat split; try assumption; try lia.
  eapply nr_ok_snoc; [exact Hnr| lia | lia | lia].
Qed.

(* X processes the first N(R) in flight:  acks = N(R) - V(SA) mod 16 *)
Lemma dir_pop xvs xvsa xrw xmiu flight yvr yvra yrw ybuf ymiu yconfs yrq v nl g n xvsa' :
  DirInv xvs xvsa xrw xmiu flight yvr yvra yrw ybuf ymiu yconfs yrq (v :: nl) g ->
  n = (v - xvsa) mod 16 -> xvsa' = (if (v - xvsa) mod 16 =? 0 then xvsa else v) ->
  DirInv xvs xvsa' xrw xmiu flight yvr yvra yrw ybuf ymiu yconfs yrq nl (g_acked g n).
Proof.
  intros H Hn Hv'. dir_intro H. subst xvs xvsa yvr yvra. rewrite Zminus_mod_idemp_r in Hn, Hv'. subst n xvsa'.
  cbn [nr_ok] in Hnr. destruct Hnr as (Hv & Hn1 & Hn2). pose proof (nr_ok_le _ _ _ Hn2) as Hn3.
  unfold DirInv, g_acked; cbn [sent dlv gSA gR gRA lost frmr rterr].
  repeat split; try assumption; try lia.
  destruct ((v - gSA g) mod 16 =? 0) eqn:E; lia.
Qed.

End Mod16.
