(* C08, Type 3 / Type 4: the readers of Model/TagReadAnyB.v against an ARBITRARY scripted responder return
   no NDEF or an NDEF state whose length does not exceed the capacity and that was read from the data
   area only; never Crash, never Hang; the number of commands is bounded by the size of the data area. *)
From Coq Require Import ZArith List Bool Lia ZifyBool.
From NV Require Import Base.Result Base.Bytes Base.PyPrims Proofs.Chunks Model.IsoDep Model.T3T Model.T4T
  Model.TagAct Model.TagReadAnyB Proofs.T3T Proofs.TagSafeIface.
Import ListNotations.
Open Scope Z_scope.
Ltac Zify.zify_post_hook ::= Z.to_euclidean_division_equations.

(* a run from s to s' that keeps the invariant, puts l in front of the log and adds at most n to the counter *)
Section Step.
  Context {S L : Type} (ok : S -> Prop) (log : S -> list L) (cnt : S -> Z).
  Definition step (n : Z) (l : list L) (s s' : S) : Prop := ok s' /\ log s' = l ++ log s /\ cnt s' <= cnt s + n.
  Lemma step_le n m l s s' : n <= m -> step n l s s' -> step m l s s'.
  Proof. intros Le (O & B & C). repeat split; auto; lia. Qed.
  Lemma step_trans n m k l l' s s1 s2 : step n l s s1 -> step m l' s1 s2 -> n + m <= k -> step k (l' ++ l) s s2.
  Proof. intros (_ & B & C) (O & B' & C') Le. split; [exact O|]. split; [rewrite B', B; apply app_assoc | lia]. Qed.
End Step.
Arguments step_le {S L ok log cnt} n {m l s s'}.
Arguments step_trans {S L ok log cnt n m} k {l l' s s1 s2}.

Definition ax_ok (a : aresult) : Prop := match a with ARx d => bytes_ok d | _ => True end.
Definition air_ok (s : air) : Prop := Forall ax_ok (a_script s).
Definition sent (s : air) : Z := len (a_sent s).

(* from s to s': at most n frames sent, nb the block numbers of the read commands among them (latest first) *)
Definition air_step := step air_ok a_blocks sent.

Lemma air_xchg_ok s f : air_ok s -> ax_ok (fst (air_xchg s f)) /\ air_step 1 [] s (snd (air_xchg s f)).
Proof.
  intro H. unfold air_xchg, air_step, step, air_ok, sent in *. cbn [fst snd a_script a_blocks a_sent app]. rewrite len_cons.
  destruct (a_script s) as [|a r]; cbn [hd_x tl]; [repeat split; auto; lia|]. inversion H; subst. repeat split; auto; lia.
Qed.

(* send_cmd_recv_rsp with k retries; t3_xchg3 is the case k = 2 *)
Fixpoint xchg_n (k : nat) (s : air) (f : list Z) : res (list Z) * air :=
  match air_xchg s f with
  | (ARx r, s1) => (Ok r, s1)
  | (a, s1) => match k with O => (Err (TagCommandError (comm_errno a)), s1) | S k' => xchg_n k' s1 f end
  end.
Lemma xchg_n_ok f : forall k s, air_ok s ->
  exists r s', xchg_n k s f = (r, s') /\ air_step (1 + Z.of_nat k) [] s s' /\ cmd_res bytes_ok r.
Proof.
  induction k as [|k IH]; intros s H; cbn [xchg_n]; destruct (air_xchg_ok s f H) as [A T];
    destruct (air_xchg s f) as [a s1]; cbn [fst snd] in A, T.
  - destruct a; eexists _, _; (split; [reflexivity|]); split; auto; exact I.
  - assert (L : 1 + (1 + Z.of_nat k) <= 1 + Z.of_nat (S k)) by lia.
    destruct (IH s1 (proj1 T)) as (r & s' & E & T' & C).
    destruct a as [d| | |].
    1: { exists (Ok d), s1. split; [reflexivity|]. split; [apply (step_le 1); [lia | exact T] | exact A]. }
    (* no answer: the remaining attempts *)
    all: exists r, s'; (split; [exact E|]); split; [exact (step_trans _ T T' L) | exact C].
Qed.
Lemma t3_xchg3_ok s f : air_ok s -> exists r s', t3_xchg3 s f = (r, s') /\ air_step 3 [] s s' /\ cmd_res bytes_ok r.
Proof. exact (xchg_n_ok f 2 s). Qed.

Lemma t3_rsp_any_ok code si idm rsp : bytes_ok rsp -> cmd_res bytes_ok (t3_rsp_any code si idm rsp).
Proof.
  intro Hb. unfold t3_rsp_any.
  destruct (_ || _); [exact I|]. destruct (negb (_ =? code + 1)); [exact I|].
  destruct (si && _); [exact I|]. destruct (negb si); [exact (bytes_ok_skipn _ _ Hb)|].
  destruct (len rsp <? 12); [exact I|]. destruct (negb _); [exact I | exact (bytes_ok_skipn _ _ Hb)].
Qed.

Lemma t3_dev_read_ok idm s bl : air_ok s -> len idm = 8 -> Forall (fun b => 0 <= b < 65536) bl -> len bl <= 80 ->
  exists r s', t3_dev_read idm s bl = (r, s') /\ air_step 3 (rev bl) s s' /\ cmd_res bytes_ok r.
Proof.
  intros H Hi Hb Hn. unfold t3_dev_read. destruct (rd_frame_ok idm bl Hi Hb Hn) as [f ->].
  destruct (t3_xchg3_ok (air_note s bl) f H) as (r & s' & -> & T & C).
  destruct (cmd_res_inv _ _ C) as [(rsp & -> & Hr) | (e & ->)]; eexists _, s'; (split; [reflexivity|]); (split; [exact T|]); [|exact I].
  apply (cmd_res_bind bytes_ok); [apply t3_rsp_any_ok, Hr|]. intros d Hd.
  destruct (negb _); [exact I | exact (bytes_ok_skipn _ _ Hd)].
Qed.

(* the data block loop: no Hang, no Crash, only blocks 1 .. last-1, at most 3 frames per block *)
Lemma rd_loop_ok idm : forall fuel s i last nbr acc, air_ok s -> len idm = 8 -> 1 <= nbr <= 15 -> 1 <= i -> last <= 65536 ->
  (Z.to_nat (last - i) <= fuel)%nat -> bytes_ok acc ->
  exists o s' nb, rd_loop air (t3_dev_read idm) fuel s i last nbr acc = (Ok o, s') /\
    air_step (3 * Z.max 0 (last - i)) nb s s' /\ Forall (fun b => 1 <= b < last) nb /\ (forall d, o = Some d -> bytes_ok d).
Proof.
  induction fuel as [|f IH]; intros s i last nbr acc H Hi Hn H1 Hl Hf Ha; rewrite rd_loop_eq; destruct (i <? last) eqn:E.
  2, 4: exists (Some acc), s, []; split; [reflexivity|]; split; [repeat split; auto; lia|]; split; [constructor|]; intros d [= <-]; exact Ha.
  - lia.
  - set (bl := zrange i (Z.min (i + nbr) last)).
    destruct (t3_dev_read_ok idm s bl H Hi) as (r & s1 & -> & T & C); [apply Forall_zrange; lia | unfold bl; rewrite zrange_len'; lia |].
    assert (Hnb : Forall (fun b => 1 <= b < last) (rev bl)) by (apply Forall_rev, Forall_zrange; lia).
    destruct (cmd_res_inv _ _ C) as [(d & -> & Hd) | (e & ->)].
    + destruct (IH s1 (i + nbr) last nbr (acc ++ d) (proj1 T) Hi Hn ltac:(lia) Hl ltac:(lia)) as (o & s' & nb & -> & T' & F' & C');
        [apply bytes_ok_app; auto|].
      exists o, s', (nb ++ rev bl). split; [reflexivity|]. split; [apply (step_trans _ T T'); lia|].
      split; [apply Forall_app; auto | exact C'].
    + exists None, s1, (rev bl). split; [reflexivity|]. split; [apply (step_le 3); [lia | exact T]|]. split; [exact Hnb | discriminate].
Qed.

(* what the property demands of a reported NDEF state *)
Definition t3_sound (f : fresh) (blocks : list Z) : Prop :=
  match f with
  | NoNdef => True
  | Ndef _ _ cap d => len d <= cap /\ bytes_ok d /\ Forall (fun b => 0 <= b /\ 16 * b <= cap) blocks
  end.

(* a read that took at most 3 * (k + Nmaxb) frames from s to s' ended safely with r *)
Definition t3_safe (k : Z) (s : air) (r : res fresh) (s' : air) : Prop :=
  exists f nb nmaxb, r = Ok f /\ air_step (3 * (k + nmaxb)) nb s s' /\ t3_sound f nb /\
    0 <= nmaxb <= 65535 /\ (forall r w cap d, f = Ndef r w cap d -> cap = 16 * nmaxb).
Lemma t3_safe_none k m n nb s s' : air_step n nb s s' -> 0 <= m <= 65535 -> n <= 3 * (k + m) -> t3_safe k s (Ok NoNdef) s'.
Proof. intros T Hm L. exists NoNdef, nb, m. repeat split; try apply (step_le n L T); try lia. discriminate. Qed.

Theorem t3_read_with_safe idm s : air_ok s -> len idm = 8 -> exists r s', t3_read_with idm s = (r, s') /\ t3_safe 1 s r s'.
Proof.
  intros H Hi. unfold t3_read_with. rewrite read_attr_eq.
  destruct (t3_dev_read_ok idm s [0] H Hi) as (r & s1 & -> & T & C); [repeat constructor; lia | cbn; lia |].
  assert (No : exists r s', (Ok NoNdef, s1) = (r, s') /\ t3_safe 1 s r s')
    by (eexists _, _; split; [reflexivity|]; apply (t3_safe_none 1 0 _ _ _ _ T); lia).
  destruct (cmd_res_inv _ _ C) as [(d & -> & Hd) | (e & ->)]; [|exact No].
  destruct (attr_parse d) as [a|] eqn:Ea; [|exact No].
  pose proof (attr_parse_ok d a Hd Ea) as (Hv & Hr & Hw & Hm & Hwf & Hrw & Hln).
  destruct (negb (a_ver a / 16 =? 1)); [exact No|].
  destruct (a_nbr a =? 0) eqn:E0; [exact No|].
  destruct (a_ln a >? a_nmaxb a * 16) eqn:E1; [exact No|].
  set (last := 1 + (a_ln a + 15) / 16).
  destruct (rd_loop_ok idm (Z.to_nat last) s1 1 last (Z.min (a_nbr a) 15) [] (proj1 T) Hi ltac:(lia) ltac:(lia) ltac:(unfold last; lia) ltac:(lia))
    as (o & s' & nb & -> & T' & F' & C'); [constructor|].
  assert (T2 : air_step (3 * (1 + a_nmaxb a)) (nb ++ [0]) s s') by (apply (step_trans _ T T'); unfold last; lia).
  destruct o as [dd|]; eexists _, s'; (split; [reflexivity|]); [|apply (t3_safe_none 1 (a_nmaxb a) _ _ _ _ T2); lia].
  eexists _, _, (a_nmaxb a). split; [reflexivity|]. split; [exact T2|]. split.
  - split; [unfold take; pose proof (len_firstn_le (Z.to_nat (a_ln a)) dd); lia|].
    split; [apply bytes_ok_firstn, (C' dd eq_refl)|]. apply Forall_app. split; [|repeat constructor; lia].
    eapply Forall_impl; [|exact F']. cbv beta. unfold last. intros b Hb. lia.
  - split; [lia|]. intros r w cap d0 [= _ _ <- _]. lia.
Qed.

Lemma t3_poll_ok s : air_ok s ->
  exists r s', t3_poll s = (r, s') /\ air_step 3 [] s s' /\ cmd_res (fun p => len (fst p) = 8) r.
Proof.
  intro H. unfold t3_poll. destruct (t3_xchg3_ok s poll_frame H) as (r & s' & -> & T & C).
  destruct (cmd_res_inv _ _ C) as [(rsp & -> & Hr) | (e & ->)]; eexists _, s'; (split; [reflexivity|]); (split; [exact T|]); [|exact I].
  apply (cmd_res_bind bytes_ok); [apply t3_rsp_any_ok, Hr|]. intros d Hd.
  destruct (negb (len d =? 16)) eqn:E; [exact I|]. cbn [cmd_res fst]. unfold take, len in *. rewrite firstn_length. lia.
Qed.

(* tag.ndef of a Type 3 tag object (IDm of 8 bytes, any system code) against any responder *)
Theorem t3_read_safe idm sys s : air_ok s -> len idm = 8 ->
  exists f s' idm' sys' nb nmaxb, t3_read_ndef idm sys s = (Ok f, s', (idm', sys')) /\ air_ok s' /\ len idm' = 8 /\
    a_blocks s' = nb ++ a_blocks s /\ t3_sound f nb /\
    0 <= nmaxb <= 65535 /\ sent s' <= sent s + 3 * (2 + nmaxb) /\ (forall r w cap d, f = Ndef r w cap d -> cap = 16 * nmaxb).
Proof.
  intros H Hi. unfold t3_read_ndef. destruct (sys =? 4860).
  - destruct (t3_read_with_safe idm s H Hi) as (r & s' & -> & f & nb & nm & -> & (O & B & S) & Snd & Hm & Hc).
    exists f, s', idm, sys, nb, nm. repeat split; auto; lia.
  - destruct (t3_poll_ok s H) as (r & s1 & -> & T & C).
    destruct (cmd_res_inv _ _ C) as [([idm' pmm] & -> & Hi') | (e & ->)].
    + destruct (t3_read_with_safe idm' s1 (proj1 T) Hi') as (r & s' & -> & f & nb & nm & -> & T' & Snd & Hm & Hc).
      destruct (step_trans (3 * (2 + nm)) T T') as (O & B & S); [lia|]. rewrite app_nil_r in B.
      exists f, s', idm', 4860, nb, nm. repeat split; auto; lia.
    + destruct T as (O & B & S). exists NoNdef, s1, idm, sys, [], 0. repeat split; auto; try lia. discriminate.
Qed.
(* the code before the repairs: ValueError for Nbr = 0, length 64 > capacity 16 for Ln = 64 with Nmaxb = 1 *)
Definition ex_attr (nbr nmaxb ln : Z) : list Z :=
  let b := [16; nbr; 4; nmaxb / 256; nmaxb mod 256; 0; 0; 0; 0; 0; 1; 0; ln / 256; ln mod 256] in
  b ++ [sum b / 256; sum b mod 256].
Definition ex_idm : list Z := [1; 2; 3; 4; 5; 6; 7; 8].
Definition ex_rsp (blocks : list Z) : aresult := ARx ((13 + len blocks) :: 7 :: ex_idm ++ [0; 0; len blocks / 16] ++ blocks).
Lemma t3_read_legacy_refuted :
  fst (t3_read_with_legacy ex_idm (mkAir [ex_rsp (ex_attr 0 4 10)] [] [])) = Crash RangeStep0 /\
  fst (t3_read_with ex_idm (mkAir [ex_rsp (ex_attr 0 4 10)] [] [])) = Ok NoNdef /\
  (exists d, fst (t3_read_with_legacy ex_idm (mkAir [ex_rsp (ex_attr 4 1 64); ex_rsp (repeat 7 64)] [] [])) = Ok (Ndef true true 16 d) /\ len d = 64) /\
  fst (t3_read_with ex_idm (mkAir [ex_rsp (ex_attr 4 1 64); ex_rsp (repeat 7 64)] [] [])) = Ok NoNdef.
Proof. split; [vm_compute; reflexivity|]. split; [vm_compute; reflexivity|].
  split; [eexists; split; vm_compute; reflexivity | vm_compute; reflexivity]. Qed.

Definition as_ok (a : ares) : Prop := match a with AOk d => bytes_ok d | AFail _ => True end.
Definition chan_ok (c : chan) : Prop := Forall as_ok (c_script c).
Definition napdu (c : chan) : Z := len (c_apdus c).

(* from c to c': at most n APDUs sent, rs the (offset, Le) of the READ BINARY commands among them (latest first) *)
Definition chan_step := step chan_ok c_reads napdu.

Definition note_read (o : op) : list (Z * Z) := match o with RdBin off m => [(off, m)] | _ => [] end.
Lemma t4_send_ok c o : chan_ok c -> (exists a, apdu_of_op o = Ok a) ->
  exists r c', t4_send_any c o = (r, c') /\ chan_step 1 (note_read o) c c' /\ cmd_res bytes_ok r.
Proof.
  intros H [a Ea]. unfold t4_send_any. rewrite Ea. eexists _, _. split; [reflexivity|].
  unfold chan_step, step, chan_ok, napdu in *. cbn [c_script c_apdus c_reads]. rewrite len_cons.
  destruct H as [|x r Hx Hr]; cbn [hd_a tl ares_res].
  - repeat split; [constructor | destruct o; reflexivity | lia].
  - repeat split; [exact Hr | destruct o; reflexivity | lia |]. destruct x as [d|e]; [exact (apdu_finish_ok d Hx) | exact I].
Qed.

(* _read_binary: data of at most max(Le, 0) bytes, or Type4TagCommandError *)
Lemma read_binary_ok c max_le off size : chan_ok c -> 0 <= off <= 65535 -> Z.min max_le size <= 256 ->
  exists r c', read_binary_any c max_le off size = (r, c') /\ chan_step 1 [(off, Z.min max_le size)] c c' /\
    cmd_res (fun d => bytes_ok d /\ len d <= Z.max (Z.min max_le size) 0) r.
Proof.
  intros H Ho Hm. unfold read_binary_any.
  destruct (t4_send_ok c (RdBin off (Z.min max_le size)) H (apdu_rd _ _ Ho Hm)) as (r & c' & -> & T & C).
  destruct (cmd_res_inv _ _ C) as [(d & -> & Hd) | (e & ->)]; cbn [lift_c];
    [destruct (len d >? _) eqn:E|]; eexists _, _; (split; [reflexivity|]); (split; [exact T|]); try exact I.
  split; [exact Hd | lia].
Qed.

Lemma select_fid_ok c p2 fid : chan_ok c -> len fid <= 255 ->
  exists b c', select_fid_any c p2 fid = (Ok b, c') /\ chan_step 1 [] c c'.
Proof.
  intros H Hf. unfold select_fid_any.
  destruct (t4_send_ok c (SelFid p2 fid) H (apdu_sel_fid p2 fid Hf)) as (r & c' & -> & T & C).
  destruct (cmd_res_inv _ _ C) as [(d & -> & _) | (e & ->)]; eexists _, _; (split; [reflexivity | exact T]).
Qed.

Lemma select_app_ok c : chan_ok c -> exists r c', select_app_any c = (r, c') /\ chan_step 2 [] c c'.
Proof.
  intro H. unfold select_app_any.
  destruct (t4_send_ok c (SelAid true) H (apdu_sel_aid true)) as (r & c1 & -> & T & C).
  assert (T1 : chan_step 2 [] c c1) by (apply (step_le 1); [lia | exact T]).
  destruct (cmd_res_inv _ _ C) as [(d & -> & _) | (e & ->)]; [eexists _, _; split; [reflexivity | exact T1]|].
  destruct (e <=? 0); [eexists _, _; split; [reflexivity | exact T1]|].
  destruct (t4_send_ok c1 (SelAid false) (proj1 T) (apdu_sel_aid false)) as (r & c2 & -> & T' & C').
  pose proof (step_trans 2 T T' ltac:(lia)) as T2.
  destruct (cmd_res_inv _ _ C') as [(d & -> & _) | (e2 & ->)]; eexists _, _; (split; [reflexivity | exact T2]).
Qed.

(* the data loop: no Hang, no Crash, every READ BINARY inside [nlen_size, nlen_size + nlen), one byte or more per command *)
Lemma rd_file_any_ok : forall fuel c i nlen acc, chan_ok c -> info_ok i -> len acc <= nlen -> nlen <= i_cap i ->
  (Z.to_nat (nlen - len acc) <= fuel)%nat -> bytes_ok acc ->
  exists r c' rs, rd_file_any fuel c i nlen acc = (r, c') /\ chan_step (nlen - len acc) rs c c' /\
    Forall (fun r => 0 <= fst r /\ fst r + snd r <= i_nlen i + nlen) rs /\
    cmd_res (fun o => forall d, o = Some d -> bytes_ok d /\ len d = nlen) r.
Proof.
  induction fuel as [|f IH]; intros c i nlen acc H Hi Ha Hn Hf Hb; cbn [rd_file_any]; destruct (len acc <? nlen) eqn:E.
  2, 4: exists (Ok (Some acc)), c, []; split; [reflexivity|]; split; [repeat split; auto; lia|]; split; [constructor|];
        intros d [= <-]; split; [exact Hb | lia].
  - lia.
  - pose proof Hi as (Hm & Hns & Hc & Hfid). pose proof (len_nonneg acc) as Hp.
    destruct (read_binary_ok c (i_mle i) (i_nlen i + len acc) (nlen - len acc) H ltac:(lia) ltac:(lia)) as (r & c1 & -> & T & C).
    assert (T1 : chan_step (nlen - len acc) [(i_nlen i + len acc, Z.min (i_mle i) (nlen - len acc))] c c1)
      by (apply (step_le 1); [lia | exact T]).
    assert (Hr : Forall (fun r => 0 <= fst r /\ fst r + snd r <= i_nlen i + nlen) [(i_nlen i + len acc, Z.min (i_mle i) (nlen - len acc))])
      by (repeat constructor; cbn [fst snd]; lia).
    (* the loop ends with this command when it fails or yields no byte *)
    assert (Stop : forall r0, cmd_res (fun o => forall d, o = Some d -> bytes_ok d /\ len d = nlen) r0 ->
      exists r c' rs, (r0, c1) = (r, c') /\ chan_step (nlen - len acc) rs c c' /\
        Forall (fun r => 0 <= fst r /\ fst r + snd r <= i_nlen i + nlen) rs /\
        cmd_res (fun o => forall d, o = Some d -> bytes_ok d /\ len d = nlen) r).
    { intros r0 Hr0. eexists r0, c1, _. split; [reflexivity|]. split; [exact T1|]. split; [exact Hr | exact Hr0]. }
    destruct (cmd_res_inv _ _ C) as [(d & -> & Hd & Hl) | (e & ->)]; cbn [lift_c]; [|apply Stop; exact I].
    destruct (len d =? 0) eqn:E0; [apply Stop; discriminate|].
    pose proof (len_nonneg d).
    destruct (IH c1 i nlen (acc ++ d) (proj1 T) Hi ltac:(rewrite len_app; lia) Hn ltac:(rewrite len_app; lia))
      as (r & c' & rs & -> & T' & F' & C'); [apply bytes_ok_app; auto|].
    eexists r, c', _. split; [reflexivity|]. split; [apply (step_trans _ T T'); rewrite len_app; lia|].
    split; [apply Forall_app; auto | exact C'].
Qed.

Definition t4_sound (f : fresh) (i : ccinfo) (reads : list (Z * Z)) : Prop :=
  match f with
  | NoNdef => True
  | Ndef _ _ cap d => cap = i_cap i /\ len d <= cap /\ bytes_ok d /\
                      Forall (fun r => 0 <= fst r /\ fst r + snd r <= i_nlen i + cap) reads
  end.

Lemma read_with_any_ok c i : chan_ok c -> info_ok i ->
  exists f c' rs, read_with_any c i = (Ok f, c') /\ chan_step (2 + Z.max 0 (i_cap i)) rs c c' /\ t4_sound f i rs.
Proof.
  intros H Hi. unfold read_with_any. pose proof Hi as (Hm & Hns & Hc & Hfid).
  destruct (select_fid_ok c (i_p2 i) (i_fid i) H ltac:(lia)) as (b & c1 & -> & T1).
  destruct b; [|exists NoNdef, c1, []; split; [reflexivity|]; split; [apply (step_le 1); [lia | exact T1] | exact I]].
  destruct (read_binary_ok c1 (i_mle i) 0 (i_nlen i) (proj1 T1) ltac:(lia) ltac:(lia)) as (r & c2 & -> & T & C).
  pose proof (step_trans 2 T1 T ltac:(lia)) as T2.
  assert (No : exists f c' rs, (Ok NoNdef, c2) = (Ok f, c') /\ chan_step (2 + Z.max 0 (i_cap i)) rs c c' /\ t4_sound f i rs).
  { eexists NoNdef, c2, _. split; [reflexivity|]. split; [apply (step_le 2); [lia | exact T2] | exact I]. }
  destruct (cmd_res_inv _ _ C) as [(nl & -> & Hnl & Hl) | (e & ->)]; cbn [lift_c]; [|exact No].
  destruct (negb (len nl =? i_nlen i)) eqn:El; [exact No|]. destruct (be nl >? i_cap i) eqn:Ecap; [exact No|].
  pose proof (be_nonneg nl Hnl) as Hbe.
  destruct (rd_file_any_ok (Z.to_nat (be nl)) c2 i (be nl) [] (proj1 T) Hi ltac:(cbn; lia) ltac:(lia) ltac:(cbn; lia) ltac:(constructor))
    as (r & c3 & rs & -> & T' & F3 & C3).
  change (len (@nil Z)) with 0 in T'.
  pose proof (step_trans (2 + Z.max 0 (i_cap i)) T2 T' ltac:(lia)) as T3.
  destruct (cmd_res_inv _ _ C3) as [([d|] & -> & Hd) | (e & ->)]; eexists _, c3, _; (split; [reflexivity|]); (split; [exact T3|]); try exact I.
  destruct (Hd d eq_refl) as [Hdb Hdl]. split; [reflexivity|]. split; [lia|]. split; [exact Hdb|].
  apply Forall_app. split; [eapply Forall_impl; [|exact F3]; cbv beta; intros r0 Hr0; lia | repeat constructor; cbn [fst snd]; lia].
Qed.
Theorem read_with_any_safe c i : chan_ok c -> info_ok i ->
  exists f c' rs, read_with_any c i = (Ok f, c') /\ chan_ok c' /\ c_reads c' = rs ++ c_reads c /\ t4_sound f i rs /\
    napdu c' <= napdu c + 2 + Z.max 0 (i_cap i).
Proof.
  intros H Hi. destruct (read_with_any_ok c i H Hi) as (f & c' & rs & E & (O & R & N) & S).
  exists f, c', rs. repeat split; auto; lia.
Qed.

(* capability container discovery: information that is usable, or none; never Crash *)
Lemma discover_any_ok c : chan_ok c ->
  exists r c' rs, discover_any c = (r, c') /\ chan_step 5 rs c c' /\ cmd_res (fun o => forall i, o = Some i -> info_ok i) r.
Proof.
  intro H. unfold discover_any.
  assert (Ex : forall n rs r c', chan_step n rs c c' -> n <= 5 -> cmd_res (fun o => forall i, o = Some i -> info_ok i) r ->
            exists r0 c0 rs0, (r, c') = (r0, c0) /\ chan_step 5 rs0 c c0 /\ cmd_res (fun o => forall i, o = Some i -> info_ok i) r0).
  { intros n rs r c' T L C. exists r, c', rs. split; [reflexivity|]. split; [exact (step_le n L T) | exact C]. }
  destruct (select_app_ok c H) as (r1 & c1 & -> & T1).
  destruct r1 as [p2|]; [|apply (Ex _ _ _ _ T1); [lia | discriminate]].
  destruct (select_fid_ok c1 p2 cc_fid (proj1 T1) ltac:(cbn; lia)) as (b & c2 & -> & T).
  pose proof (step_trans 3 T1 T ltac:(lia)) as T2. clear T.
  destruct b; [|apply (Ex _ _ _ _ T2); [lia | discriminate]].
  destruct (read_binary_ok c2 15 0 2 (proj1 T2) ltac:(lia) ltac:(lia)) as (r & c3 & -> & T & C).
  pose proof (step_trans 4 T2 T ltac:(lia)) as T3. clear T.
  destruct (cmd_res_inv _ _ C) as [(cclen & -> & Hcl & _) | (e & ->)]; cbn [lift_c]; [|apply (Ex _ _ _ _ T3); [lia | exact I]].
  destruct (negb (len cclen =? 2)); [apply (Ex _ _ _ _ T3); [lia | discriminate]|].
  destruct (read_binary_ok c3 15 2 (Z.min (be cclen - 2) 15) (proj1 T3) ltac:(lia) ltac:(lia)) as (r & c4 & -> & T & C4).
  pose proof (step_trans 5 T3 T ltac:(lia)) as T4. clear T.
  destruct (cmd_res_inv _ _ C4) as [(cap & -> & Hcap & Hlc) | (e & ->)]; cbn [lift_c]; [|apply (Ex _ _ _ _ T4); [lia | exact I]].
  destruct (len cap <? 13); [apply (Ex _ _ _ _ T4); [lia | discriminate]|].
  replace (len cap >? 15) with false by lia. apply (Ex _ _ _ _ T4); [lia|]. intros i E. exact (cc_parse_ok _ _ _ E).
Qed.

(* tag.ndef of a Type 4 tag object against ANY card behaviour above the ISO-DEP layer *)
Theorem t4_read_safe c : chan_ok c -> c_reads c = [] ->
  exists f oi c', t4_read_any c = (Ok (f, oi), c') /\ chan_ok c' /\
    match f, oi with
    | NoNdef, _ => True
    | Ndef _ _ cap d, Some i => info_ok i /\ cap = i_cap i /\ len d <= cap /\ bytes_ok d
    | Ndef _ _ _ _, None => False
    end /\
    napdu c' <= napdu c + 7 + Z.max 0 (match oi with Some i => i_cap i | None => 0 end).
Proof.
  intros H _. unfold t4_read_any.
  destruct (discover_any_ok c H) as (r & c1 & rs1 & -> & T1 & C).
  destruct (cmd_res_inv _ _ C) as [([i|] & -> & Hi) | (e & ->)];
    [| exists NoNdef, None, c1; destruct T1 as (O & _ & N); repeat split; auto; lia ..].
  destruct (read_with_any_ok c1 i (proj1 T1) (Hi i eq_refl)) as (f & c2 & rs & -> & T2 & S2).
  destruct (step_trans (7 + Z.max 0 (i_cap i)) T1 T2) as (O & _ & N); [lia|].
  exists f, (Some i), c2. split; [reflexivity|]. split; [exact O|]. split; [|lia].
  destruct f as [|r w cap d]; [exact I|]. destruct S2 as (-> & Hl & Hd & _). auto.
Qed.

(* the code before the repairs: a card that answers every READ BINARY of the NDEF file with 9000 and no data keeps the
   reader busy for as long as it answers (here: all 4097 reads the fuel allows); NLEN beyond the declared file size
   is reported as it is, length 64 > capacity 14 *)
Definition ex_info (mfs : Z) : ccinfo := mkInfo 59 52 (mfs - 2) true true 2 [225; 4] 12.

(* an answer without data leaves acc as it is, so the loop uses up whatever fuel the script covers *)
Lemma rd_file_legacy_hang i nlen acc : len acc < nlen -> 0 <= i_nlen i + len acc <= 65535 -> i_mle i <= 256 ->
  forall fuel n apdus reads, (fuel <= n)%nat ->
  fst (rd_file_legacy fuel (mkChan (repeat (AOk [144; 0]) n) apdus reads) i nlen acc) = Hang.
Proof.
  intros Ha Ho Hm. destruct (apdu_rd (i_nlen i + len acc) (Z.min (i_mle i) (nlen - len acc)) Ho ltac:(lia)) as [a Ea].
  induction fuel as [|f IH]; intros n apdus reads Hn; cbn [rd_file_legacy]; replace (len acc <? nlen) with true by lia; [reflexivity|].
  destruct n as [|n]; [lia|]. unfold t4_send_any. rewrite Ea. cbn [repeat c_script hd_a tl ares_res].
  change (apdu_finish true (Ok [144; 0])) with (@Ok (list Z) []). cbn [lift_c]. rewrite app_nil_r. apply IH. lia.
Qed.
Lemma read_with_legacy_hang n : 4097 <= Z.of_nat n ->
  fst (read_with_legacy (mkChan ([AOk [144; 0]; AOk [16; 0; 144; 0]] ++ repeat (AOk [144; 0]) n) [] []) (ex_info 256)) = Hang.
Proof.
  intro Hn. cbn -[rd_file_legacy repeat Z.to_nat].
  destruct (rd_file_legacy _ _ _ _ _) as [r c'] eqn:E. apply (f_equal fst) in E.
  rewrite rd_file_legacy_hang in E; [cbn [fst] in E; subst r; reflexivity | cbn; lia ..].
Qed.

Lemma t4_read_legacy_refuted :
  fst (read_with_legacy (mkChan ([AOk [144; 0]; AOk [16; 0; 144; 0]] ++ repeat (AOk [144; 0]) 4200) [] []) (ex_info 256)) = Hang /\
  fst (read_with_any (mkChan ([AOk [144; 0]; AOk [16; 0; 144; 0]] ++ repeat (AOk [144; 0]) 4200) [] []) (ex_info 256)) = Ok NoNdef /\
  (exists d, fst (read_with_legacy (mkChan [AOk [144; 0]; AOk [0; 64; 144; 0]; AOk (repeat 7 59 ++ [144; 0]); AOk (repeat 7 5 ++ [144; 0])] [] [])
                                   (ex_info 16)) = Ok (Ndef true true 14 d) /\ len d = 64) /\
  fst (read_with_any (mkChan [AOk [144; 0]; AOk [0; 64; 144; 0]; AOk (repeat 7 59 ++ [144; 0]); AOk (repeat 7 5 ++ [144; 0])] [] [])
                     (ex_info 16)) = Ok NoNdef.
Proof.
  split; [apply read_with_legacy_hang, Zle_bool_imp_le; reflexivity|]. split; [vm_compute; reflexivity|].
  split; [eexists; split; vm_compute; reflexivity | vm_compute; reflexivity].
Qed.
