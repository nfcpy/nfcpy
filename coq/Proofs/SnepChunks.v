(* C06 - slicing a byte string into MIU sized fragments (chunks), take/drop facts and the
   4-byte big-endian length field. *)
From Coq Require Import ZArith List Bool Lia ZifyBool.
From NV Require Import Base.Result Base.Bytes Base.PyPrims Model.Snep.
Import ListNotations.
Open Scope Z_scope.
Local Ltac Zify.zify_post_hook ::= Z.to_euclidean_division_equations.

Lemma chunks_f_concat {A} (n : nat) : (0 < n)%nat -> forall fuel (l : list A),
  (length l <= fuel)%nat -> concat (chunks_f fuel n l) = l.
Proof.
  intros Hn. induction fuel as [|f IH]; intros l Hl.
  - destruct l; [reflexivity | cbn in Hl; lia].
  - destruct l as [|x l]; [reflexivity|].
    cbn [chunks_f concat]. rewrite IH.
    + apply firstn_skipn.
    + rewrite skipn_length. cbn [length] in *. lia.
Qed.

Lemma chunks_f_nonempty {A} (n : nat) : (0 < n)%nat -> forall fuel (l : list A),
  Forall (fun c => c <> []) (chunks_f fuel n l).
Proof.
  intros Hn. induction fuel as [|f IH]; intros l; [constructor|].
  destruct l as [|x l]; [constructor|]. cbn [chunks_f]. constructor; [|apply IH].
  destruct n; [lia|]. cbn [firstn]. discriminate.
Qed.

Lemma chunks_f_le {A} (n : nat) : forall fuel (l : list A),
  Forall (fun c => (length c <= n)%nat) (chunks_f fuel n l).
Proof.
  induction fuel as [|f IH]; intros l; [constructor|].
  destruct l as [|x l]; [constructor|]. cbn [chunks_f]. constructor; [|apply IH].
  apply firstn_le_length.
Qed.

Lemma chunks_concat {A} miu (l : list A) : 1 <= miu -> concat (chunks miu l) = l.
Proof. intro H. unfold chunks. apply chunks_f_concat; lia. Qed.
Lemma chunks_nonempty {A} miu (l : list A) : 1 <= miu -> Forall (fun c => c <> []) (chunks miu l).
Proof. intro H. unfold chunks. apply chunks_f_nonempty; lia. Qed.
Lemma chunks_le {A} miu (l : list A) : 0 <= miu -> Forall (fun c => len c <= miu) (chunks miu l).
Proof.
  intro H. unfold chunks. eapply Forall_impl; [|apply chunks_f_le].
  intros c Hc. cbv beta in Hc. unfold len. lia.
Qed.
Lemma chunks_nil {A} miu : chunks miu (@nil A) = [].
Proof. reflexivity. Qed.
Lemma chunks_eq_nil {A} miu (l : list A) : chunks miu l = [] -> l = [].
Proof. unfold chunks. destruct l; [reflexivity|]. cbn [length chunks_f]. discriminate. Qed.
Lemma chunks_small {A} miu (l : list A) : l <> [] -> len l <= miu -> chunks miu l = [l].
Proof.
  intros Hne Hl. unfold chunks. destruct l as [|x l]; [congruence|].
  cbn [length chunks_f]. unfold len in Hl.
  rewrite firstn_all2 by lia. rewrite skipn_all2 by lia.
  destruct (length l); reflexivity.
Qed.

Lemma take_app_ge {A} n (a b : list A) : len a <= n -> take n (a ++ b) = a ++ take (n - len a) b.
Proof.
  intro H. unfold take, len in *. rewrite firstn_app.
  rewrite firstn_all2 by lia. f_equal. f_equal. lia.
Qed.
Lemma drop_nonempty {A} n (l : list A) : 0 <= n < len l -> drop n l <> [].
Proof.
  intros H E. apply (f_equal (@length A)) in E. unfold drop, len in *.
  rewrite skipn_length in E. cbn in E. lia.
Qed.
Lemma len6 {A} (a b c d e f : A) r : len (a :: b :: c :: d :: e :: f :: r) = 6 + len r.
Proof. rewrite !len_cons. lia. Qed.
Lemma len_concat_nonempty {A} (fs : list (list A)) :
  Forall (fun c => c <> []) fs -> fs <> [] -> 0 < len (concat fs).
Proof.
  intros HF Hne. destruct fs as [|f fs]; [congruence|]. inversion HF as [|? ? Hf _]; subst.
  cbn [concat]. rewrite len_app. pose proof (len_nonneg (concat fs)). pose proof (len_pos f Hf). lia.
Qed.

(* what send_request and respond keep for after the Continue: the message beyond its first miu
   octets, in fragments *)
Lemma rest_fragments {A} miu (m : list A) : 1 <= miu -> miu < len m ->
  let rest := chunks miu (drop miu m) in
  Forall (fun c => c <> []) rest /\ rest <> [] /\ m = take miu m ++ concat rest /\
  Forall (fun c => len c <= miu) rest.
Proof.
  intros H Hlt rest. split; [apply chunks_nonempty; exact H|]. split; [|split; [|apply chunks_le; lia]].
  - intro E. apply chunks_eq_nil in E. revert E. apply drop_nonempty. lia.
  - unfold rest. rewrite chunks_concat by exact H. symmetry. apply take_drop.
Qed.

Lemma unbe32_be32 n : 0 <= n <= 4294967295 ->
  unbe32 (n / 16777216 mod 256) (n / 65536 mod 256) (n / 256 mod 256) (n mod 256) = n.
Proof. intro H. unfold unbe32. lia. Qed.

Lemma pack_L_ok n : 0 <= n <= 4294967295 -> pack_L n = Ok (be32 n).
Proof. intro H. unfold pack_L. replace ((0 <=? n) && (n <=? 4294967295)) with true by lia. reflexivity. Qed.
