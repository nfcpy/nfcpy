(* ISO-DEP reader (all three repairs) against an ARBITRARY responder: the n-th clf.exchange
   yields [s n], whatever was sent.  The only ways a responder can keep the reader busy are the
   ones the standard gives a card: S(WTX) requests and chained response blocks ("wild" answers).
   If the responder uses at most W of them, the exchange ends within (C+1)*(|cmd|+W+2) + C rounds,
   C = max(n_nak, n_ack) + 2.  (Recorded for C08: a tag cannot make the reader loop.) *)
From Coq Require Import ZArith List Bool Lia ZifyBool.
From NV Require Import Base.Result Base.Bytes Model.IsoDep Proofs.IsoDep.
Import ListNotations.
Open Scope Z_scope.

Definition wildb (a : aresult) : bool :=
  match a with ARx (b0 :: _) => is_wtx b0 || negb (Z.land b0 16 =? 0) | _ => false end.
Fixpoint wild (s : nat -> aresult) (n : nat) : Z :=
  match n with O => 0 | S m => wild s m + (if wildb (s m) then 1 else 0) end.

(* the shapes of a step of the reader with S(WTX) handled inside both loops: what [pcd_absorb] makes of a phase.
   Only an answer the responder may give any number of times ([wildb]) leaves the retry counter where it is or
   starts the response loop. *)
Inductive step_kind (k : cfg) (cmd : bytes) (a : aresult) : phase -> phase -> Prop :=
| K_send_retry off i d d' : (fix_rack k = true -> i <= n_nak k + 1) -> step_kind k cmd a (PSend off i d) (PSend off (i + 1) d')
| K_send_wtx off i d d' : wildb a = true -> step_kind k cmd a (PSend off i d) (PSend off i d')
| K_send_next off i d d' : miu k < len cmd - off -> step_kind k cmd a (PSend off i d) (PSend (off + miu k) 1 d')
| K_send_recv off i d d' rsp : wildb a = true -> step_kind k cmd a (PSend off i d) (PRecv 1 d' rsp)
| K_recv_retry i d d' rsp : i <= n_ack k -> step_kind k cmd a (PRecv i d rsp) (PRecv (i + 1) d' rsp)
| K_recv_wtx i d d' rsp : wildb a = true -> step_kind k cmd a (PRecv i d rsp) (PRecv i d' rsp)
| K_recv_next i d d' rsp rsp' : wildb a = true -> step_kind k cmd a (PRecv i d rsp) (PRecv 1 d' rsp')
| K_ok f r : step_kind k cmd a f (PDone (Ok r))
| K_err f e : step_kind k cmd a f (tagerr e).

Lemma idx1_nil (b0 : Z) : idx [b0] 1 = Crash IndexErr.
Proof. reflexivity. Qed.

Section Kind.
Variable k : cfg.
Variable cmd : bytes.
Hypothesis Hf1 : fix_wtx_try k = true.
Hypothesis Hf2 : fix_wtx_chain k = true.

Lemma absorb_send_kind pn off i d a :
  step_kind k cmd a (PSend off i d) (ph (pcd_absorb k cmd (mkp pn (PSend off i d)) a)).
Proof.
  assert (He : forall e, step_kind k cmd a (PSend off i d) (ph (send_error k pn off i e))).
  { intro e. unfold send_error. cbn [ph]. destruct (i <=? n_nak k) eqn:E; [apply K_send_retry; lia | apply K_err]. }
  unfold pcd_absorb. cbn [ph pni mkp]. destruct a as [x | | |]; [| apply He | apply He | apply K_err].
  destruct x as [|b0 inf]; [apply He|]. rewrite len_cons_eqb0, idx0, Hf1.
  destruct (is_wtx b0) eqn:Ew.
  - destruct inf as [|b1 inf]; [apply K_err|]. unfold on_idx. rewrite idx1.
    destruct (len (b0 :: b1 :: inf) <? 2); [apply K_err | apply K_send_wtx; cbn [wildb]; rewrite Ew; reflexivity].
  - destruct (is_rack_other pn b0 && _) eqn:Er; [apply K_send_retry; destruct (fix_rack k); [lia | discriminate]|].
    unfold after_wtx. destruct (negb (Z.land b0 1 =? pn)); [apply K_err|].
    destruct (more_at k cmd off) eqn:Em.
    + destruct (Z.land b0 254 =? 162); [apply K_send_next; unfold more_at in Em; lia | apply K_err].
    + destruct (Z.land b0 238 =? 2); [|apply K_err]. unfold recv_check. cbn [ph].
      destruct (negb (Z.land b0 16 =? 0)) eqn:Ec; [apply K_send_recv; cbn [wildb]; rewrite Ec; apply orb_true_r | apply K_ok].
Qed.

Lemma absorb_recv_kind pn i d rsp a :
  step_kind k cmd a (PRecv i d rsp) (ph (pcd_absorb k cmd (mkp pn (PRecv i d rsp)) a)).
Proof.
  assert (He : forall e, step_kind k cmd a (PRecv i d rsp) (ph (recv_error k pn i e rsp))).
  { intro e. unfold recv_error. cbn [ph]. destruct (i <=? n_ack k) eqn:E; [apply K_recv_retry; lia | apply K_err]. }
  unfold pcd_absorb. cbn [ph pni mkp]. destruct a as [x | | |]; [| apply He | apply He | apply K_err].
  destruct x as [|b0 inf]; [apply He|]. rewrite len_cons_eqb0, idx0, Hf2. cbn [andb].
  destruct (is_wtx b0) eqn:Ew.
  - destruct inf as [|b1 inf]; [apply K_err|]. unfold on_idx. rewrite idx1.
    destruct (len (b0 :: b1 :: inf) <? 2); [apply K_err | apply K_recv_wtx; cbn [wildb]; rewrite Ew; reflexivity].
  - destruct (negb (Z.land b0 1 =? pn)); [apply K_err|]. unfold recv_check. cbn [ph].
    destruct (negb (Z.land b0 16 =? 0)) eqn:Ec; [apply K_recv_next; cbn [wildb]; rewrite Ec; apply orb_true_r | apply K_ok].
Qed.
End Kind.

Lemma run_stream_done fuel k cmd p s n r : ph p = PDone r -> run_stream fuel k cmd p s n = r.
Proof. intro H. destruct fuel; cbn [run_stream]; rewrite H; reflexivity. Qed.
Lemma run_stream_step fuel k cmd p s n : is_done p = false ->
  run_stream fuel k cmd p s n =
  match fuel with O => Hang | S f => run_stream f k cmd (pcd_absorb k cmd p (s n)) s (S n) end.
Proof. unfold is_done. intro H. destruct fuel; cbn [run_stream]; destruct (ph p); try discriminate; reflexivity. Qed.

Section Stream.
Variable k : cfg.
Variable cmd : bytes.
Hypothesis Hf1 : fix_wtx_try k = true.
Hypothesis Hf2 : fix_wtx_chain k = true.
Hypothesis Hf3 : fix_rack k = true.
Hypothesis Hmiu : 0 < miu k.
Hypothesis Hn1 : 0 <= n_nak k.
Hypothesis Hn2 : 0 <= n_ack k.

Definition CC : Z := Z.max (n_nak k) (n_ack k) + 2.
(* the measure: the position (command bytes still to send + 2 + wild answers the responder may still give) weighs
   CC + 1, the retry counter the rest *)
Definition pos (w : Z) (p : pcd) : Z :=
  match ph p with PSend off _ _ => Z.max 0 (len cmd - off) + 2 + w | PRecv _ _ _ => w | _ => 0 end.
Definition cnt (p : pcd) : Z :=
  match ph p with PSend _ i _ => Z.max 0 (CC - i) | PRecv i _ _ => Z.max 0 (CC - i) + 1 | _ => 0 end.
Definition MM (w : Z) (p : pcd) : Z := (CC + 1) * pos w p + cnt p.
Definition okph (p : pcd) : Prop := match ph p with PWtx _ _ => False | PDone Hang => False | _ => True end.

Lemma MM_le A A' j j' : A' <= A -> (A' = A -> j' + 1 <= j) -> j' <= j + CC ->
  (CC + 1) * A' + j' + 1 <= (CC + 1) * A + j.
Proof.
  intros H1 H2 H3. destruct (Z.eq_dec A' A) as [-> | Hne]; [specialize (H2 eq_refl); lia|].
  assert ((CC + 1) * (A' + 1) <= (CC + 1) * A) by (apply Z.mul_le_mono_nonneg_l; unfold CC; lia). lia.
Qed.

Lemma MM_pos w p : okph p -> is_done p = false -> 0 <= w -> 1 <= MM w p.
Proof.
  intros Ho Hd Hw. pose proof (MM_le (pos w p) 0 (cnt p) 0) as H. revert Ho Hd H.
  unfold okph, is_done, MM, pos, cnt, CC. destruct (ph p); intros Ho Hd H; try discriminate; try contradiction; lia.
Qed.

Lemma kind_okph a f f' pn : step_kind k cmd a f f' -> okph (mkp pn f').
Proof. destruct 1; exact I. Qed.

Lemma kind_MM a f f' pn pn' w w' : step_kind k cmd a f f' -> okph (mkp pn f) -> is_done (mkp pn f) = false ->
  0 <= w' -> w' <= w -> (wildb a = true -> w' + 1 <= w) -> MM w' (mkp pn' f') + 1 <= MM w (mkp pn f).
Proof.
  intros H Ho Hd Hw' Hle Hwild.
  destruct H as [off i d d' Hi | off i d d' Hwa | off i d d' Hm | off i d d' rsp Hwa
                | i d d' rsp Hi | i d d' rsp Hwa | i d d' rsp rsp' Hwa | f r | f e].
  (* a retry keeps the position and counts; a wild answer lowers w; the next command block lowers the position *)
  1: specialize (Hi Hf3).
  2,4,6,7: specialize (Hwild Hwa).
  1-7: unfold MM; apply MM_le; unfold pos, cnt, CC; cbn [ph mkp]; lia.
  (* the exchange is over: the measure is 0, and it was positive *)
  all: pose proof (MM_pos w (mkp pn f) Ho Hd ltac:(lia)); unfold MM at 1, pos, cnt; cbn [ph mkp tagerr]; lia.
Qed.

Lemma absorb_MM p a w w' : okph p -> is_done p = false -> 0 <= w' -> w' <= w ->
  (wildb a = true -> w' + 1 <= w) ->
  let p' := pcd_absorb k cmd p a in okph p' /\ MM w' p' + 1 <= MM w p.
Proof.
  intros Ho Hd Hw' Hle Hwild. cbv zeta. destruct p as [pn f]. unfold okph in Ho. cbn [ph] in Ho.
  assert (Hk : step_kind k cmd a f (ph (pcd_absorb k cmd (mkp pn f) a)))
    by (destruct f; try contradiction; try discriminate; [apply absorb_send_kind | apply absorb_recv_kind]; assumption).
  change {| pni := pn; ph := f |} with (mkp pn f). destruct (pcd_absorb k cmd (mkp pn f) a) as [pn' f']. cbn [ph] in Hk.
  split; [exact (kind_okph a f f' pn' Hk) | exact (kind_MM a f f' pn pn' w w' Hk Ho Hd Hw' Hle Hwild)].
Qed.

Lemma stream_done_ok fuel p s n : okph p -> is_done p = true -> run_stream fuel k cmd p s n <> Hang.
Proof.
  intros Ho Hd. destruct (is_done_inv p Hd) as [r Hr]. rewrite (run_stream_done _ _ _ _ _ _ r Hr).
  unfold okph in Ho. rewrite Hr in Ho. intros ->. exact Ho.
Qed.

Lemma run_stream_bound fuel : forall p s n w, okph p -> 0 <= w ->
  (forall m, wild s (n + m) <= wild s n + w) -> MM w p <= Z.of_nat fuel ->
  run_stream fuel k cmd p s n <> Hang.
Proof.
  induction fuel as [|f IH]; intros p s n w Ho Hw Hwild HM;
    (destruct (is_done p) eqn:Hd; [exact (stream_done_ok _ p s n Ho Hd) | rewrite run_stream_step by exact Hd]).
  - pose proof (MM_pos w p Ho Hd Hw). lia.
  -     pose proof (Hwild 1%nat) as H1. rewrite Nat.add_1_r in H1. cbn [wild] in H1.
    set (w' := w - (if wildb (s n) then 1 else 0)).
    assert (Hw' : 0 <= w' /\ w' <= w /\ (wildb (s n) = true -> w' + 1 <= w)) by (subst w'; destruct (wildb (s n)); lia).
    destruct (absorb_MM p (s n) w w' Ho Hd) as [Ho' HM']; try apply Hw'.
    apply (IH _ s (S n) w'); [assumption | apply Hw' | | lia].
    intro m. specialize (Hwild (S m)). rewrite Nat.add_succ_r in Hwild. cbn [wild Nat.add] in *. subst w'. lia.
Qed.

Theorem stream_terminates pn s W fuel : 0 < len cmd -> (forall N, wild s N <= W) ->
  (CC + 1) * (len cmd + 2 + W) + CC <= Z.of_nat fuel ->
  run_stream fuel k cmd (pcd_start k cmd pn) s 0 <> Hang.
Proof.
  intros Hc HW Hf. pose proof (HW 0%nat) as HW0. cbn [wild] in HW0. rewrite pcd_start_eq by assumption.
  apply (run_stream_bound fuel _ s 0%nat W); [exact I | assumption | |].
  - intro m. cbn [wild Nat.add]. specialize (HW m). lia.
  - unfold MM, pos, cnt. cbn [ph mkp]. rewrite Z.sub_0_r, Z.max_r by lia. unfold CC in *. lia.
Qed.
End Stream.
