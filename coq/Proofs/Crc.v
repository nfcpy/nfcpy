(* The bit-serial CRC step of calculate_crc equals the byte-wise UpdateCrc of ISO/IEC 14443-3 Annex B.
   Both are xor-linear in (register, octet), so both have the table-driven form
       step r o = (r >> 8) xor T ((r xor o) land 255),   T l = step l 0,
   and only the 256 entries of T are compared by evaluation. *)
From Coq Require Import ZArith List Bool Lia.
From NV Require Import Base.Result Base.Bytes Base.Sweep Model.Crc.
Import ListNotations.
Open Scope Z_scope.

Lemma land_lxor_distr_l a b c : Z.land (Z.lxor a b) c = Z.lxor (Z.land a c) (Z.land b c).
Proof. apply Z.bits_inj'. intros n Hn. rewrite !Z.land_spec, !Z.lxor_spec, !Z.land_spec.
  destruct (Z.testbit a n), (Z.testbit b n), (Z.testbit c n); reflexivity. Qed.

Lemma lxor_swap4 a b c d : Z.lxor (Z.lxor a b) (Z.lxor c d) = Z.lxor (Z.lxor a c) (Z.lxor b d).
Proof. rewrite !Z.lxor_assoc. f_equal. rewrite <- !Z.lxor_assoc. f_equal. apply Z.lxor_comm. Qed.

Lemma lxor_ldiff_land a b : Z.lxor (Z.ldiff a b) (Z.land a b) = a.
Proof. apply Z.bits_inj'. intros n Hn. rewrite Z.lxor_spec, Z.ldiff_spec, Z.land_spec.
  destruct (Z.testbit a n), (Z.testbit b n); reflexivity. Qed.

Lemma land_mask x k m : 0 <= k -> m = Z.ones k -> Z.land x m = x mod 2 ^ k.
Proof. intros Hk ->. apply Z.land_ones, Hk. Qed.

Lemma land1_cases x : Z.land x 1 = 0 \/ Z.land x 1 = 1.
Proof. rewrite (land_mask x 1 1) by easy. pose proof (Z.mod_pos_bound x (2 ^ 1)). lia. Qed.

Lemma land1_shiftl1 x : Z.land (Z.shiftl x 1) 1 = 0.
Proof. rewrite (land_mask _ 1 1), Z.shiftl_mul_pow2 by easy. apply Z.mod_mul. lia. Qed.

Lemma land255_range x : 0 <= Z.land x 255 < 256.
Proof. rewrite (land_mask x 8 255) by easy. apply Z.mod_pos_bound. reflexivity. Qed.

Lemma land65535_range x : 0 <= Z.land x 65535 < 65536.
Proof. rewrite (land_mask x 16 65535) by easy. apply Z.mod_pos_bound. reflexivity. Qed.

Lemma land255_small x : 0 <= x < 256 -> Z.land x 255 = x.
Proof. intro H. rewrite (land_mask x 8 255) by easy. apply Z.mod_small, H. Qed.

Lemma shiftr8_small x : 0 <= x < 256 -> Z.shiftr x 8 = 0.
Proof. intro H. rewrite Z.shiftr_div_pow2 by lia. apply Z.div_small, H. Qed.

Lemma crc_bit_eq r o pos :
  crc_bit r o pos =
  Z.lxor (Z.shiftr r 1) (if Z.land (Z.lxor r (Z.shiftr o pos)) 1 =? 0 then 0 else 0x8408).
Proof.
  unfold crc_bit. rewrite (land_lxor_distr_l r (Z.shiftr o pos)), land_lxor_distr_l, <- Z.land_assoc.
  change (Z.land 1 1) with 1. destruct (_ =? 0); [symmetry; apply Z.lxor_0_r | reflexivity].
Qed.

Lemma crc_bit_lxor a b o p pos :
  crc_bit (Z.lxor a b) (Z.lxor o p) pos = Z.lxor (crc_bit a o pos) (crc_bit b p pos).
Proof.
  rewrite !crc_bit_eq, !Z.shiftr_lxor, (lxor_swap4 a b), land_lxor_distr_l, lxor_swap4. f_equal.
  destruct (land1_cases (Z.lxor a (Z.shiftr o pos))) as [-> | ->],
           (land1_cases (Z.lxor b (Z.shiftr p pos))) as [-> | ->]; reflexivity.
Qed.

Lemma crc_steps_lxor n : forall pos a b o p,
  crc_steps n pos (Z.lxor o p) (Z.lxor a b) = Z.lxor (crc_steps n pos o a) (crc_steps n pos p b).
Proof.
  induction n as [|n IH]; intros; cbn [crc_steps]; [reflexivity|]. rewrite crc_bit_lxor. apply IH.
Qed.

(* no feedback: the register is only shifted *)
Lemma crc_bit_shift r o pos : Z.land (Z.lxor r (Z.shiftr o pos)) 1 = 0 -> crc_bit r o pos = Z.shiftr r 1.
Proof. intro H. rewrite crc_bit_eq, H. apply Z.lxor_0_r. Qed.

Lemma crc_bit_zero_pos r p q : crc_bit r 0 p = crc_bit r 0 q.
Proof. unfold crc_bit. rewrite !Z.shiftr_0_l. reflexivity. Qed.

(* a register equal to the rest of the octet stays so *)
Lemma crc_steps_same n : forall pos o,
  crc_steps n pos o (Z.shiftr o pos) = Z.shiftr o (pos + Z.of_nat n).
Proof.
  induction n as [|n IH]; intros pos o; cbn [crc_steps].
  - rewrite Z.add_0_r. reflexivity.
  - rewrite crc_bit_shift by (rewrite Z.lxor_nilpotent; reflexivity).
    rewrite Z.shiftr_shiftr, IH by lia. f_equal. lia.
Qed.

(* n zero bits at the bottom of the register are shifted out *)
Lemma crc_steps_shiftl n : forall pos h, crc_steps n pos 0 (Z.shiftl h (Z.of_nat n)) = h.
Proof.
  induction n as [|n IH]; intros pos h; cbn [crc_steps].
  - apply Z.shiftl_0_r.
  - rewrite Nat2Z.inj_succ, <- Z.add_1_r, <- Z.shiftl_shiftl by lia.
    rewrite crc_bit_shift by (rewrite Z.shiftr_0_l, Z.lxor_0_r; apply land1_shiftl1).
    rewrite Z.shiftr_shiftl_l by lia. apply IH.
Qed.

(* (r, o) = (h << 8, 0) xor (l, 0) xor (o, o) with h = r >> 8 and l = (r xor o) land 255 *)
Theorem crc_octet_table r o : 0 <= o < 256 ->
  crc_octet r o = Z.lxor (Z.shiftr r 8) (crc_octet (Z.land (Z.lxor r o) 255) 0).
Proof.
  intro Ho. unfold crc_octet. set (l := Z.land (Z.lxor r o) 255).
  assert (E : r = Z.lxor (Z.shiftl (Z.shiftr r 8) 8) (Z.lxor l o)).
  { unfold l. rewrite land_lxor_distr_l, (land255_small o Ho), Z.lxor_assoc, Z.lxor_nilpotent, Z.lxor_0_r.
    rewrite <- Z.ldiff_ones_r by lia. symmetry. apply lxor_ldiff_land. }
  transitivity (crc_steps 8 0 (Z.lxor 0 (Z.lxor 0 o)) (Z.lxor (Z.shiftl (Z.shiftr r 8) 8) (Z.lxor l o))).
  { rewrite !Z.lxor_0_l, <- E. reflexivity. }
  rewrite !crc_steps_lxor, (crc_steps_shiftl 8). f_equal.
  pose proof (crc_steps_same 8 0 o) as S. rewrite Z.shiftr_0_r in S.
  rewrite S. change (0 + Z.of_nat 8) with 8. rewrite (shiftr8_small o Ho). apply Z.lxor_0_r.
Qed.

(* the reference has the same form *)
Lemma iso_update_table r o : 0 <= r < 65536 -> 0 <= o < 256 ->
  iso_update r o = Z.lxor (Z.shiftr r 8) (iso_update (Z.land (Z.lxor r o) 255) 0).
Proof.
  intros Hr Ho. unfold iso_update. set (l := Z.land (Z.lxor r o) 255).
  assert (Hl : 0 <= l < 256) by apply land255_range.
  replace (Z.lxor o (Z.land r 255)) with l
    by (unfold l; rewrite land_lxor_distr_l, (land255_small o Ho); apply Z.lxor_comm).
  rewrite (land255_small l Hl), (shiftr8_small l Hl), !Z.lxor_0_l, !Z.lxor_assoc, land_lxor_distr_l.
  f_equal. rewrite (land_mask _ 16 65535), Z.shiftr_div_pow2 by easy. apply Z.mod_small.
  change (2 ^ 8) with 256. change (2 ^ 16) with 65536. lia.
Qed.

Lemma iso_update_fold r o : iso_update r o = iso_update (Z.lxor r o) 0 -> True.
Proof. trivial. Qed.

Lemma table_agree l : 0 <= l < 256 -> crc_octet l 0 = iso_update l 0.
Proof.
  intro H. apply Z.eqb_eq.
  apply (sweep_lift (fun l => crc_octet l 0 =? iso_update l 0) 0 256); [vm_compute; reflexivity | exact H].
Qed.

Theorem octet_agree r o : 0 <= r < 65536 -> 0 <= o < 256 -> crc_octet r o = iso_update r o.
Proof.
  intros Hr Ho. rewrite crc_octet_table, iso_update_table by assumption.
  f_equal. apply table_agree, land255_range.
Qed.

Lemma iso_update_range r o : 0 <= iso_update r o < 65536.
Proof. apply land65535_range. Qed.

Theorem crc16_agree data : forall r, 0 <= r < 65536 -> bytes_ok data ->
  crc16 r data = iso_crc r data /\ 0 <= crc16 r data < 65536.
Proof.
  induction data as [|o data IH]; intros r Hr Hd.
  - split; [reflexivity|exact Hr].
  - apply bytes_ok_cons in Hd. destruct Hd as [Ho Hd].
    change (crc16 r (o :: data)) with (crc16 (crc_octet r o) data).
    change (iso_crc r (o :: data)) with (iso_crc (iso_update r o) data).
    rewrite (octet_agree r o Hr Ho). apply IH; [apply iso_update_range|exact Hd].
Qed.
