(* Type 2: the memory reader's state across several assignments tag.ndef.octets = d on one tag object.
   reader_ok is preserved by every attempt whatever command fails and however (lost / unanswered); every tag
   memory on the way reads as the previous message, an empty message or the new message; an undisturbed
   attempt from any such state succeeds and leaves exactly the new message. *)
From Coq Require Import ZArith List Bool Lia ZifyBool.
From NV Require Import Base.Result Base.Bytes Model.TlvMem Model.T2T Proofs.TlvLib Proofs.TlvSync Proofs.TlvRetry
  Proofs.TlvPhases Proofs.TlvRetryInst Proofs.T2TRead Proofs.T2TPhases Proofs.T2TWrite.
Import ListNotations.
Open Scope Z_scope.
Ltac Zify.zify_post_hook ::= Z.to_euclidean_division_equations.

Definition ku4 (m : list Z) : nat := (length (view m) / 4)%nat.

(* tag memory m1, data_from_tag F, data_in_cache c of a tag object that was activated on memory m and is being
   assigned the octets d *)
Definition t2_reader_ok (m d : list Z) (st : list Z * list Z * list Z) : Prop :=
  let '(m1, F, c) := st in
  exists L c1 c2 cF, wfL m L /\ len d <= l_cap L /\ clean (view m) L t2_reader d c1 c2 cF /\ len m1 = len m /\
    INV 4 (ku4 m) (zN L) (view m) cF (Sall (view m) L cF) (view m1) F c /\ F = view m1 /\ c = view m1.
Definition safe_class (m d m' : list Z) : Prop := t2_fresh m' = t2_fresh m \/ t2_fresh m' = Msg [] \/ t2_fresh m' = Msg d.

Section R.
Variables (m : list Z) (L : layout) (d : list Z).
Hypothesis WF : wfL m L.
Hypothesis Hcap : len d <= l_cap L.
Notation em := (view m).

Notation GH lemma := (at_layout lemma (wfL_gen m L WF : gen_layout em L 4 (ku4 m) t2_reader)).

Lemma g_clean : exists c1 c2 cF, clean em L t2_reader d c1 c2 cF.
Proof. exact (GH clean_final d Hcap). Qed.

Variables c1 c2 cF : list Z.
Hypothesis HCF : clean em L t2_reader d c1 c2 cF.
Notation INVx := (INV 4 (ku4 m) (zN L) em cF (Sall em L cF)).
Notation SAFEx := (SAFE 4 (ku4 m) (zN L) em cF (Sall em L cF)).
Notation GF lemma := (GH lemma d c1 c2 cF (len m) Hcap HCF (wfL_bound m L WF)).

(* the phases of tt2.py are one of the three analysed shapes *)
Lemma g_att : ATT em L 4 (ku4 m) cF (len m) (t2_phases L d).
Proof.
  unfold t2_phases. destruct (Z.ltb_spec (len d) 255) as [Hd|Hd]; cbn [app].
  - apply (GF att_short Hd).
  - destruct (straddle (l_off L)) eqn:Es; cbn [app].
    + apply (GF att_split Hd).
    + apply (GF att_joint Hd), straddle_one_unit; [apply (wfL_gen m L WF) | exact Es].
Qed.
Lemma g_init : INVx em em em. Proof. exact (GF INV_init_x). Qed.
Lemma g_inv T : SAFEx T <-> INVx T T T.
Proof. split; [exact (GF SAFE_INV_x T) | exact (GF INV_safe_x T T T)]. Qed.

(* the images that are safe, as a fresh reader sees them *)
Lemma g_reads m' : SAFEx (view m') -> exists v, t2_reader (view m') = Ok (Some (set_val L v)) /\ safe_class m d m'.
Proof.
  intros HS. unfold safe_class, t2_fresh. use_wfL WF.
  destruct (GF SAFE_read _ HS) as [->|[H|H]].
  - exists (l_val L). split; [rewrite set_val_same; exact Hr | left; reflexivity].
  - exists []. split; [exact H|]. right; left. rewrite H. cbn [classify set_val l_rd l_val]. rewrite Hrd. reflexivity.
  - exists d. split; [exact H|]. right; right. rewrite H. cbn [classify set_val l_rd l_val]. rewrite Hrd. reflexivity.
Qed.

Lemma g_attempt m1 kf f : len m1 = len m -> SAFEx (view m1) ->
  let '(r, (m2, F2, c2'), ex) := t2_attempt m1 L (view m1) (view m1) d kf f in
  m2 = apply_ws m1 ex /\ len m2 = len m /\ SAFEx (view m2) /\
  (forall i, safe_class m d (apply_ws m1 (firstn i ex))) /\
  (r = Ok tt -> t2_fresh m2 = Msg d /\ t2_capacity m2 = Some (l_cap L)) /\ (kf = None -> r = Ok tt) /\ F2 = view m2 /\ c2' = view m2.
Proof.
  intros Hl HS. unfold t2_attempt. use_wfL WF. rewrite Hwr. cbn [negb]. replace (l_cap L <? len d) with false by lia.
  rewrite Hl.
  assert (Hz4 : (4 <= zN L / 4)%nat) by (unfold zN; apply Nat.div_le_lower_bound; lia).
  (* the commands lie behind page 3 and inside the memory: view commutes with them *)
  assert (Hv : forall ws, Forall (cmd_ok 4 (zN L) (len m)) ws -> view (apply_ws m1 ws) = apply_ws (view m1) ws /\ len (apply_ws m1 ws) = len m1).
  { intros ws Hws. apply view_apply. intros w Hw. rewrite Forall_forall in Hws. destruct (Hws w Hw) as [B1 B2]. rewrite Hl. split; [lia | exact B2]. }
  pose proof (g_att view m1 (view m1) kf f HS (fun ws Hws => proj1 (Hv ws Hws))) as A.
  destruct (run_attempt 4 (len m) view m1 (view m1) (view m1) (t2_phases L d) kf f) as [[r [[m2 F2] c2']] ex].
  destruct A as (A1 & A2 & A3 & A4 & A5 & A6 & A7).
  split; [exact A1|]. split; [rewrite A1, <- Hl; apply Hv, A4|]. split; [rewrite A1, <- (firstn_all ex); apply A5|].
  split; [intro i; destruct (g_reads _ (A5 i)) as (_ & _ & H); exact H|]. split; [|auto].
  intro Hrok. unfold t2_fresh, t2_capacity. rewrite (A6 Hrok).
  rewrite (clean_read _ _ _ _ _ _ _ HCF). cbn [classify set_val l_rd l_val l_cap]. rewrite Hrd. auto.
Qed.
(* a safe memory is again a well-formed layout, with the same NDEF TLV position, skip set and capacity *)
Lemma g_wf m1 : len m1 = len m -> SAFEx (view m1) -> exists v, wfL m1 (set_val L v).
Proof.
  intros Hl HS. destruct (g_reads m1 HS) as (v & Ev & _). exists v. use_wfL WF. unfold wfL. cbn [set_val l_rd l_wr l_dend l_hw l_off l_skip l_cap].
  assert (length m1 = length m) by (unfold len in Hl; lia).
  unfold len in *. split; [exact Ev|]. split; [congruence|]. repeat split; try assumption; try lia; apply S23; assumption.
Qed.
End R.

Lemma wfL_unique m L L' : wfL m L -> wfL m L' -> L = L'.
Proof. intros (H & _) (H' & _). congruence. Qed.

Lemma t2_reader_ok_init m d cap : wf_layout m -> t2_capacity m = Some cap -> len d <= cap -> t2_reader_ok m d (m, view m, view m).
Proof.
  intros Hwf Hc Hd. destruct (wf_layout_wfL m Hwf) as (L & HL). pose proof (wfL_capacity m L cap HL Hc) as E.
  destruct (g_clean m L d HL ltac:(lia)) as (c1 & c2 & cF & HCF). exists L, c1, c2, cF.
  split; [exact HL|]. split; [lia|]. split; [exact HCF|]. split; [reflexivity|]. split; [|auto].
  eapply g_init; [exact HL | | exact HCF]. lia.
Qed.

Theorem t2_attempt_reader_ok m d L m1 F c kf f : wfL m L -> t2_reader_ok m d (m1, F, c) ->
  let '(r, st', ex) := t2_attempt m1 L F c d kf f in
  t2_reader_ok m d st' /\ fst (fst st') = apply_ws m1 ex /\
  (forall i, safe_class m d (apply_ws m1 (firstn i ex))) /\
  (r = Ok tt -> t2_fresh (fst (fst st')) = Msg d /\ t2_capacity (fst (fst st')) = Some (l_cap L)) /\ (kf = None -> r = Ok tt).
Proof.
  intros HL (L' & c1 & c2 & cF & HL' & Hcap & HCF & Hl & HI & -> & ->). pose proof (wfL_unique m L' L HL' HL). subst L'.
  pose proof (g_inv m L d HL Hcap c1 c2 cF HCF) as Hinv.
  pose proof (g_attempt m L d HL Hcap c1 c2 cF HCF m1 kf f Hl (proj2 (Hinv _) HI)) as A.
  destruct (t2_attempt m1 L (view m1) (view m1) d kf f) as [[r [[m2 F2] c2']] ex]. destruct A as (A1 & A2 & A3 & A4 & A5 & A6 & -> & ->).
  split; [exists L, c1, c2, cF; apply Hinv in A3; auto 10|]. cbn [fst snd]. auto.
Qed.

Lemma t2_attempts_ok m d L : wfL m L -> forall faults st, t2_reader_ok m d st -> t2_reader_ok m d (t2_attempts L d faults st).
Proof.
  intros HL. induction faults as [|[k f] r IH]; intros [[m1 F] c] Hok; [exact Hok|]. cbn [t2_attempts].
  pose proof (t2_attempt_reader_ok m d L m1 F c (Some k) f HL Hok) as A.
  destruct (t2_attempt m1 L F c d (Some k) f) as [[r0 st'] ex]. cbn [fst snd]. apply IH, A.
Qed.

Lemma t2_after_ok m d cap faults : wf_layout m -> t2_capacity m = Some cap -> len d <= cap ->
  exists L m1 F c, wfL m L /\ l_cap L = cap /\ t2_after m d faults = Some (L, (m1, F, c)) /\ t2_reader_ok m d (m1, F, c).
Proof.
  intros Hwf Hc Hd. destruct (wf_layout_wfL m Hwf) as (L & HL). pose proof (wfL_capacity m L cap HL Hc) as E.
  pose proof (t2_attempts_ok m d L HL faults (m, view m, view m) (t2_reader_ok_init m d cap Hwf Hc Hd)) as Hok.
  destruct (t2_attempts L d faults (m, view m, view m)) as [[m1 F] c] eqn:Ea.
  exists L, m1, F, c. split; [exact HL|]. split; [exact E|]. split; [|exact Hok].
  unfold t2_after. rewrite (wfL_reader _ _ HL), Ea. reflexivity.
Qed.

(* after any number of attempts that failed at any command, lost or unanswered, the next undisturbed attempt succeeds and
   a fresh reader returns exactly the new data *)
Theorem t2_retry_write_read m d cap faults : wf_layout m -> bytes_ok d -> t2_capacity m = Some cap -> len d <= cap ->
  exists r m1 ws, t2_retry m d faults = Some (r, m1, ws) /\ r = Ok tt /\
    t2_fresh (apply_ws m1 ws) = Msg d /\ t2_capacity (apply_ws m1 ws) = Some cap.
Proof.
  intros Hwf _ Hc Hd. destruct (t2_after_ok m d cap faults Hwf Hc Hd) as (L & m1 & F & c & HL & E & Ha & Hok).
  pose proof (t2_attempt_reader_ok m d L m1 F c None Lost HL Hok) as A.
  unfold t2_retry. rewrite Ha. destruct (t2_attempt m1 L F c d None Lost) as [[r st'] ex]. cbn [fst snd].
  destruct A as (_ & A2 & _ & A4 & A5). exists r, m1, ex. split; [reflexivity|]. split; [apply A5; reflexivity|].
  rewrite <- A2, <- E. apply A4, A5. reflexivity.
Qed.

(* ... and whatever happens to that next attempt (cut after k2 commands, or another fault at any command, lost or
   unanswered), the tag always reads as the previous message, an empty message or the new message *)
Theorem t2_retry_cut_safe m d cap faults kf f : wf_layout m -> t2_capacity m = Some cap -> len d <= cap ->
  exists L m1 F c, t2_after m d faults = Some (L, (m1, F, c)) /\ safe_class m d m1 /\
    forall k2, safe_class m d (apply_ws m1 (firstn k2 (snd (t2_attempt m1 L F c d kf f)))).
Proof.
  intros Hwf Hc Hd. destruct (t2_after_ok m d cap faults Hwf Hc Hd) as (L & m1 & F & c & HL & E & Ha & Hok).
  pose proof (t2_attempt_reader_ok m d L m1 F c kf f HL Hok) as A.
  exists L, m1, F, c. split; [exact Ha|]. destruct (t2_attempt m1 L F c d kf f) as [[r st'] ex]. cbn [fst snd].
  destruct A as (_ & _ & A3 & _). split; [exact (A3 O) | exact A3].
Qed.

(* Another assignment with other data after failed attempts.
   A reader_ok state is a fresh reader's state on a well-formed memory with the same layout, so the single-write theorems
   apply to whatever is assigned next. *)
Lemma set_val_val L : set_val L (l_val L) = L.
Proof. exact (set_val_same L). Qed.
Lemma t2_attempt_set_val m1 L v F c d k f : t2_attempt m1 (set_val L v) F c d k f = t2_attempt m1 L F c d k f.
Proof. reflexivity. Qed.

Lemma reader_ok_wf m d m1 F c L : wfL m L -> t2_reader_ok m d (m1, F, c) ->
  safe_class m d m1 /\ exists v, wfL m1 (set_val L v) /\ F = view m1 /\ c = view m1.
Proof.
  intros HL (L' & c1 & c2 & cF & HL' & Hcap & HCF & Hl & HI & -> & ->). pose proof (wfL_unique m L' L HL' HL). subst L'.
  apply (g_inv m L d HL Hcap c1 c2 cF HCF) in HI.
  split; [destruct (g_reads m L d HL Hcap c1 c2 cF HCF m1 HI) as (_ & _ & H); exact H|].
  destruct (g_wf m L d HL Hcap c1 c2 cF HCF m1 Hl HI) as [v Hv]. exists v. auto.
Qed.

Lemma wfL_wf m L : wfL m L -> wf_layout m /\ t2_capacity m = Some (l_cap L).
Proof.
  intros (Hr & H4 & H16 & HT). split; [|unfold t2_capacity; rewrite Hr; reflexivity].
  unfold wf_layout, wf_layoutb. rewrite Hr. apply andb_true_iff. split; [|apply wf_tail_iff, HT].
  apply andb_true_iff. split; [apply Nat.eqb_eq, H4 | lia].
Qed.

(* after any faulted attempts with data d1, an assignment of ANY data d2 (that may itself be cut or fail anywhere): a fresh
   reader sees what the tag held before this assignment, an empty message, or d2; undisturbed it succeeds and reads back d2 *)
Theorem t2_rewrite_safe m d1 cap faults d2 kf f : wf_layout m -> t2_capacity m = Some cap -> len d1 <= cap -> len d2 <= cap ->
  exists L m1 F c, t2_after m d1 faults = Some (L, (m1, F, c)) /\ safe_class m d1 m1 /\
    let '(r, st', ex) := t2_attempt m1 L F c d2 kf f in
    (forall k2, safe_class m1 d2 (apply_ws m1 (firstn k2 ex))) /\
    (kf = None -> r = Ok tt /\ t2_fresh (apply_ws m1 ex) = Msg d2 /\ t2_capacity (apply_ws m1 ex) = Some cap).
Proof.
  intros Hwf Hc Hd1 Hd2. destruct (t2_after_ok m d1 cap faults Hwf Hc Hd1) as (L & m1 & F & c & HL & E & Ha & Hok).
  exists L, m1, F, c. split; [exact Ha|].
  destruct (reader_ok_wf m d1 m1 F c L HL Hok) as (Hs & v & HL1 & -> & ->). split; [exact Hs|].
  destruct (wfL_wf m1 (set_val L v) HL1) as [Hwf1 Hc1]. cbn [set_val l_cap] in Hc1.
  pose proof (t2_reader_ok_init m1 d2 (l_cap L) Hwf1 Hc1 ltac:(lia)) as Hok2.
  pose proof (t2_attempt_reader_ok m1 d2 (set_val L v) m1 (view m1) (view m1) kf f HL1 Hok2) as A.
  rewrite t2_attempt_set_val in A. destruct (t2_attempt m1 L (view m1) (view m1) d2 kf f) as [[r st'] ex].
  destruct A as (_ & A2 & A3 & A4 & A5). split; [exact A3|]. intro Hk. specialize (A5 Hk). split; [exact A5|].
  rewrite <- A2, <- E. apply A4, A5.
Qed.
