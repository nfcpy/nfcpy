(* C20: DES ignores key parity bits; lengths of the cipher outputs; what read_with_mac and
   FelicaLite._authenticate return, for every behaviour of the channel. *)
From Coq Require Import ZArith List Bool Lia.
From NV Require Import Base.Result Base.Bytes Base.PyPrims Base.PyAuth Model.Des Model.FelicaMac.
Import ListNotations.
Open Scope Z_scope.

Lemma testbit_half b m : 0 <= m -> Z.testbit b (m + 1) = Z.testbit (b / 2) m.
Proof.
  intro Hm. change (b / 2) with (b / 2 ^ 1). rewrite <- Z.shiftr_div_pow2 by lia.
  rewrite Z.shiftr_spec by lia. reflexivity.
Qed.

(* the upper seven bits of a key octet are those of its half, and PC-1 never selects the eighth ... *)
Lemma byte_bits_half b : byte_bits b =
  [Z.testbit (b / 2) 6; Z.testbit (b / 2) 5; Z.testbit (b / 2) 4; Z.testbit (b / 2) 3;
   Z.testbit (b / 2) 2; Z.testbit (b / 2) 1; Z.testbit (b / 2) 0; Z.testbit b 0].
Proof. rewrite <- !testbit_half by lia. reflexivity. Qed.

(* ... so what PC-1 selects from a key is a function of the halves of its octets *)
Definition half_bits (h : Z) : list bool :=
  [Z.testbit h 6; Z.testbit h 5; Z.testbit h 4; Z.testbit h 3; Z.testbit h 2; Z.testbit h 1; Z.testbit h 0; false].

Lemma pc1_halves k : length k = 8%nat ->
  permute PC1 (bits_of_bytes k) = permute PC1 (flat_map half_bits (map (fun b => b / 2) k)).
Proof.
  intro H. destruct (list8 k H) as (a0 & a1 & a2 & a3 & a4 & a5 & a6 & a7 & ->).
  unfold bits_of_bytes. cbn [flat_map map]. rewrite !byte_bits_half. reflexivity.
Qed.

Lemma key_schedule_parity k1 k2 : length k1 = 8%nat -> length k2 = 8%nat -> key_equiv k1 k2 ->
  key_schedule (bits_of_bytes k1) = key_schedule (bits_of_bytes k2).
Proof. intros H1 H2 He. unfold key_schedule. rewrite (pc1_halves k1 H1), (pc1_halves k2 H2), He. reflexivity. Qed.

Lemma key_equiv_refl k : key_equiv k k. Proof. reflexivity. Qed.
Lemma key_equiv_sym a b : key_equiv a b -> key_equiv b a. Proof. unfold key_equiv; congruence. Qed.
Lemma key_equiv_trans a b c : key_equiv a b -> key_equiv b c -> key_equiv a c. Proof. unfold key_equiv; congruence. Qed.
Lemma key_equiv_length a b : key_equiv a b -> length a = length b.
Proof. unfold key_equiv. intro H. apply (f_equal (@length Z)) in H. rewrite !map_length in H. exact H. Qed.
Lemma key_equivb_spec a b : key_equivb a b = true <-> key_equiv a b.
Proof. unfold key_equivb, key_equiv. apply list_eqb_eq. Qed.

(* the cipher cannot tell two keys apart that differ only in parity bits *)
Lemma tdes_cbc_key_equiv k1 k2 iv d : (16 <= length k1)%nat -> key_equiv k1 k2 ->
  tdes_cbc_encrypt k1 iv d = tdes_cbc_encrypt k2 iv d.
Proof.
  intros Hl He. pose proof (key_equiv_length _ _ He) as Hl2. unfold tdes_cbc_encrypt.
  rewrite (key_schedule_parity (firstn 8 k1) (firstn 8 k2)).
  - rewrite (key_schedule_parity (firstn 8 (skipn 8 k1)) (firstn 8 (skipn 8 k2))); [reflexivity| | |].
    + rewrite firstn_length, skipn_length. lia.
    + rewrite firstn_length, skipn_length. lia.
    + unfold key_equiv in *. rewrite <- !firstn_map, <- !skipn_map, He. reflexivity.
  - rewrite firstn_length. lia.
  - rewrite firstn_length. lia.
  - unfold key_equiv in *. rewrite <- !firstn_map, He. reflexivity.
Qed.

Lemma session_key_equiv k1 k2 rc : (16 <= length k1)%nat -> key_equiv k1 k2 -> session_key k1 rc = session_key k2 rc.
Proof. intros. unfold session_key. apply tdes_cbc_key_equiv; assumption. Qed.

Lemma des_core_length ks b : length (des_core ks b) = 64%nat.
Proof. unfold des_core, permute. destruct (rounds ks _ _). apply map_length. Qed.
Lemma bytes_of_bits_length n : forall l, length l = (n * 8)%nat -> length (bytes_of_bits l) = n.
Proof.
  induction n as [|n IH]; intros l H; cbn in H; [destruct l; [reflexivity | discriminate]|].
  do 8 (destruct l as [|? l]; [discriminate|]). cbn [bytes_of_bits length]. f_equal. apply IH. cbn [length] in H. congruence.
Qed.
Lemma chunks8_length n : forall l, length l = (n * 8)%nat -> length (chunks8 l) = n.
Proof.
  induction n as [|n IH]; intros l H; cbn in H; [destruct l; [reflexivity | discriminate]|].
  do 8 (destruct l as [|? l]; [discriminate|]). cbn [chunks8 length]. f_equal. apply IH. cbn [length] in H. congruence.
Qed.
Lemma cbc_blocks_length k1 k2 : forall blocks iv, length (cbc_blocks k1 k2 iv blocks) = (8 * length blocks)%nat.
Proof.
  induction blocks as [|b r IH]; intro iv; [reflexivity|].
  cbn [cbc_blocks length]. rewrite app_length, IH, (bytes_of_bits_length 8) by apply des_core_length. lia.
Qed.
Lemma session_key_length k rc : length rc = 16%nat -> length (session_key k rc) = 16%nat.
Proof.
  intro H. unfold session_key, tdes_cbc_encrypt. rewrite cbc_blocks_length, (chunks8_length 2) by assumption. reflexivity.
Qed.
Lemma chunks8_nonempty l : (8 <= length l)%nat -> exists c r, chunks8 l = c :: r /\ length c = 8%nat.
Proof.
  intro H. do 8 (destruct l as [|? l]; [cbn in H; lia|]). cbn [chunks8]. eauto.
Qed.

(* a MAC over at least one block has eight bytes: the text that is enciphered has a first block too *)
Lemma generate_mac_ok d k iv f : len d mod 8 = 0 -> len k = 16 -> len iv = 8 ->
  exists m, generate_mac d k iv f = Ok m /\ (8 <= len d -> length m = 8%nat).
Proof.
  intros Hd Hk Hi. unfold generate_mac. rewrite Hd, Hk, Hi. cbn [Z.eqb Pos.eqb andb negb].
  eexists. split; [reflexivity|]. intro H8.
  destruct (chunks8_nonempty d) as (c & r & Hc & Hc8); [unfold len in H8; lia|].
  destruct (chunks8_nonempty (concat (map (@rev Z) (chunks8 d)))) as (c' & r' & Hc' & _).
  { rewrite Hc. cbn [map concat]. rewrite app_length, rev_length. lia. }
  rewrite firstn_length, rev_length. unfold tdes_cbc_encrypt. rewrite cbc_blocks_length, Hc'. cbn [length]. lia.
Qed.

Lemma rev_halves_invol l : length l = 16%nat -> rev_halves (rev_halves l) = l.
Proof.
  intro H. do 16 (destruct l as [|? l]; [discriminate|]). destruct l; [|discriminate]. reflexivity.
Qed.
Lemma rev_halves_length l : length l = 16%nat -> length (rev_halves l) = 16%nat.
Proof.
  intro H. unfold rev_halves. rewrite app_length, !rev_length, firstn_length, skipn_length. lia.
Qed.

Lemma len_length {A} (l : list A) n : length l = n -> len l = Z.of_nat n.
Proof. intros <-. reflexivity. Qed.

Lemma mem_set_same m b v : mem_set m b v b = v.
Proof. unfold mem_set. rewrite Z.eqb_refl. reflexivity. Qed.
Lemma mem_set_other m b v x : x <> b -> mem_set m b v x = m x.
Proof. intro H. unfold mem_set. apply Z.eqb_neq in H. rewrite H. reflexivity. Qed.
Lemma mem_set_length m b v n : (forall x, length (m x) = n) -> length v = n -> forall x, length (mem_set m b v x) = n.
Proof. intros Hm Hv x. unfold mem_set. destruct (x =? b); [exact Hv | apply Hm]. Qed.

Lemma firstn_len_app {A} (a b : list A) n : length a = n -> firstn n (a ++ b) = a.
Proof. intros <-. rewrite firstn_app, Nat.sub_diag, firstn_all. apply app_nil_r. Qed.
Lemma skipn_len_app {A} (a b : list A) n : length a = n -> skipn n (a ++ b) = b.
Proof. intros <-. rewrite skipn_app, Nat.sub_diag, skipn_all. reflexivity. Qed.

Lemma pyslice_app3 (d mac tail : list Z) : len mac = 8 -> len tail = 8 ->
  pyslice (d ++ mac ++ tail) 0 (-16) = d /\ pyslice (d ++ mac ++ tail) (-16) (-8) = mac.
Proof.
  intros Hm Ht. unfold pyslice, norm_idx. rewrite !len_app, Hm, Ht.
  pose proof (len_nonneg d) as Hd.
  change (0 <? 0) with false. change (-16 <? 0) with true. change (-8 <? 0) with true. cbv iota.
  rewrite (Z.min_l 0), !Z.max_r by lia.
  replace (-8 + (len d + (8 + 8)) - (-16 + (len d + (8 + 8)))) with (len mac) by lia.
  replace (-16 + (len d + (8 + 8))) with (len d) by lia. rewrite Z.sub_0_r.
  split; [apply (take_len_app d)|]. fold (drop (len d) (d ++ mac ++ tail)). rewrite drop_len_app. apply take_len_app.
Qed.

Lemma split_mac_response (l : list Z) : 16 <= len l ->
  exists d mac tail, l = d ++ mac ++ tail /\ len mac = 8 /\ len tail = 8 /\ len d = len l - 16.
Proof.
  intro H. unfold len in *.
  exists (firstn (length l - 16) l), (firstn 8 (skipn (length l - 16) l)), (skipn 8 (skipn (length l - 16) l)).
  rewrite firstn_skipn, firstn_skipn. repeat split.
  - rewrite firstn_length, skipn_length. lia.
  - rewrite !skipn_length. lia.
  - rewrite firstn_length. lia.
Qed.

Section Generic.
  Context {T : Type}.
  Variable xchg : T -> list Z -> T * xres.
  Variable idm : list Z.

  (* [_rs]: the reader's session state (second component) is left as it was *)
  Lemma send_rs code data b (s s' : @St T) r :
    send_cmd_recv_rsp xchg idm code data b s = (s', r) -> snd s' = snd s.
  Proof.
    unfold send_cmd_recv_rsp. destruct (255 <? _); [intro H; inversion H; reflexivity|].
    destruct (exchange_retry _ _ _ _ _) as [t' r0]. intro H. inversion H. reflexivity.
  Qed.

  Lemma read_blocks_rs bl (s s' : @St T) r : read_blocks xchg idm bl s = (s', r) -> snd s' = snd s.
  Proof.
    unfold read_blocks, bindM, lift, ret. destruct (255 <? len bl); [intro H; inversion H; reflexivity|].
    destruct (block_codes bl); try (intro H; inversion H; reflexivity).
    destruct (send_cmd_recv_rsp _ _ _ _ _ s) as [s1 r1] eqn:E. apply send_rs in E.
    destruct r1; try (intro H; inversion H; subst; exact E).
    destruct (negb _); intro H; inversion H; subst; exact E.
  Qed.

  Lemma write_blocks_rs bl d (s s' : @St T) r : write_blocks xchg idm bl d s = (s', r) -> snd s' = snd s.
  Proof.
    unfold write_blocks, bindM, lift, ret. destruct (255 <? len bl); [intro H; inversion H; reflexivity|].
    destruct (block_codes bl); try (intro H; inversion H; reflexivity).
    destruct (send_cmd_recv_rsp _ _ _ _ _ s) as [s1 r1] eqn:E. apply send_rs in E.
    destruct r1; intro H; inversion H; subst; exact E.
  Qed.

  Lemma write_without_mac_rs d b (s s' : @St T) r : write_without_mac xchg idm d b s = (s', r) -> snd s' = snd s.
  Proof.
    unfold write_without_mac, lift. destruct (negb _); [intro H; inversion H; reflexivity|]. apply write_blocks_rs.
  Qed.

  Lemma read_blocks_len bl (s s' : @St T) data : read_blocks xchg idm bl s = (s', Ok data) -> len data = 16 * len bl.
  Proof.
    unfold read_blocks, bindM, lift, ret. destruct (255 <? len bl); [discriminate|].
    destruct (block_codes bl); try discriminate.
    destruct (send_cmd_recv_rsp _ _ _ _ _ s) as [s1 [d|e|c|]]; try discriminate.
    destruct (len d =? 1 + 16 * len bl) eqn:E; cbn [negb]; [|discriminate].
    intro H. inversion H. apply Z.eqb_eq in E. unfold drop, len in *. rewrite skipn_length. lia.
  Qed.

  (* read_with_mac on a response that has room for a MAC block: the outcome is the comparison of the
     received MAC with the one computed over the received data *)
  Lemma read_with_mac_eq blocks (s s' : @St T) sk iv d mac tail :
    r_sk (snd s) = Some sk -> r_iv (snd s) = Some iv ->
    read_blocks xchg idm (blocks ++ [129]) s = (s', Ok (d ++ mac ++ tail)) -> len mac = 8 -> len tail = 8 ->
    read_with_mac xchg idm blocks s =
      (s', do m <- generate_mac d sk iv false; Ok (if list_eqb mac m then Some d else None)).
  Proof.
    intros Hsk Hiv ER Hm Ht. unfold read_with_mac, bindM, get_rs. cbn [fst snd]. rewrite Hsk, Hiv, ER.
    destruct (pyslice_app3 d mac tail Hm Ht) as [-> ->]. unfold lift, ret.
    destruct (generate_mac d sk iv false) as [m| | |]; cbn [bind]; [destruct (list_eqb mac m)|..]; reflexivity.
  Qed.

  (* read_with_mac hands out data only if the MAC equation holds for exactly what was received *)
  Theorem read_with_mac_sound blocks (s s' : @St T) d :
    read_with_mac xchg idm blocks s = (s', Ok (Some d)) ->
    exists sk iv mac tail,
      r_sk (snd s) = Some sk /\ r_iv (snd s) = Some iv /\
      read_blocks xchg idm (blocks ++ [129]) s = (s', Ok (d ++ mac ++ tail)) /\
      len mac = 8 /\ len tail = 8 /\ len d = 16 * len blocks /\
      generate_mac d sk iv false = Ok mac.
  Proof.
    unfold read_with_mac, bindM, get_rs. cbn [fst snd].
    destruct (r_sk (snd s)) as [sk|]; [|discriminate]. destruct (r_iv (snd s)) as [iv|]; [|discriminate].
    destruct (read_blocks xchg idm (blocks ++ [129]) s) as [s1 [data|e|c|]] eqn:ER; try discriminate.
    pose proof (read_blocks_len _ _ _ _ ER) as HL. rewrite len_app in HL. change (len [129]) with 1 in HL.
    destruct (split_mac_response data) as (d0 & mac & tail & -> & Hm & Ht & Hd0); [pose proof (len_nonneg blocks); lia|].
    destruct (pyslice_app3 d0 mac tail Hm Ht) as [-> ->].
    unfold lift, ret. destruct (generate_mac d0 sk iv false) as [m|e|c|] eqn:EG; try discriminate.
    destruct (list_eqb mac m) eqn:EQ; [|discriminate]. apply list_eqb_eq in EQ. intro H. injection H as <- <-. subst m.
    exists sk, iv, mac, tail. repeat split; try assumption; try reflexivity. lia.
  Qed.

  (* ... and conversely: a response whose data and MAC do not satisfy the equation is never accepted *)
  Theorem read_with_mac_detects blocks (s s' : @St T) sk iv d mac tail :
    r_sk (snd s) = Some sk -> r_iv (snd s) = Some iv ->
    read_blocks xchg idm (blocks ++ [129]) s = (s', Ok (d ++ mac ++ tail)) -> len mac = 8 -> len tail = 8 ->
    generate_mac d sk iv false <> Ok mac ->
    exists r, read_with_mac xchg idm blocks s = (s', r) /\ forall d', r <> Ok (Some d').
  Proof.
    intros Hsk Hiv ER Hm Ht Hne. rewrite (read_with_mac_eq _ _ _ _ _ _ _ _ Hsk Hiv ER Hm Ht).
    eexists. split; [reflexivity|]. intro d'.
    destruct (generate_mac d sk iv false) as [m|e|c|]; try discriminate. cbn [bind].
    destruct (list_eqb mac m) eqn:EQ; [|discriminate]. apply list_eqb_eq in EQ. congruence.
  Qed.

  Theorem read_with_mac_complete blocks (s s' : @St T) sk iv d mac tail :
    r_sk (snd s) = Some sk -> r_iv (snd s) = Some iv ->
    read_blocks xchg idm (blocks ++ [129]) s = (s', Ok (d ++ mac ++ tail)) -> len mac = 8 -> len tail = 8 ->
    generate_mac d sk iv false = Ok mac ->
    read_with_mac xchg idm blocks s = (s', Ok (Some d)).
  Proof.
    intros Hsk Hiv ER Hm Ht HG. rewrite (read_with_mac_eq _ _ _ _ _ _ _ _ Hsk Hiv ER Hm Ht), HG. cbn [bind].
    rewrite list_eqb_refl. reflexivity.
  Qed.

  (* FelicaLite.authenticate over any channel: once the challenge write was acknowledged and the
     ID/MAC read delivered  idb ++ mac ++ tail, the result is the comparison of the received MAC with
     the MAC under the session key derived from the password *)
  Theorem lite_authenticate_generic pw rc key (s s1 s2 : @St T) idb mac tail m :
    felica_key pw = Ok key ->
    write_without_mac xchg idm (rev_halves rc) 128 (fst s, mkR (r_sk (snd s)) (r_iv (snd s)) false) = (s1, Ok tt) ->
    read_without_mac xchg idm [130; 129] s1 = (s2, Ok (idb ++ mac ++ tail)) -> len mac = 8 -> len tail = 8 ->
    generate_mac idb (session_key key rc) (firstn 8 rc) false = Ok m ->
    lite_authenticate xchg idm pw rc s =
      ((fst s2, if list_eqb mac m then mkR (Some (session_key key rc)) (Some (firstn 8 rc)) true
                else mkR (r_sk (snd s)) (r_iv (snd s)) false), Ok (list_eqb mac m)).
  Proof.
    intros Hk HW HR Hm Ht HG.
    pose proof (write_without_mac_rs _ _ _ _ _ HW) as Hs1. cbn [snd] in Hs1.
    pose proof (read_blocks_rs _ _ _ _ HR) as Hs2.
    unfold lite_authenticate, lite_authenticate_inner, bindM, lift. rewrite Hk.
    unfold set_auth at 1. cbn [fst snd]. rewrite HW. rewrite HR.
    destruct (pyslice_app3 idb mac tail Hm Ht) as [P1 P2]. rewrite P1, P2, HG.
    destruct (list_eqb mac m); unfold set_session, set_auth, ret; cbn [fst snd].
    - reflexivity.
    - rewrite Hs2, Hs1. reflexivity.
  Qed.
End Generic.
