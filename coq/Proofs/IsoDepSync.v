(* ISO-DEP: round simulation of the (repaired) reader against the ISO/IEC 14443-4 card.

   [Sync] relates reader and card during one exchange of the command [cmd]:
     A   the card has not yet received the command block at [off]
     B   it has received that (chained) block and acknowledged it (possibly via S(WTX))
     C   it has received the last block, executed the APDU ONCE and sent the first response block
     D1  the reader has a chained response block, the card has not yet seen the R(ACK)
     D2  the card has seen the R(ACK) and sent the next response block
     Ok / Err  the exchange is over
   A round is the card's step on the reader's block ([deliver], or nothing when the block is lost) followed by
   the reader's step on the answer ([absorb_B], [absorb_C], [absorb_D2]) or on a timeout / transmission error
   ([fault_round]).  [round_all]: one clf.exchange with ANY fate pair keeps [Sync], strictly decreases the measure
   [mu], and bounds the retry counter and the n_extra counter; everything else follows by induction over the
   script ([runx_inv]), done once for the reader with the n_extra budget, of which the reader without is the
   instance [mx = None]. *)
From Coq Require Import ZArith List Bool Lia ZifyBool.
From NV Require Import Base.Result Base.Bytes Model.IsoDep Proofs.IsoDep.
Import ListNotations.
Open Scope Z_scope.
Local Ltac Zify.zify_post_hook ::= Z.to_euclidean_division_equations.

Lemma next_iblock_spec kc b data ib rest : 0 < cmiu kc ->
  next_iblock kc b data = (ib, rest) ->
  exists ch chunk, bit ch /\ ib = Z.lor (Z.lor 2 (16 * ch)) b :: chunk /\ chunk ++ rest = data /\
                   (data <> [] -> chunk <> []) /\ (ch = 0 -> rest = []) /\
                   (ch = 1 -> rest <> [] /\ len chunk = cmiu kc).
Proof.
  intros Hc H. unfold next_iblock in H. inversion H; subst; clear H.
  exists (if len (drop (cmiu kc) data) >? 0 then 1 else 0), (take (cmiu kc) data).
  assert (Hne : data <> [] -> take (cmiu kc) data <> []).
  { intros Hd Ht. destruct data as [|x data]; [congruence|].
    unfold take in Ht. destruct (Z.to_nat (cmiu kc)) eqn:En; [lia|]. discriminate. }
  destruct (len (drop (cmiu kc) data) >? 0) eqn:E.
  - split; [right; reflexivity|]. split; [reflexivity|]. split; [apply take_drop|]. split; [exact Hne|].
    split; [discriminate|]. intros _. split; [apply len_pos_cons, E|].
    rewrite len_drop_max in E by lia. unfold len, take in *. rewrite firstn_length. lia.
  - split; [left; reflexivity|]. split; [reflexivity|]. split; [apply take_drop|]. split; [exact Hne|].
    split; [intros _; apply len_pos_nil, E | discriminate].
Qed.

Lemma next_iblock_nonnil kc b data ib rest : next_iblock kc b data = (ib, rest) -> ib <> [].
Proof. unfold next_iblock. intro H. inversion H. discriminate. Qed.

Definition kind (d : bytes) : Z := match d with b0 :: _ => if b0 =? 242 then 0 else 1 | [] => 1 end.
Lemma kind_le d : 0 <= kind d <= 1.
Proof. destruct d as [|b0 d]; cbn; [lia|]. destruct (b0 =? 242); lia. Qed.
Lemma kind_wtx w : kind [242; w] = 0. Proof. reflexivity. Qed.
Lemma kind_nak pn : bit pn -> kind [Z.lor 178 pn] = 1. Proof. intros [-> | ->]; reflexivity. Qed.
Lemma kind_ack pn : bit pn -> kind [Z.lor 162 pn] = 1. Proof. intros [-> | ->]; reflexivity. Qed.
Lemma kind_iblock k cmd pn off : bit pn -> kind (iblock k cmd pn off) = 1.
Proof. intros [-> | ->]; unfold iblock, pfb_at, kind; destruct (more_at k cmd off); reflexivity. Qed.

(* chained blocks needed for L bytes in blocks of m: ceil(L/m) - 1 *)
Definition nchain (m L : Z) : Z := if L <=? 0 then 0 else (L - 1) / m.
Lemma nchain_nonneg m L : 0 < m -> 0 <= nchain m L.
Proof. intro H. unfold nchain. destruct (L <=? 0) eqn:E; [lia|]. apply Z.div_pos; lia. Qed.
Lemma nchain_step m L : 0 < m -> m < L -> nchain m (L - m) = nchain m L - 1.
Proof.
  intros Hm HL. unfold nchain. replace (L - m <=? 0) with false by lia. replace (L <=? 0) with false by lia.
  replace (L - 1) with ((L - m - 1) + 1 * m) by lia. rewrite Z.div_add by lia. lia.
Qed.

Lemma toggle_neq pn : (toggle pn =? pn) = false.
Proof. exact (toggle_neqb pn). Qed.

Lemma picc_emit_weight c0 blk : wtx_weight (fst (picc_emit c0 blk)) <= plan_weight (plan c0).
Proof.
  unfold picc_emit, wtx_weight. destruct (plan c0) as [|[|w ws'] pl]; cbn [tl fst plan pend];
    rewrite ?plan_weight_cons, ?len_cons; try change (len (@nil Z)) with 0; lia.
Qed.

(* whatever block the card absorbs, the number of S(WTX) responses it still expects does not grow *)
Lemma picc_absorb_weight app kc c blk c' r : picc_absorb app kc c blk = (c', r) -> wtx_weight c' <= wtx_weight c.
Proof.
  intro H. change c' with (fst (c', r)). rewrite <- H. clear H.
  assert (Hpw : plan_weight (plan c) <= wtx_weight c).
  { unfold wtx_weight. destruct (pend c) as [[[w ws] b]|]; [pose proof (len_nonneg ws)|]; lia. }
  assert (Hem : forall c0 b, plan c0 = plan c -> wtx_weight (fst (picc_emit c0 b)) <= wtx_weight c)
    by (intros c0 b E; pose proof (picc_emit_weight c0 b) as H; rewrite E in H; lia).
  unfold picc_absorb. destruct blk as [|pcb inf]; [cbn [fst]; lia|].
  destruct (len (pcb :: inf) + 2 >? cfsc kc); [cbn [fst]; lia|].
  destruct (Z.land pcb 238 =? 2).
  - destruct (negb (Z.land pcb 16 =? 0)); [apply Hem; reflexivity|].
    destruct (next_iblock kc (flip (bn c)) (app (len (execs c)) (rxbuf c ++ inf))) as [ib rest]. apply Hem; reflexivity.
  - destruct (Z.land pcb 238 =? 162).
    + destruct (negb (len inf =? 0)); [cbn [fst]; lia|].
      destruct (Z.land pcb 1 =? bn c); [destruct (last c); cbn [fst]; lia|].
      destruct (negb (Z.land pcb 16 =? 0)).
      * destruct (pend c) eqn:Ep; cbn [fst]; unfold wtx_weight; cbn [plan pend]; rewrite ?Ep; lia.
      * destruct (pend c); [cbn [fst]; lia|]. destruct (txrest c) as [|z t]; [cbn [fst]; lia|].
        destruct (next_iblock kc (flip (bn c)) (z :: t)) as [ib rest]. apply Hem; reflexivity.
    + destruct (pcb =? 242); [|cbn [fst]; lia].
      destruct (pend c) as [[[w ws] nxt]|] eqn:Ep; [|cbn [fst]; lia].
      destruct inf as [|x [|y t]]; try (cbn [fst]; lia). destruct (x =? w); [|cbn [fst]; lia].
      unfold wtx_weight. rewrite Ep.
      destruct ws as [|w2 ws']; cbn [fst plan pend]; rewrite ?len_cons; try change (len (@nil Z)) with 0; lia.
Qed.

Definition hd_ff (sc : list (fate * fate)) : fate * fate := match sc with [] => (FD, FD) | y :: _ => y end.
Definition is_dd (ff : fate * fate) : bool := match ff with (FD, FD) => true | _ => false end.
Fixpoint faults (sc : list (fate * fate)) : Z :=
  match sc with [] => 0 | ff :: t => (if is_dd ff then 0 else 1) + faults t end.
Lemma faults_nonneg sc : 0 <= faults sc.
Proof. induction sc as [|ff t IH]; cbn [faults]; [lia|]. destruct (is_dd ff); lia. Qed.
Lemma faults_hd_tl sc : (if is_dd (hd_ff sc) then 0 else 1) + faults (tl sc) = faults sc.
Proof. destruct sc; reflexivity. Qed.

Definition nofault (sc : list (fate * fate)) : Prop := Forall (fun ff => ff = (FD, FD)) sc.
Lemma nofault_faults sc : nofault sc -> faults sc = 0.
Proof. induction 1 as [|ff t Hff Ht IH]; [reflexivity|]. cbn [faults]. rewrite Hff, IH. reflexivity. Qed.

(* reader and card block numbers in step, no exchange in progress: the state after activation
   (pni = 0, card block number 1) and after every successful exchange *)
Definition in_step (pn : Z) (c : picc) : Prop :=
  bit pn /\ bn c = flip pn /\ pend c = None /\ rxbuf c = [] /\ txrest c = [].

Section SyncProof.
Variable app : Z -> bytes -> bytes.
Variable k : cfg.
Variable kc : ccfg.
Variable cmd : bytes.
Variable e0 : list bytes.
Hypothesis Hmiu : 0 < miu k.
Hypothesis Hcmiu : 0 < cmiu kc.
Hypothesis Hfsc : miu k + 3 <= cfsc kc.
Hypothesis Hf1 : fix_wtx_try k = true.
Hypothesis Hf2 : fix_wtx_chain k = true.

Definition R : bytes := app (len e0) cmd.

Definition CardA (pn off : Z) (c : picc) : Prop :=
  bn c = flip pn /\ pend c = None /\ rxbuf c = take off cmd /\ txrest c = [] /\ execs c = e0.
Definition CardB (pn off : Z) (c : picc) : Prop :=
  bn c = pn /\ rxbuf c = take (off + miu k) cmd /\ txrest c = [] /\ execs c = e0 /\ emitted [Z.lor 162 pn] c.
Definition CardC (pn : Z) (c : picc) : Prop :=
  exists ib rest, bn c = pn /\ rxbuf c = [] /\ execs c = e0 ++ [cmd] /\ next_iblock kc pn R = (ib, rest) /\
                  txrest c = rest /\ emitted ib c.
Definition CardD1 (pn : Z) (rsp : bytes) (c : picc) : Prop :=
  bn c = flip pn /\ pend c = None /\ txrest c <> [] /\ rsp ++ txrest c = R /\ rxbuf c = [] /\ execs c = e0 ++ [cmd].
Definition CardD2 (pn : Z) (rsp : bytes) (c : picc) : Prop :=
  exists T ib rest, bn c = pn /\ T <> [] /\ rsp ++ T = R /\ next_iblock kc pn T = (ib, rest) /\
                    txrest c = rest /\ rxbuf c = [] /\ execs c = e0 ++ [cmd] /\ emitted ib c.

(* what the reader sends once the card has answered: its retry block or the echo of the outstanding S(WTX) *)
Inductive rdata (retry : bytes) (c : picc) (d : bytes) : Prop :=
| Rd_retry : d = retry -> rdata retry c d
| Rd_echo w ws nxt : d = [242; w] -> pend c = Some (w, ws, nxt) -> rdata retry c d.

Inductive Sync : pcd -> picc -> Prop :=
| S_A pn off i d c : bit pn -> 0 <= off < len cmd ->
    (d = iblock k cmd pn off \/ (d = [Z.lor 178 pn] /\ i <= n_nak k + 1)) -> CardA pn off c ->
    Sync (mkp pn (PSend off i d)) c
| S_B pn off i d c : bit pn -> 0 <= off < len cmd -> more_at k cmd off = true ->
    CardB pn off c -> rdata [Z.lor 178 pn] c d -> Sync (mkp pn (PSend off i d)) c
| S_C pn off i d c : bit pn -> 0 <= off < len cmd -> more_at k cmd off = false ->
    CardC pn c -> rdata [Z.lor 178 pn] c d -> Sync (mkp pn (PSend off i d)) c
| S_D1 pn i rsp c : bit pn -> CardD1 pn rsp c -> Sync (mkp pn (PRecv i [Z.lor 162 pn] rsp)) c
| S_D2 pn i d rsp c : bit pn -> CardD2 pn rsp c -> rdata [Z.lor 162 pn] c d -> Sync (mkp pn (PRecv i d rsp)) c
| S_Ok pn c : bit pn -> bn c = flip pn -> pend c = None -> txrest c = [] -> rxbuf c = [] ->
    execs c = e0 ++ [cmd] -> Sync (mkp pn (PDone (Ok R))) c
| S_Err pn e c : (execs c = e0 \/ execs c = e0 ++ [cmd]) -> Sync (mkp pn (tagerr e)) c.

Definition exec_ok (c : picc) : Prop := execs c = e0 \/ execs c = e0 ++ [cmd].

(* reader phase against card state with the block in the reader's hand and its retry counter forgotten: what still
   holds in the middle of a round, when the card has moved and the reader has not.  [Wait]: the card has not seen
   the block of this position yet (A, D1); [Ans]: it has answered it (B, C, D2) *)
Definition Wait (p : pcd) (c : picc) : Prop :=
  match ph p with PSend off _ _ => CardA (pni p) off c | PRecv _ _ rsp => CardD1 (pni p) rsp c | _ => False end.
Definition Ans (p : pcd) (c : picc) : Prop :=
  match ph p with
  | PSend off _ _ => (more_at k cmd off = true /\ CardB (pni p) off c) \/ (more_at k cmd off = false /\ CardC (pni p) c)
  | PRecv _ _ rsp => CardD2 (pni p) rsp c
  | _ => False
  end.
Definition in_cmd (p : pcd) : Prop := match ph p with PSend off _ _ => 0 <= off < len cmd | _ => True end.
Definition Pos (p : pcd) (c : picc) : Prop := bit (pni p) /\ in_cmd p /\ (Wait p c \/ Ans p c).
Definition busy (p : pcd) : Prop := match ph p with PSend _ _ _ | PRecv _ _ _ => True | _ => False end.

Lemma Sync_Pos p c : Sync p c -> is_done p = false -> Pos p c.
Proof. intros [] Hd; try discriminate; unfold Pos, in_cmd, Wait, Ans; cbn [pni ph mkp]; tauto. Qed.
Lemma Pos_busy p c : Pos p c -> busy p.
Proof. unfold Pos, Wait, Ans, busy. destruct (ph p); tauto. Qed.

Lemma rsp_len_R rsp T : rsp ++ T = R -> len R = len rsp + len T.
Proof. intros <-. apply len_app. Qed.
Lemma CardD2_len pn rsp c : CardD2 pn rsp c -> len rsp < len R.
Proof. intros (T & ib & rest & _ & HT & HR & _). rewrite (rsp_len_R _ _ HR). pose proof (len_pos T HT). lia. Qed.
Lemma CardD1_len pn rsp c : CardD1 pn rsp c -> len rsp < len R.
Proof. intros (_ & _ & HT & HR & _). rewrite (rsp_len_R _ _ HR). pose proof (len_pos _ HT). lia. Qed.

Lemma Pos_exec p c : Pos p c -> exec_ok c.
Proof.
  unfold Pos, Wait, Ans, exec_ok. intros (_ & _ & H). destruct (ph p); try tauto.
  - destruct H as [HA | [[_ HB] | [_ (ib & rest & _ & _ & HC & _)]]]; [left; apply HA | left; apply HB | right; exact HC].
  - destruct H as [HD | (T & ib & rest & _ & _ & _ & _ & _ & _ & HD & _)]; right; [apply HD | exact HD].
Qed.

Lemma Sync_exec p c : Sync p c -> exec_ok c.
Proof.
  intro H. destruct (is_done p) eqn:Hd; [|exact (Pos_exec p c (Sync_Pos p c H Hd))].
  destruct H; try discriminate; [right|]; assumption.
Qed.

(* every block the reader hands to clf.exchange fits the frame size: PCB + INF + 2 EDC bytes <= miu + 3 = FSC *)
Definition blk_ok (b : bytes) : Prop := len b + 2 <= miu k + 3.

Lemma sync_emit_ok p c : Sync p c -> blk_ok (pcd_emit p).
Proof.
  assert (Hrd : forall retry c d, rdata retry c d -> len retry = 1 -> blk_ok d)
    by (unfold blk_ok; intros retry c0 d [-> | w ws nxt -> _] Hl; [lia | cbn; lia]).
  intros [pn off i d c0 _ Hoff [-> | [-> _]] _ | | | | | |]; cbn [pcd_emit ph mkp tagerr];
    try (eapply Hrd; [eassumption | reflexivity]); unfold blk_ok; try (cbn; lia).
  unfold iblock. rewrite len_cons. pose proof (len_slice_le cmd off (off + miu k)). lia.
Qed.

(* how an exchange ends: the response of the single execution with reader and card in step, or a tag error *)
Definition final_ok (r : res bytes) (pn : Z) (c : picc) : Prop :=
  (r = Ok R /\ in_step pn c /\ execs c = e0 ++ [cmd])
  \/ (exists e, r = Err (TagCommandError e)).

Lemma sync_done_final p c r : Sync p c -> ph p = PDone r -> final_ok r (pni p) c.
Proof.
  intros H Hp. unfold final_ok. destruct H; cbn [ph mkp pni tagerr] in Hp |- *; try discriminate; inversion Hp; subst r.
  - left. repeat split; assumption.
  - right. eauto.
Qed.

Definition cap : Z := Z.max (n_nak k) (n_ack k) + 2.
Definition KK : Z := 3 * Z.max 2 cap + 4.
Definition nr (pn : Z) (c : picc) : Z := if bn c =? pn then 0 else 1.
Definition base_send (off i : Z) (c : picc) : Z :=
  KK * (len cmd - off + len R + 2) + 3 * wtx_weight c + 3 * Z.max 0 (cap - i).
Definition base_recv (i : Z) (rsp : bytes) (c : picc) : Z :=
  KK * (len R - len rsp) + 3 * wtx_weight c + 3 * Z.max 0 (cap - i).
Definition mu (p : pcd) (c : picc) : Z :=
  match ph p with
  | PSend off i d => base_send off i c + kind d + 2 * nr (pni p) c
  | PRecv i d rsp => base_recv i rsp c + kind d + 2 * nr (pni p) c
  | _ => 0
  end.

Lemma KK_ge : 10 <= KK. Proof. unfold KK. lia. Qed.
(* the position advances: whatever retry counter, block kind and block number the new state has *)
Lemma KK_step a b : a + 1 <= b -> KK * a + 3 * Z.max 0 (cap - 1) + 3 <= KK * b.
Proof.
  intro H. assert (KK * (a + 1) <= KK * b) by (apply Z.mul_le_mono_nonneg_l; [pose proof KK_ge|]; lia).
  unfold KK in *. lia.
Qed.
Lemma nr_same pn c : bn c = pn -> nr pn c = 0.
Proof. intro H. unfold nr. rewrite H, Z.eqb_refl. reflexivity. Qed.
Lemma nr_le pn c : 0 <= nr pn c <= 1.
Proof. unfold nr. destruct (bn c =? pn); lia. Qed.
Lemma nr_flip pn c : bit pn -> bn c = flip pn -> nr pn c = 1.
Proof. intros Hb H. unfold nr. rewrite H. pose proof (flip_neq pn Hb). destruct (flip pn =? pn) eqn:E; [lia|reflexivity]. Qed.
Lemma mu_done p c : is_done p = true -> mu p c = 0.
Proof. unfold is_done, mu. destruct (ph p); try discriminate. reflexivity. Qed.

(* [mu] without the block in hand and the block numbers *)
Definition ival (p : pcd) : Z := match ph p with PSend _ i _ => i | PRecv i _ _ => i | _ => 0 end.
Definition posn (p : pcd) : Z :=
  match ph p with PSend off _ _ => len cmd - off + len R + 2 | PRecv _ _ rsp => len R - len rsp | _ => 0 end.
Definition base (p : pcd) (c : picc) : Z := KK * posn p + 3 * wtx_weight c + 3 * Z.max 0 (cap - ival p).

Lemma mu_base p c : busy p -> mu p c = base p c + kind (pcd_emit p) + 2 * nr (pni p) c.
Proof. unfold busy, mu, base, posn, ival, pcd_emit. destruct (ph p); try contradiction; reflexivity. Qed.
Lemma base_mono p c c' w : wtx_weight c' + w <= wtx_weight c -> base p c' + 3 * w <= base p c.
Proof. unfold base. lia. Qed.
Lemma base_ge p c : Pos p c -> KK <= base p c.
Proof.
  intros (_ & Hr & H). assert (1 <= posn p).
  { unfold posn, in_cmd, Wait, Ans in *. destruct (ph p) as [off i d | | i d rsp |]; try tauto.
    - pose proof (len_nonneg R). lia.
    - assert (len rsp < len R) by (destruct H; [eapply CardD1_len | eapply CardD2_len]; eassumption). lia. }
  unfold base. pose proof (wtx_weight_nonneg c). pose proof KK_ge.
  assert (KK * 1 <= KK * posn p) by (apply Z.mul_le_mono_nonneg_l; lia). lia.
Qed.

Lemma mu_pos p c : Pos p c -> 1 <= mu p c.
Proof.
  intro H. rewrite mu_base by (eapply Pos_busy; eassumption).
  pose proof (base_ge p c H). pose proof KK_ge. pose proof (nr_le (pni p) c). pose proof (kind_le (pcd_emit p)). lia.
Qed.

(* With f faulty rounds so far the retry counter i of the current step is at most 2f+1 (each fault costs one
   iteration, each R(NAK)/R(ACK)-retransmit pair one more), at most 2f while an R(NAK) is pending.  A fault is
   absorbed while i <= budget, so F faulty rounds in the whole exchange are absorbed when 2F-1 <= budget. *)
Definition is_nak (d : bytes) : bool := match d with b :: _ => (b =? 178) || (b =? 179) | [] => false end.
Definition live_ph (f : Z) (p : pcd) : Prop :=
  match ph p with
  | PSend _ i d => if is_nak d then i <= 2 * f /\ 0 < f else i <= 2 * f + 1
  | PRecv i _ _ => i <= 2 * f + 1
  | PDone (Ok _) => True
  | _ => False
  end.
Definition fresh (p : pcd) : Prop :=
  match ph p with PSend _ _ d => is_nak d = false | PRecv _ _ _ | PDone (Ok _) => True | _ => False end.

Lemma is_nak_iblock pn off : bit pn -> is_nak (iblock k cmd pn off) = false.
Proof. intros [-> | ->]; unfold iblock, pfb_at, is_nak; destruct (more_at k cmd off); reflexivity. Qed.
Lemma is_nak_nak pn : bit pn -> is_nak [Z.lor 178 pn] = true.
Proof. intros [-> | ->]; reflexivity. Qed.

Lemma live_ival f p : live_ph f p -> 0 <= f -> ival p <= 2 * f + 1.
Proof. unfold live_ph, ival. destruct (ph p) as [off i d | | |]; intros H Hf; try lia. destruct (is_nak d); lia. Qed.
Lemma live_fresh f p p' : live_ph f p -> 0 <= f -> ival p' <= Z.max 1 (ival p) -> fresh p' -> live_ph f p'.
Proof.
  intros Hl Hf Hi Hp. pose proof (live_ival f p Hl Hf). unfold live_ph, fresh, ival in *.
  destruct (ph p') as [off i d | | |]; try assumption; [rewrite Hp|]; lia.
Qed.

(* [rho]: what the reader's n_extra counter can still grow by from this state without further faults:
   S(WTX) responses the card still expects (less the one the reader is just echoing) + chained response blocks.
   [evn] is the increment of n_extra in a step (Model: pcd_absorb_x).  One faulty round adds at most 1
   (the card repeats an S(WTX) request the reader has already counted). *)
Definition echo (d : bytes) : Z := 1 - kind d.
Definition chn (p : pcd) : Z :=
  match ph p with
  | PSend _ _ _ => nchain (cmiu kc) (len R)
  | PRecv _ _ rsp => nchain (cmiu kc) (len R - len rsp)
  | _ => 0
  end.
Definition pi_ph (p : pcd) : Z := chn p - echo (pcd_emit p).
Definition rho (p : pcd) (c : picc) : Z := wtx_weight c + pi_ph p.
Definition evn (p : pcd) (a : aresult) (p' : pcd) : Z :=
  if wtx_event k p a then 1 else if chain_event p p' then 1 else 0.

Lemma chn_nonneg p : 0 <= chn p.
Proof. unfold chn. destruct (ph p); try apply nchain_nonneg, Hcmiu; lia. Qed.

Lemma evn_ack pn f pn' f' : evn (mkp pn f) (ARx [Z.lor 162 pn]) (mkp pn' f') = if chain_event (mkp pn f) (mkp pn' f') then 1 else 0.
Proof. reflexivity. Qed.

Lemma rho_nonneg p c : Sync p c -> 0 <= rho p c.
Proof.
  intro HS. unfold rho, pi_ph, echo. pose proof (chn_nonneg p). pose proof (wtx_weight_nonneg c).
  assert (Hrd : forall retry d, kind retry = 1 -> rdata retry c d -> 1 - kind d <= wtx_weight c).
  { intros retry d Hk [-> | w ws nxt -> Hp]; [lia|].
    rewrite kind_wtx. unfold wtx_weight. rewrite Hp. pose proof (plan_weight_nonneg (plan c)). pose proof (len_nonneg ws). lia. }
  destruct HS as [pn off i d c Hb Hoff Hdd HA | pn off i d c Hb Hoff Hm HB Hrd' | pn off i d c Hb Hoff Hm HC Hrd'
                 | pn i rsp c Hb HD | pn i d rsp c Hb HD Hrd' | pn c | pn e c]; cbn [pcd_emit ph mkp tagerr] in *; try (cbn; lia).
  - destruct Hdd as [-> | [-> _]]; [rewrite kind_iblock | rewrite kind_nak]; try assumption; lia.
  - pose proof (Hrd _ d (kind_nak pn Hb) Hrd'). lia.
  - pose proof (Hrd _ d (kind_nak pn Hb) Hrd'). lia.
  - rewrite kind_ack by assumption. lia.
  - pose proof (Hrd _ d (kind_ack pn Hb) Hrd'). lia.
Qed.

(* the potential grows by at most the echo that was lost *)
Lemma fault_send pn off i d c a :
  a = ATimeout \/ a = ATxErr -> bit pn -> Pos (mkp pn (PSend off i d)) c ->
  (i <= n_nak k -> Sync (mkp pn (PSend off (i + 1) [Z.lor 178 pn])) c) ->
  let p := mkp pn (PSend off i d) in let p' := pcd_absorb k cmd p a in
  Sync p' c /\ mu p' c <= base p c - 2 + 2 * nr pn c /\ pi_ph p' <= pi_ph p + 1.
Proof.
  intros Ha Hb HP HS. cbv zeta. rewrite send_timeout by assumption. pose proof (nchain_nonneg (cmiu kc) (len R) Hcmiu).
  pose proof (kind_le d). unfold pi_ph, chn, echo. destruct (i <=? n_nak k) eqn:Ei; cbn [pcd_emit ph mkp tagerr].
  - split; [apply HS; lia|]. rewrite mu_base by exact I. cbn [pcd_emit ph mkp pni]. rewrite kind_nak by assumption.
    unfold base, posn, ival, cap. cbn [ph mkp]. lia.
  - split; [apply S_Err; eapply Pos_exec; eassumption|]. pose proof (base_ge _ c HP). pose proof KK_ge. pose proof (nr_le pn c).
    rewrite mu_done by reflexivity. change (kind []) with 1. lia.
Qed.

Lemma fault_recv pn i d rsp c a :
  a = ATimeout \/ a = ATxErr -> bit pn -> Pos (mkp pn (PRecv i d rsp)) c ->
  (i <= n_ack k -> Sync (mkp pn (PRecv (i + 1) [Z.lor 162 pn] rsp)) c) ->
  let p := mkp pn (PRecv i d rsp) in let p' := pcd_absorb k cmd p a in
  Sync p' c /\ mu p' c <= base p c - 2 + 2 * nr pn c /\ pi_ph p' <= pi_ph p + 1.
Proof.
  intros Ha Hb HP HS. cbv zeta. rewrite recv_timeout by assumption. pose proof (nchain_nonneg (cmiu kc) (len R - len rsp) Hcmiu).
  pose proof (kind_le d). unfold pi_ph, chn, echo. destruct (i <=? n_ack k) eqn:Ei; cbn [pcd_emit ph mkp tagerr].
  - split; [apply HS; lia|]. rewrite mu_base by exact I. cbn [pcd_emit ph mkp pni]. rewrite kind_ack by assumption.
    unfold base, posn, ival, cap. cbn [ph mkp]. lia.
  - split; [apply S_Err; eapply Pos_exec; eassumption|]. pose proof (base_ge _ c HP). pose proof KK_ge. pose proof (nr_le pn c).
    rewrite mu_done by reflexivity. change (kind []) with 1. lia.
Qed.

(* what a round (p, c) -> (pcd_absorb p a, c') keeps and what it costs; [dd]: request and answer both delivered *)
Definition round_facts (dd : bool) (p : pcd) (c : picc) (a : aresult) (c' : picc) : Prop :=
  let p' := pcd_absorb k cmd p a in
  Sync p' c' /\ mu p' c' + 1 <= mu p c /\ rho p' c' + evn p a p' <= rho p c + (if dd then 0 else 1) /\
  (forall f, live_ph f p -> 0 <= f ->
     if dd then (0 < f -> 2 * f <= n_nak k + 1) -> live_ph f p'
     else 2 * f + 1 <= n_nak k -> 2 * f + 1 <= n_ack k -> live_ph (f + 1) p').

Lemma live_fault f p a : live_ph f p -> 0 <= f -> 2 * f + 1 <= n_nak k -> 2 * f + 1 <= n_ack k ->
  a = ATimeout \/ a = ATxErr -> live_ph (f + 1) (pcd_absorb k cmd p a).
Proof.
  intros Hl Hf Hn1 Hn2 Ha. pose proof (live_ival f p Hl Hf) as Hi. destruct p as [pn f0]. unfold live_ph, ival in Hl, Hi. cbn [ph] in Hl, Hi.
  change {| pni := pn; ph := f0 |} with (mkp pn f0).
  destruct f0 as [off i d | off d | i d rsp | r]; try contradiction.
  - rewrite send_timeout by assumption. replace (i <=? n_nak k) with true by lia.
    unfold live_ph. cbn [ph mkp]. destruct (is_nak [Z.lor 178 pn]); lia.
  - rewrite recv_timeout by assumption. replace (i <=? n_ack k) with true by lia.
    unfold live_ph. cbn [ph mkp]. lia.
  - exact Hl.
Qed.

(* the card [c2] may have moved since the round began at [c] *)
Lemma fault_round p c c2 a : Pos p c2 -> a = ATimeout \/ a = ATxErr ->
  wtx_weight c2 <= wtx_weight c -> nr (pni p) c2 <= nr (pni p) c -> round_facts false p c a c2.
Proof.
  destruct p as [pn f]. change {| pni := pn; ph := f |} with (mkp pn f). cbn [pni mkp]. intros HP Ha Hw Hn.
  pose proof (Pos_busy _ _ HP) as Hbz. unfold round_facts, rho, evn. cbv zeta.
  destruct (no_block_event k cmd (mkp pn f) a) as [-> ->]; [destruct Ha as [-> | ->]; exact I|].
  rewrite (mu_base _ c Hbz). cbn [pni mkp]. pose proof (base_mono (mkp pn f) c c2 0). pose proof (kind_le (pcd_emit (mkp pn f))).
  cut (let p' := pcd_absorb k cmd (mkp pn f) a in
       Sync p' c2 /\ mu p' c2 <= base (mkp pn f) c2 - 2 + 2 * nr pn c2 /\ pi_ph p' <= pi_ph (mkp pn f) + 1).
  { intros (H1 & H2 & H3). split; [exact H1|]. split; [lia|]. split; [lia|].
    intros f' Hl Hf Hn1 Hn2. apply live_fault; assumption. }
  pose proof HP as (Hb & Hr & HW). unfold Wait, Ans in HW. cbn [pni ph mkp] in *.
  destruct f as [off i d | | i d rsp |]; try contradiction.
  - apply fault_send; try assumption. intro Hi. destruct HW as [HA | [[Hm HB] | [Hm HC]]].
    + apply S_A; try assumption. right. split; [reflexivity | lia].
    + apply S_B; try assumption. apply Rd_retry; reflexivity.
    + apply S_C; try assumption. apply Rd_retry; reflexivity.
  - apply fault_recv; try assumption.
    intros _. destruct HW as [HD | HD]; [apply S_D1 | apply S_D2; [| | apply Rd_retry; reflexivity]]; assumption.
Qed.

(* the new state's measure is at most [base p c], its n_extra potential with the increment of the step at most [chn p] *)
Definition answer_ok (p : pcd) (c : picc) : Prop :=
  let a := ARx (last c) in let p' := pcd_absorb k cmd p a in
  Sync p' c /\ mu p' c <= base p c /\ pi_ph p' + evn p a p' <= chn p /\ ival p' <= Z.max 1 (ival p) /\ fresh p'.

Lemma echo_send pn off i d c w : bn c = pn -> last c = [242; w] -> Sync (mkp pn (PSend off i [242; w])) c ->
  answer_ok (mkp pn (PSend off i d)) c.
Proof.
  intros Hbn Hl HS. unfold answer_ok. rewrite Hl. cbv zeta. rewrite send_rx_wtx by assumption.
  split; [exact HS|]. split; [rewrite mu_base by exact I; unfold base, posn, ival; cbn [pcd_emit ph mkp pni]; rewrite kind_wtx, nr_same by assumption; lia|].
  split; [|split; [cbn [ival ph mkp]; lia | reflexivity]].
  unfold evn, wtx_event, pi_ph, echo. cbn [ph mkp pcd_emit chn]. rewrite Hf1, kind_wtx. change (is_wtx 242) with true. cbn [andb]. lia.
Qed.
Lemma echo_recv pn i d rsp c w : bn c = pn -> last c = [242; w] -> Sync (mkp pn (PRecv i [242; w] rsp)) c ->
  answer_ok (mkp pn (PRecv i d rsp)) c.
Proof.
  intros Hbn Hl HS. unfold answer_ok. rewrite Hl. cbv zeta. rewrite recv_rx_wtx by assumption.
  split; [exact HS|]. split; [rewrite mu_base by exact I; unfold base, posn, ival; cbn [pcd_emit ph mkp pni]; rewrite kind_wtx, nr_same by assumption; lia|].
  split; [|split; [cbn [ival ph mkp]; lia | exact I]].
  unfold evn, wtx_event, pi_ph, echo. cbn [ph mkp pcd_emit chn]. rewrite Hf2, kind_wtx. change (is_wtx 242) with true. cbn [andb]. lia.
Qed.

Lemma iblock_not_wtx ch pn : bit ch -> bit pn -> is_wtx (Z.lor (Z.lor 2 (16 * ch)) pn) = false.
Proof. intros [-> | ->] [-> | ->]; reflexivity. Qed.
Lemma wtx_event_iblock p ch pn chunk : bit ch -> bit pn -> wtx_event k p (ARx (Z.lor (Z.lor 2 (16 * ch)) pn :: chunk)) = false.
Proof. intros Hc Hb. unfold wtx_event. destruct chunk; [reflexivity|]. rewrite iblock_not_wtx by assumption. reflexivity. Qed.
Lemma flip_eqb pn : bit pn -> (flip pn =? pn) = false.
Proof. intros [-> | ->]; reflexivity. Qed.

Lemma absorb_B pn off i d c : bit pn -> 0 <= off < len cmd -> more_at k cmd off = true -> CardB pn off c ->
  answer_ok (mkp pn (PSend off i d)) c.
Proof.
  intros Hb Hoff Hm HB. pose proof HB as (Hbn & Hrx & Htx & Hex & Hem).
  destruct (emitted_core _ _ Hem) as [[Hl Hp] | (w & ws & Hl & Hp)].
  - unfold answer_ok. rewrite Hl. cbv zeta. rewrite send_rx_ack by assumption. pose proof (flip_bit pn Hb) as Hb'.
    assert (Hlt : off + miu k < len cmd) by (unfold more_at in Hm; lia).
    split; [|split; [|split; [|split; [cbn [ival ph mkp]; lia | apply is_nak_iblock, Hb']]]].
    + apply S_A; [assumption | lia | left; reflexivity |].
      unfold CardA. rewrite flip_flip by assumption. repeat split; assumption.
    + rewrite mu_base by exact I. unfold base, posn, ival. cbn [pcd_emit ph mkp pni]. rewrite kind_iblock by assumption.
      pose proof (nr_le (flip pn) c).
      pose proof (KK_step (len cmd - (off + miu k) + len R + 2) (len cmd - off + len R + 2)). lia.
    + unfold evn, wtx_event, chain_event, is_recv, pi_ph, echo. cbn [ph mkp andb pcd_emit chn]. rewrite kind_iblock by assumption. lia.
  - apply (echo_send pn off i d c w Hbn Hl). apply S_B; try assumption. eapply Rd_echo; [reflexivity | exact Hp].
Qed.

Lemma absorb_C pn off i d c : bit pn -> 0 <= off < len cmd -> more_at k cmd off = false -> CardC pn c ->
  answer_ok (mkp pn (PSend off i d)) c.
Proof.
  intros Hb Hoff Hm HC. pose proof HC as (ib & rest & Hbn & Hrx & Hex & Hni & Htx & Hem). pose proof (nchain_nonneg (cmiu kc) (len R) Hcmiu).
  destruct (emitted_core _ _ Hem) as [[Hl Hp] | (w & ws & Hl & Hp)].
  - unfold answer_ok. rewrite Hl. cbv zeta. pose proof (flip_bit pn Hb) as Hb'.
    destruct (next_iblock_spec _ _ _ _ _ Hcmiu Hni) as (ch & chunk & Hch & -> & Hcr & _ & Hch0 & Hch1).
    rewrite send_rx_iblock by assumption. unfold evn. rewrite wtx_event_iblock by assumption.
    destruct Hch as [-> | ->]; cbn [Z.eqb Pos.eqb].
    + (* last response block *)
      rewrite (Hch0 eq_refl), app_nil_r in *. subst chunk.
      split; [|split; [|split; [|split; [cbn [ival ph mkp]; lia | exact I]]]].
      * apply S_Ok; try assumption. rewrite flip_flip; assumption.
      * rewrite mu_done by reflexivity. unfold base, posn. cbn [ph mkp]. pose proof (wtx_weight_nonneg c). pose proof (len_nonneg R).
        pose proof (KK_step 0 (len cmd - off + len R + 2)). lia.
      * unfold chain_event, is_recv, pi_ph, chn. cbn [ph mkp andb pcd_emit]. cbn. lia.
    + destruct (Hch1 eq_refl) as [Hr Hlc]. pose proof (rsp_len_R _ _ Hcr) as HlR. pose proof (len_pos rest Hr).
      split; [|split; [|split; [|split; [cbn [ival ph mkp]; lia | exact I]]]].
      * apply S_D1; [assumption|]. unfold CardD1. rewrite flip_flip by assumption. repeat split; try assumption; congruence.
      * rewrite mu_base by exact I. unfold base, posn, ival. cbn [pcd_emit ph mkp pni]. rewrite kind_ack by assumption.
        pose proof (nr_le (flip pn) c).
        pose proof (len_nonneg chunk). pose proof (KK_step (len R - len chunk) (len cmd - off + len R + 2)). lia.
      * unfold chain_event, is_recv, pi_ph, chn, echo. cbn [ph mkp pni andb pcd_emit]. rewrite flip_eqb, kind_ack by assumption.
        cbn [negb]. rewrite Hlc, nchain_step by lia. lia.
  - apply (echo_send pn off i d c w Hbn Hl). apply S_C; try assumption. eapply Rd_echo; [reflexivity | exact Hp].
Qed.

Lemma absorb_D2 pn i d rsp c : bit pn -> CardD2 pn rsp c -> answer_ok (mkp pn (PRecv i d rsp)) c.
Proof.
  intros Hb HD. pose proof HD as (T & ib & rest & Hbn & HT & HR & Hni & Htx & Hrx & Hex & Hem).
  pose proof (rsp_len_R _ _ HR) as HlR. pose proof (nchain_nonneg (cmiu kc) (len R - len rsp) Hcmiu).
  destruct (emitted_core _ _ Hem) as [[Hl Hp] | (w & ws & Hl & Hp)].
  - unfold answer_ok. rewrite Hl. cbv zeta. pose proof (flip_bit pn Hb) as Hb'.
    destruct (next_iblock_spec _ _ _ _ _ Hcmiu Hni) as (ch & chunk & Hch & -> & Hcr & Hne & Hch0 & Hch1).
    rewrite recv_rx_iblock by assumption. unfold evn. rewrite wtx_event_iblock by assumption.
    pose proof (len_pos chunk (Hne HT)) as Hcn. pose proof (len_app chunk rest) as HlT. rewrite Hcr in HlT.
    destruct Hch as [-> | ->]; cbn [Z.eqb Pos.eqb].
    + rewrite (Hch0 eq_refl), app_nil_r in *. subst chunk. rewrite HR.
      split; [|split; [|split; [|split; [cbn [ival ph mkp]; lia | exact I]]]].
      * apply S_Ok; try assumption. rewrite flip_flip; assumption.
      * rewrite mu_done by reflexivity. unfold base, posn. cbn [ph mkp]. pose proof (wtx_weight_nonneg c).
        pose proof (KK_step 0 (len R - len rsp)). lia.
      * unfold chain_event, is_recv, pi_ph, chn. cbn [ph mkp andb pcd_emit]. cbn. lia.
    + destruct (Hch1 eq_refl) as [Hr Hlc]. pose proof (len_pos rest Hr).
      split; [|split; [|split; [|split; [cbn [ival ph mkp]; lia | exact I]]]].
      * apply S_D1; [assumption|]. unfold CardD1. rewrite flip_flip by assumption.
        repeat split; try assumption; [congruence|]. rewrite <- app_assoc, Htx, Hcr. exact HR.
      * rewrite mu_base by exact I. unfold base, posn, ival. cbn [pcd_emit ph mkp pni]. rewrite kind_ack by assumption.
        pose proof (nr_le (flip pn) c). rewrite len_app.
        pose proof (KK_step (len R - (len rsp + len chunk)) (len R - len rsp)). lia.
      * unfold chain_event, is_recv, pi_ph, chn, echo. cbn [ph mkp pni andb pcd_emit]. rewrite flip_eqb, kind_ack by assumption.
        cbn [negb]. rewrite len_app, Hlc. replace (len R - (len rsp + cmiu kc)) with (len R - len rsp - cmiu kc) by lia.
        rewrite nchain_step by lia. lia.
  - apply (echo_recv pn i d rsp c w Hbn Hl). apply S_D2; try assumption. eapply Rd_echo; [reflexivity | exact Hp].
Qed.

Lemma absorb_ans p c : bit (pni p) -> in_cmd p -> Ans p c -> answer_ok p c.
Proof.
  destruct p as [pn [off i d | | i d rsp |]]; unfold in_cmd, Ans; cbn [ph pni]; intros Hb Hr HA; try contradiction.
  - destruct HA as [[Hm HB] | [Hm HC]]; [exact (absorb_B pn off i d c Hb Hr Hm HB) | exact (absorb_C pn off i d c Hb Hr Hm HC)].
  - exact (absorb_D2 pn i d rsp c Hb HA).
Qed.

Lemma pcb_i_chain pn : bit pn -> Z.land (Z.lor 18 pn) 238 = 2 /\ Z.land (Z.lor 18 pn) 16 <> 0.
Proof. intros [-> | ->]; split; cbv; congruence. Qed.
Lemma pcb_i_final pn : bit pn -> Z.land (Z.lor 2 pn) 238 = 2 /\ Z.land (Z.lor 2 pn) 16 = 0.
Proof. intros [-> | ->]; split; reflexivity. Qed.
Lemma pcb_nak pn : bit pn -> Z.land (Z.lor 178 pn) 238 = 162 /\ Z.land (Z.lor 178 pn) 1 = pn /\ Z.land (Z.lor 178 pn) 16 <> 0.
Proof. intros [-> | ->]; repeat split; cbv; congruence. Qed.
Lemma pcb_ack pn : bit pn -> Z.land (Z.lor 162 pn) 238 = 162 /\ Z.land (Z.lor 162 pn) 1 = pn /\ Z.land (Z.lor 162 pn) 16 = 0.
Proof. intros [-> | ->]; repeat split; reflexivity. Qed.

Lemma card_A_iblock pn off c c' r : bit pn -> 0 <= off < len cmd -> CardA pn off c ->
  picc_absorb app kc c (iblock k cmd pn off) = (c', r) ->
  r = Some (last c') /\ (if more_at k cmd off then CardB pn off c' else CardC pn c').
Proof.
  intros Hb Hoff (Hbn & Hp & Hrx & Htx & Hex). unfold iblock, pfb_at.
  assert (Hsl : len (slice cmd off (off + miu k)) + 3 <= cfsc kc)
    by (pose proof (len_slice_le cmd off (off + miu k)); lia).
  destruct (more_at k cmd off) eqn:Hm.
  - destruct (pcb_i_chain pn Hb) as [H1 H2].
    rewrite picc_iblock_chained by assumption. intro H.
    apply picc_emit_spec in H; [|reflexivity]. destruct H as (-> & (Hc1 & Hc2 & Hc3 & Hc4) & Hem & _).
    cbn [bn rxbuf txrest execs] in Hc1, Hc2, Hc3, Hc4.
    split; [reflexivity|]. unfold CardB. rewrite Hbn, flip_flip in Hc1, Hem by assumption.
    repeat split; try congruence. rewrite Hc2, Hrx. apply take_slice; lia.
  - destruct (pcb_i_final pn Hb) as [H1 H2].
    rewrite picc_iblock_final by assumption. cbv zeta.
    assert (Hap : rxbuf c ++ slice cmd off (off + miu k) = cmd).
    { rewrite Hrx, take_slice by lia. apply take_all. unfold more_at in Hm. lia. }
    rewrite Hap, Hex, Hbn, flip_flip by assumption. fold R.
    destruct (next_iblock kc pn R) as [ib rest] eqn:Hni. intro H.
    apply picc_emit_spec in H; [|reflexivity]. destruct H as (-> & (Hc1 & Hc2 & Hc3 & Hc4) & Hem & _).
    cbn [bn rxbuf txrest execs] in Hc1, Hc2, Hc3, Hc4.
    split; [reflexivity|]. exists ib, rest. repeat split; assumption.
Qed.

Lemma card_A_nak pn off c : bit pn -> CardA pn off c ->
  exists c', picc_absorb app kc c [Z.lor 178 pn] = (c', Some (last c')) /\ last c' = [Z.lor 162 (flip pn)] /\ CardA pn off c'.
Proof.
  intros Hb (Hbn & Hp & Hrx & Htx & Hex). destruct (pcb_nak pn Hb) as (H1 & H2 & H3).
  rewrite picc_nak_other; try assumption; try lia.
  - rewrite Hbn. eexists (Build_picc _ _ _ _ _ _ _). split; [reflexivity|]. split; [reflexivity|].
    unfold CardA. cbn [bn pend rxbuf txrest execs]. repeat split; assumption.
  - rewrite H2, Hbn. intro E. symmetry in E. revert E. apply flip_neq, Hb.
Qed.

Lemma card_D1_ack pn rsp c c' r : bit pn -> CardD1 pn rsp c ->
  picc_absorb app kc c [Z.lor 162 pn] = (c', r) -> r = Some (last c') /\ CardD2 pn rsp c'.
Proof.
  intros Hb (Hbn & Hp & Htx & HR & Hrx & Hex). destruct (pcb_ack pn Hb) as (H1 & H2 & H3).
  rewrite picc_ack_other; try assumption; try lia.
  - rewrite Hbn, flip_flip by assumption.
    destruct (next_iblock kc pn (txrest c)) as [ib rest] eqn:Hni. intro H.
    apply picc_emit_spec in H; [|reflexivity]. destruct H as (-> & (Hc1 & Hc2 & Hc3 & Hc4) & Hem & _).
    cbn [bn rxbuf txrest execs] in Hc1, Hc2, Hc3, Hc4.
    split; [reflexivity|]. exists (txrest c), ib, rest. repeat split; try assumption; congruence.
  - rewrite H2, Hbn. intro E. symmetry in E. revert E. apply flip_neq, Hb.
Qed.

Lemma CardB_core pn off c c' : CardB pn off c -> same_core c c' -> emitted [Z.lor 162 pn] c' -> CardB pn off c'.
Proof. intros (H1 & H2 & H3 & H4 & _) (E1 & E2 & E3 & E4) Hem. unfold CardB. repeat split; congruence. Qed.

(* in an answered state the card has sent a block [blk] with the reader's block number (possibly announced by S(WTX)
   requests); beyond that the state speaks of the card's core only *)
Lemma Ans_emitted p c : Ans p c ->
  exists blk, blk <> [] /\ bn c = pni p /\ emitted blk c /\ forall c', same_core c c' -> emitted blk c' -> Ans p c'.
Proof.
  unfold Ans. destruct (ph p) as [off i d | | i d rsp |]; try contradiction.
  - intros [[Hm HB] | [Hm (ib & rest & H1 & H2 & H3 & Hni & H4 & Hem)]].
    + exists [Z.lor 162 (pni p)]. split; [discriminate|]. split; [apply HB|]. split; [apply HB|].
      intros c' Hc Hem. left. split; [exact Hm | exact (CardB_core _ off c c' HB Hc Hem)].
    + exists ib. split; [eapply next_iblock_nonnil; eassumption|]. split; [assumption|]. split; [assumption|].
      intros c' (E1 & E2 & E3 & E4) Hem'. right. split; [exact Hm|]. exists ib, rest. repeat split; congruence.
  - intros (T & ib & rest & H1 & HT & HR & Hni & H4 & H5 & H6 & Hem). exists ib.
    split; [eapply next_iblock_nonnil; eassumption|]. split; [assumption|]. split; [assumption|].
    intros c' (E1 & E2 & E3 & E4) Hem'. exists T, ib, rest. repeat split; congruence.
Qed.

(* ... and the reader sends its retry block (rule 11: the card repeats its last block) or the S(WTX) echo
   (rule 3: one S(WTX) response less to come) *)
Lemma answered_step p c retry d c' r : bit (pni p) -> Ans p c ->
  retry = [Z.lor 178 (pni p)] \/ retry = [Z.lor 162 (pni p)] -> rdata retry c d ->
  picc_absorb app kc c d = (c', r) ->
  r = Some (last c') /\ Ans p c' /\ wtx_weight c' + echo d <= wtx_weight c.
Proof.
  intros Hb HA Hre Hrd H. destruct (Ans_emitted p c HA) as (blk & Hne & Hbn & Hem & HK).
  destruct Hrd as [-> | w ws nxt -> Hp].
  - assert (Hpcb : exists pcb, retry = [pcb] /\ Z.land pcb 238 = 162 /\ Z.land pcb 1 = pni p /\ kind retry = 1).
    { destruct Hre as [-> | ->]; eexists; (split; [reflexivity|]);
        [destruct (pcb_nak _ Hb) as (? & ? & _); rewrite kind_nak by assumption
        |destruct (pcb_ack _ Hb) as (? & ? & _); rewrite kind_ack by assumption]; auto. }
    destruct Hpcb as (pcb & -> & Hp1 & Hp2 & Hk).
    rewrite picc_rblock_same in H; [| assumption | congruence | eapply emitted_last_nonnil; eassumption | lia].
    inversion H; subst c' r. unfold echo. rewrite Hk.
    split; [reflexivity|]. split; [apply HK; [repeat split | assumption] | lia].
  - pose proof (emitted_pend _ _ _ _ _ Hem Hp) as ->.
    apply (picc_wtx_response app kc c w ws blk c' r Hp) in H; [|lia].
    destruct H as (-> & Hc & Hem' & Hw). unfold echo. rewrite kind_wtx.
    split; [reflexivity|]. split; [apply HK; assumption | lia].
Qed.

(* the card is in an answered state when it has taken the reader's block, and the reader gets its answer *)
Lemma ans_round p c c' : Pos p c -> Ans p c' -> wtx_weight c' + echo (pcd_emit p) <= wtx_weight c ->
  Pos p c' /\ nr (pni p) c' <= nr (pni p) c /\ round_facts true p c (ARx (last c')) c'.
Proof.
  intros HP HA Hw. pose proof (Pos_busy p c HP) as Hbz. destruct HP as (Hb & Hr & _).
  destruct (Ans_emitted p c' HA) as (_ & _ & Hbn & _). pose proof (nr_le (pni p) c) as Hn.
  split; [unfold Pos; tauto|]. split; [rewrite (nr_same _ c' Hbn); lia|].
  destruct (absorb_ans p c' Hb Hr HA) as (H1 & H2 & H3 & H4 & H5). unfold round_facts, rho, pi_ph in *. cbv zeta.
  split; [assumption|]. rewrite (mu_base p c Hbz). pose proof (base_mono p c c' _ Hw). pose proof (kind_le (pcd_emit p)). unfold echo in *.
  split; [lia|]. split; [lia|]. intros f Hl Hf _. eapply live_fresh; eassumption.
Qed.

(* rule 12 answered: R(ACK) with the card's block number; the reader retransmits the I-block within the budget *)
Lemma absorb_A_nak pn off i c c' : bit pn -> 0 <= off < len cmd -> i <= n_nak k + 1 -> CardA pn off c -> CardA pn off c' ->
  wtx_weight c' <= wtx_weight c ->
  round_facts true (mkp pn (PSend off i [Z.lor 178 pn])) c (ARx [Z.lor 162 (flip pn)]) c'.
Proof.
  intros Hb Hoff Hi HA HA' Hw. unfold round_facts. cbv zeta. rewrite send_rx_rack_other by assumption.
  pose proof (nr_flip pn c Hb (proj1 HA)) as Hn. pose proof (nr_flip pn c' Hb (proj1 HA')) as Hn'.
  pose proof (nchain_nonneg (cmiu kc) (len R) Hcmiu). pose proof (wtx_weight_nonneg c').
  rewrite (mu_base _ c) by exact I. unfold base, posn, ival. cbn [pcd_emit ph mkp pni]. rewrite kind_nak, Hn by assumption.
  destruct (if fix_rack k then i <=? n_nak k + 1 else true) eqn:Er.
  - split; [apply S_A; try assumption; left; reflexivity|].
    split; [rewrite mu_base by exact I; unfold base, posn, ival, cap; cbn [pcd_emit ph mkp pni]; rewrite kind_iblock, Hn' by assumption; lia|].
    split.
    + unfold rho, evn, wtx_event, chain_event, is_recv, pi_ph, chn, echo. cbn [ph mkp andb pcd_emit].
      rewrite kind_iblock, kind_nak by assumption. lia.
    + intros f Hl Hf _. unfold live_ph in *. cbn [ph mkp] in *.
      rewrite is_nak_nak in Hl by assumption. rewrite is_nak_iblock by assumption. lia.
  - split; [apply S_Err; left; apply HA'|].
    split; [rewrite mu_done by reflexivity; pose proof (len_nonneg R); pose proof (KK_step 0 (len cmd - off + len R + 2)); lia|].
    split.
    + unfold rho, evn, wtx_event, chain_event, is_recv, pi_ph, chn, echo. cbn [ph mkp tagerr andb pcd_emit].
      rewrite kind_nak by assumption. cbn. lia.
    + intros f Hl Hf Hn1. unfold live_ph in Hl. cbn [ph mkp] in Hl. rewrite is_nak_nak in Hl by assumption.
      destruct (fix_rack k); [lia | discriminate].
Qed.

Lemma deliver p c c' r : Sync p c -> is_done p = false -> picc_absorb app kc c (pcd_emit p) = (c', r) ->
  r = Some (last c') /\ Pos p c' /\ nr (pni p) c' <= nr (pni p) c /\ round_facts true p c (ARx (last c')) c'.
Proof.
  intros HS Hd E. pose proof (Sync_Pos p c HS Hd) as HP. pose proof (picc_absorb_weight _ _ _ _ _ _ E) as Hw.
  destruct HS as [pn off i d c Hb Hoff Hdd HA | pn off i d c Hb Hoff Hm HB Hrd | pn off i d c Hb Hoff Hm HC Hrd
                 | pn i rsp c Hb HD | pn i d rsp c Hb HD Hrd | pn c | pn e c]; try discriminate; cbn [pcd_emit ph mkp] in E.
  - destruct Hdd as [-> | [-> Hi]].
    + apply (card_A_iblock pn off c c' r Hb Hoff HA) in E. destruct E as [-> HC'].
      split; [reflexivity|]. apply ans_round; [exact HP | | unfold echo; cbn [pcd_emit ph mkp]; rewrite kind_iblock by assumption; lia].
      unfold Ans. cbn [ph mkp pni]. destruct (more_at k cmd off); [left | right]; split; (reflexivity || assumption).
    + (* R(NAK) reaches a card that has not seen the block: rule 12 *)
      destruct (card_A_nak pn off c Hb HA) as (c2 & E2 & Hl & HA'). rewrite E2 in E. inversion E; subst c2 r.
      split; [reflexivity|]. split; [unfold Pos, in_cmd, Wait; cbn [ph mkp pni]; tauto|].
      cbn [pni mkp]. split; [rewrite (nr_flip pn c Hb (proj1 HA)), (nr_flip pn c' Hb (proj1 HA')); lia|].
      rewrite Hl. apply absorb_A_nak; assumption.
  - destruct (answered_step (mkp pn (PSend off i d)) c _ d c' r Hb (or_introl (conj Hm HB)) (or_introl eq_refl) Hrd E) as (-> & HA' & Hwe).
    split; [reflexivity|]. apply ans_round; assumption.
  - destruct (answered_step (mkp pn (PSend off i d)) c _ d c' r Hb (or_intror (conj Hm HC)) (or_introl eq_refl) Hrd E) as (-> & HA' & Hwe).
    split; [reflexivity|]. apply ans_round; assumption.
  - apply (card_D1_ack pn rsp c c' r Hb HD) in E. destruct E as [-> HD'].
    split; [reflexivity|]. apply ans_round; [exact HP | exact HD' | unfold echo; cbn [pcd_emit ph mkp]; rewrite kind_ack by assumption; lia].
  - destruct (answered_step (mkp pn (PRecv i d rsp)) c _ d c' r Hb HD (or_intror eq_refl) Hrd E) as (-> & HA' & Hwe).
    split; [reflexivity|]. apply ans_round; assumption.
Qed.

Lemma round_all p c ff c' a : Sync p c -> is_done p = false -> air app kc c (pcd_emit p) ff = (c', a) ->
  round_facts (is_dd ff) p c a c'.
Proof.
  intros HS Hd. unfold air. destruct ff as [f1 f2]. cbn [fst snd].
  destruct f1.
  - destruct (picc_absorb app kc c (pcd_emit p)) as [c1 r] eqn:E.
    destruct (deliver p c c1 r HS Hd E) as (-> & HP & Hn & Hans). pose proof (picc_absorb_weight _ _ _ _ _ _ E) as Hw.
    destruct f2; intro E2; inversion E2; subst c' a.
    + exact Hans.
    + apply fault_round; [exact HP | left; reflexivity | exact Hw | exact Hn].
    + apply fault_round; [exact HP | right; reflexivity | exact Hw | exact Hn].
  - intro E; inversion E; subst. apply fault_round; [apply Sync_Pos; assumption | left; reflexivity | lia | lia].
  - intro E; inversion E; subst. apply fault_round; [apply Sync_Pos; assumption | left; reflexivity | lia | lia].
Qed.

Lemma round_sync p c ff : Sync p c -> is_done p = false ->
  let '(p', c') := round app k kc cmd (p, c) ff in Sync p' c' /\ mu p' c' + 1 <= mu p c.
Proof.
  intros HS Hd. unfold round. rewrite Hd. destruct (air app kc c (pcd_emit p) ff) as [c' a] eqn:E.
  destruct (round_all p c ff c' a HS Hd E) as (H1 & H2 & _). split; assumption.
Qed.

Lemma absorb_x_none x a : xp (pcd_absorb_x k None cmd x a) = pcd_absorb k cmd (xp x) a.
Proof. unfold pcd_absorb_x. destruct (wtx_event k (xp x) a); [reflexivity|]. destruct (chain_event _ _); reflexivity. Qed.

Lemma absorb_x_shape mx x a :
  let p' := pcd_absorb k cmd (xp x) a in let x' := pcd_absorb_x k mx cmd x a in
  nx x' = nx x + evn (xp x) a p' /\
  (xp x' = p' \/ (over mx (nx x') = true /\ exists pn', xp x' = mkp pn' (tagerr E_PROTOCOL))).
Proof.
  cbv zeta. unfold pcd_absorb_x, evn.
  destruct (wtx_event k (xp x) a).
  - cbn [nx xp]. split; [reflexivity|]. destruct (over mx (nx x + 1)) eqn:E; [right; split; [first [exact E | reflexivity] | eexists; reflexivity] | left; reflexivity].
  - destruct (chain_event (xp x) (pcd_absorb k cmd (xp x) a)).
    + cbn [nx xp]. split; [reflexivity|]. destruct (over mx (nx x + 1)) eqn:E; [right; split; [first [exact E | reflexivity] | eexists; reflexivity] | left; reflexivity].
    + cbn [nx xp]. split; [lia | left; reflexivity].
Qed.

(* whatever the budget: the step of the reader without budget, or the exchange ends with PROTOCOL_ERROR *)
Lemma stepx_sync mx x c ff c' a : Sync (xp x) c -> is_done (xp x) = false -> air app kc c (pcd_emit (xp x)) ff = (c', a) ->
  let x' := pcd_absorb_x k mx cmd x a in Sync (xp x') c' /\ mu (xp x') c' + 1 <= mu (xp x) c.
Proof.
  intros HS Hd E. cbv zeta. destruct (round_all _ c ff c' a HS Hd E) as (HS' & Hmu & _).
  destruct (absorb_x_shape mx x a) as [_ [-> | (_ & pn' & ->)]]; [split; assumption|].
  split; [apply S_Err; eapply Sync_exec; eassumption|]. rewrite (mu_done (mkp pn' _)) by reflexivity.
  destruct (is_done (pcd_absorb k cmd (xp x) a)) eqn:Hd'; [rewrite mu_done in Hmu by assumption; lia|].
  pose proof (mu_pos _ c' (Sync_Pos _ _ HS' Hd')). lia.
Qed.

(* what a run returns when it stops in state (x, c) with the blocks [tr] sent *)
Definition fin (x : xpcd) (c : picc) (tr : list bytes) : outcome * Z :=
  ({| o_res := match ph (xp x) with PDone r => r | _ => Hang end; o_pni := pni (xp x); o_card := c; o_blocks := rev tr |}, nx x).

Lemma runx_done mx fuel x c sc tr : is_done (xp x) = true -> runx app fuel k mx kc cmd x c sc tr = fin x c tr.
Proof. unfold is_done, fin. intro H. destruct fuel; cbn [runx]; destruct (ph (xp x)); try discriminate; reflexivity. Qed.
Lemma runx_0 mx x c sc tr : runx app 0 k mx kc cmd x c sc tr = fin x c tr.
Proof. unfold fin. cbn [runx]. destruct (ph (xp x)); reflexivity. Qed.
Lemma runx_S mx f x c sc tr : is_done (xp x) = false ->
  runx app (S f) k mx kc cmd x c sc tr =
  let '(c', a) := air app kc c (pcd_emit (xp x)) (hd_ff sc) in
  runx app f k mx kc cmd (pcd_absorb_x k mx cmd x a) c' (tl sc) (pcd_emit (xp x) :: tr).
Proof.
  intro Hd. assert (Hs := Hd). unfold is_done in Hs. cbn [runx]. fold (hd_ff sc). unfold roundx. rewrite Hd.
  destruct (air app kc c (pcd_emit (xp x)) (hd_ff sc)) as [c' a]. destruct (ph (xp x)); try discriminate; reflexivity.
Qed.

(* a property of (rounds made, reader, card, script left, blocks sent) kept by every round holds where the run
   stops, and a run that stops before the exchange is over has made [fuel] rounds *)
Lemma runx_inv mx (I : nat -> xpcd -> picc -> list (fate * fate) -> list bytes -> Prop) :
  (forall n x c sc tr c' a, I n x c sc tr -> is_done (xp x) = false ->
     air app kc c (pcd_emit (xp x)) (hd_ff sc) = (c', a) ->
     I (S n) (pcd_absorb_x k mx cmd x a) c' (tl sc) (pcd_emit (xp x) :: tr)) ->
  forall fuel n x c sc tr, I n x c sc tr ->
  exists m x' c' sc' tr', runx app fuel k mx kc cmd x c sc tr = fin x' c' tr' /\ I m x' c' sc' tr' /\
                          (is_done (xp x') = false -> m = (n + fuel)%nat).
Proof.
  intro Hstep. induction fuel as [|f IH]; intros n x c sc tr HI.
  - exists n, x, c, sc, tr. split; [apply runx_0|]. split; [exact HI | lia].
  - destruct (is_done (xp x)) eqn:Hd.
    + exists n, x, c, sc, tr. split; [apply runx_done, Hd|]. split; [exact HI | congruence].
    + rewrite runx_S by assumption. destruct (air app kc c (pcd_emit (xp x)) (hd_ff sc)) as [c' a] eqn:E.
      destruct (IH (S n) _ c' (tl sc) _ (Hstep _ _ _ _ _ _ _ HI Hd E)) as (m & x' & c2 & sc' & tr' & H1 & H2 & H3).
      exists m, x', c2, sc', tr'. split; [exact H1|]. split; [exact H2|]. intro H. rewrite (H3 H). lia.
Qed.

Lemma runx_sync mx fuel x c sc : Sync (xp x) c ->
  let o := fst (runx app fuel k mx kc cmd x c sc []) in
  Forall blk_ok (o_blocks o) /\ exec_ok (o_card o) /\
  ((o_res o = Hang /\ Z.of_nat fuel < mu (xp x) c) \/ final_ok (o_res o) (o_pni o) (o_card o)).
Proof.
  intro HS.
  destruct (runx_inv mx (fun n x' c' _ tr => Sync (xp x') c' /\ Forall blk_ok (rev tr) /\ mu (xp x') c' + Z.of_nat n <= mu (xp x) c))
    with (fuel := fuel) (n := 0%nat) (x := x) (c := c) (sc := sc) (tr := @nil bytes)
    as (m & x' & c' & _ & tr' & -> & (HS' & Htr & Hmu) & Hm).
  - intros n x1 c1 sc1 tr1 c2 a (H1 & H2 & H3) Hd E. destruct (stepx_sync mx x1 c1 _ c2 a H1 Hd E) as [H4 H5].
    split; [exact H4|]. split; [|lia]. cbn [rev]. apply Forall_app. split; [exact H2|].
    constructor; [apply (sync_emit_ok _ c1 H1) | constructor].
  - split; [exact HS|]. split; [constructor | lia].
  - cbv zeta. unfold fin. cbn [fst o_res o_pni o_card o_blocks].
    split; [exact Htr|]. split; [eapply Sync_exec; eassumption|].
    destruct (is_done (xp x')) eqn:Hd.
    + right. unfold is_done in Hd. destruct (ph (xp x')) eqn:Ep; try discriminate. eapply sync_done_final; eassumption.
    + left. pose proof (mu_pos _ c' (Sync_Pos _ _ HS' Hd)). rewrite (Hm eq_refl) in Hmu.
      unfold is_done in Hd. destruct (ph (xp x')); try discriminate; (split; [reflexivity | lia]).
Qed.

Lemma runx_live fuel x c sc F : Sync (xp x) c -> live_ph 0 (xp x) -> faults sc <= F ->
  (0 < F -> 2 * F - 1 <= n_nak k /\ 2 * F - 1 <= n_ack k) ->
  let o := fst (runx app fuel k None kc cmd x c sc []) in
  o_res o = Hang \/ (o_res o = Ok R /\ execs (o_card o) = e0 ++ [cmd]).
Proof.
  intros HS Hl HF HnF.
  destruct (runx_inv None (fun _ x' c' sc' _ => Sync (xp x') c' /\ exists f, live_ph f (xp x') /\ 0 <= f /\ f + faults sc' <= F))
    with (fuel := fuel) (n := 0%nat) (x := x) (c := c) (sc := sc) (tr := @nil bytes)
    as (_ & x' & c' & _ & tr' & -> & (HS' & f & Hl' & _) & _).
  - intros _ x1 c1 sc1 tr1 c2 a (H1 & f & H2 & H3 & H4) Hd E. rewrite absorb_x_none.
    destruct (round_all _ c1 _ c2 a H1 Hd E) as (H5 & _ & _ & H6). split; [exact H5|]. specialize (H6 f H2 H3).
    pose proof (faults_hd_tl sc1). pose proof (faults_nonneg (tl sc1)).
    destruct (is_dd (hd_ff sc1)); [exists f | exists (f + 1)]; (split; [apply H6; lia | lia]).
  - split; [exact HS|]. exists 0. split; [exact Hl | lia].
  - cbv zeta. unfold fin. cbn [fst o_res o_card]. unfold live_ph in Hl'.
    destruct (ph (xp x')) as [| | |r] eqn:Ep; auto. destruct r; try contradiction. right.
    destruct HS'; cbn [ph mkp tagerr] in Ep; try discriminate. inversion Ep. split; [reflexivity | assumption].
Qed.

(* without budget the counter only counts: at the end it is at most what the card announced + one per faulty round *)
Lemma runx_count fuel x c sc tr : Sync (xp x) c ->
  snd (runx app fuel k None kc cmd x c sc tr) <= nx x + rho (xp x) c + faults sc.
Proof.
  intro HS.
  destruct (runx_inv None (fun _ x' c' sc' _ => Sync (xp x') c' /\ nx x' + rho (xp x') c' + faults sc' <= nx x + rho (xp x) c + faults sc))
    with (fuel := fuel) (n := 0%nat) (x := x) (c := c) (sc := sc) (tr := tr)
    as (_ & x' & c' & sc' & tr' & -> & (HS' & Hle) & _).
  - intros _ x1 c1 sc1 tr1 c2 a (H1 & H2) Hd E. pose proof (absorb_x_none x1 a) as Hx. rewrite Hx.
    destruct (round_all _ c1 _ c2 a H1 Hd E) as (H5 & _ & H6 & _). split; [exact H5|].
    destruct (absorb_x_shape None x1 a) as [Hn _]. cbv zeta in Hn. pose proof (faults_hd_tl sc1). lia.
  - split; [exact HS | lia].
  - cbn [fin snd]. pose proof (rho_nonneg _ _ HS'). pose proof (faults_nonneg sc'). lia.
Qed.

(* the reader without budget, with the counter forgotten, is [run] *)
Lemma runx_none_run fuel : forall x c sc tr,
  fst (runx app fuel k None kc cmd x c sc tr) = run app fuel k kc cmd (xp x) c sc tr.
Proof.
  induction fuel as [|f IH]; intros x c sc tr.
  - cbn [runx run]. destruct (ph (xp x)); reflexivity.
  - destruct (is_done (xp x)) eqn:Hd.
    + rewrite runx_done by assumption. unfold is_done in Hd. cbn [run fin fst]. destruct (ph (xp x)); try discriminate; reflexivity.
    + rewrite runx_S by assumption. assert (Hs := Hd). unfold is_done in Hs. cbn [run]. fold (hd_ff sc). unfold round. rewrite Hd.
      destruct (air app kc c (pcd_emit (xp x)) (hd_ff sc)) as [c' a]. rewrite IH, absorb_x_none.
      destruct (ph (xp x)); try discriminate; reflexivity.
Qed.
Definition fuel_bound (c : picc) : Z := KK * (len cmd + len R + 2) + 3 * wtx_weight c + 3 * Z.max 0 cap + 3.

Lemma start_sync pn c : in_step pn c -> execs c = e0 -> 0 < len cmd ->
  let p := pcd_start k cmd pn in
  Sync p c /\ mu p c <= fuel_bound c /\ live_ph 0 p /\ rho p c = wtx_weight c + nchain (cmiu kc) (len R).
Proof.
  intros (Hb & Hbn & Hp & Hrx & Htx) Hex Hc. cbv zeta. rewrite pcd_start_eq by assumption.
  split; [apply S_A; [assumption | lia | left; reflexivity |]; unfold CardA; repeat split; assumption|].
  split; [rewrite mu_base by exact I; unfold base, posn, ival, fuel_bound, cap; cbn [pcd_emit ph mkp pni];
          rewrite kind_iblock by assumption; pose proof (nr_le pn c); lia|].
  split; [unfold live_ph; cbn [ph mkp]; rewrite is_nak_iblock by assumption; lia|].
  unfold rho, pi_ph, chn, echo. cbn [pcd_emit ph mkp]. rewrite kind_iblock by assumption. lia.
Qed.
End SyncProof.

Definition repaired (k : cfg) : Prop := fix_wtx_try k = true /\ fix_wtx_chain k = true.
Definition params_ok (k : cfg) (kc : ccfg) : Prop := 0 < miu k /\ 0 < cmiu kc /\ miu k + 3 <= cfsc kc.
Definition response (app : Z -> bytes -> bytes) (c : picc) (cmd : bytes) : bytes := app (len (execs c)) cmd.
Definition enough_fuel (app : Z -> bytes -> bytes) (k : cfg) (cmd : bytes) (c : picc) (fuel : nat) : Prop :=
  fuel_bound app k cmd (execs c) c <= Z.of_nat fuel.

Section Exchange.
Variable app : Z -> bytes -> bytes.
Variable k : cfg.
Variable kc : ccfg.
Variable cmd : bytes.
Variable pn : Z.
Variable c : picc.
Hypothesis Hrep : repaired k.
Hypothesis Hpar : params_ok k kc.
Hypothesis Hstep : in_step pn c.
Hypothesis Hcmd : 0 < len cmd.

(* for EVERY budget [mx] (None: the reader without budget) *)
Lemma exchangex_sync mx fuel sc :
  let o := fst (exchangex app fuel k mx kc cmd pn c sc) in
  Forall (blk_ok k) (o_blocks o) /\ exec_ok cmd (execs c) (o_card o) /\
  ((o_res o = Hang /\ Z.of_nat fuel < fuel_bound app k cmd (execs c) c) \/
   final_ok app cmd (execs c) (o_res o) (o_pni o) (o_card o)).
Proof.
  destruct Hrep as [Hf1 Hf2]. destruct Hpar as (Hm & Hcm & Hfs). unfold exchangex.
  destruct (start_sync app k kc cmd (execs c) Hm pn c Hstep eq_refl Hcmd) as (HS & Hmu & _).
  destruct (runx_sync app k kc cmd (execs c) Hm Hcm Hfs Hf1 Hf2 mx fuel {| xp := pcd_start k cmd pn; nx := 0 |} c sc HS)
    as (H1 & H2 & H3).
  split; [assumption|]. split; [assumption|].
  destruct H3 as [[Hh Hlt] | Hfin]; [left; split; [assumption | cbn [xp] in Hlt; lia] | right; assumption].
Qed.

Theorem exchangex_block_bound mx fuel sc :
  Forall (fun b => len b + 2 <= miu k + 3) (o_blocks (fst (exchangex app fuel k mx kc cmd pn c sc))).
Proof. apply (exchangex_sync mx fuel sc). Qed.

Theorem exchangex_at_most_once mx fuel sc :
  let o := fst (exchangex app fuel k mx kc cmd pn c sc) in
  execs (o_card o) = execs c \/ execs (o_card o) = execs c ++ [cmd].
Proof. apply (exchangex_sync mx fuel sc). Qed.

Theorem exchangex_result_sound mx fuel sc :
  let o := fst (exchangex app fuel k mx kc cmd pn c sc) in
  match o_res o with
  | Ok r => r = response app c cmd /\ execs (o_card o) = execs c ++ [cmd] /\ in_step (o_pni o) (o_card o)
  | Err (TagCommandError _) => True
  | Hang => Z.of_nat fuel < fuel_bound app k cmd (execs c) c
  | _ => False
  end.
Proof.
  cbv zeta. destruct (exchangex_sync mx fuel sc) as (_ & _ & [[Hh Hlt] | Hfin]).
  - rewrite Hh. exact Hlt.
  - destruct Hfin as [(Hr & Hs & Hx) | [e He]].
    + rewrite Hr. split; [reflexivity|]. split; [exact Hx | exact Hs].
    + rewrite He. exact I.
Qed.

Theorem exchangex_terminates mx fuel sc : enough_fuel app k cmd c fuel ->
  let o := fst (exchangex app fuel k mx kc cmd pn c sc) in
  (o_res o = Ok (response app c cmd) \/ exists e, o_res o = Err (TagCommandError e)).
Proof.
  unfold enough_fuel. intro Hf. cbv zeta. pose proof (exchangex_result_sound mx fuel sc) as H. cbv zeta in H.
  destruct (o_res (fst (exchangex app fuel k mx kc cmd pn c sc))) as [r | e | x |]; try contradiction.
  - left. destruct H as [-> _]. reflexivity.
  - destruct e; try contradiction. right. eauto.
  - lia.
Qed.

(* [exchange], the reader without repair b65ae89, is the reader with no budget *)
Lemma exchange_exchangex fuel sc : exchange app fuel k kc cmd pn c sc = fst (exchangex app fuel k None kc cmd pn c sc).
Proof. symmetry. apply runx_none_run. Qed.

Theorem exchange_block_bound fuel sc :
  Forall (fun b => len b + 2 <= miu k + 3) (o_blocks (exchange app fuel k kc cmd pn c sc)).
Proof. rewrite exchange_exchangex. apply exchangex_block_bound. Qed.

Theorem exchange_at_most_once fuel sc :
  let o := exchange app fuel k kc cmd pn c sc in
  execs (o_card o) = execs c \/ execs (o_card o) = execs c ++ [cmd].
Proof. rewrite exchange_exchangex. apply exchangex_at_most_once. Qed.

Theorem exchange_terminates fuel sc : enough_fuel app k cmd c fuel ->
  let o := exchange app fuel k kc cmd pn c sc in
  (o_res o = Ok (response app c cmd) \/ exists e, o_res o = Err (TagCommandError e)).
Proof. rewrite exchange_exchangex. apply exchangex_terminates. Qed.

(* any script with at most F faulty rounds (anywhere, any kind) is absorbed when 2F-1 <= both budgets;
   F = 0: a fault-free script needs no budget *)
Theorem exchange_absorbs fuel sc F : faults sc <= F -> (0 < F -> 2 * F - 1 <= n_nak k /\ 2 * F - 1 <= n_ack k) ->
  enough_fuel app k cmd c fuel ->
  let o := exchange app fuel k kc cmd pn c sc in
  o_res o = Ok (response app c cmd) /\ execs (o_card o) = execs c ++ [cmd] /\ in_step (o_pni o) (o_card o).
Proof.
  intros HF HnF Hf. rewrite exchange_exchangex. cbv zeta.
  pose proof (exchangex_result_sound None fuel sc) as Hs. cbv zeta in Hs. revert Hs. unfold exchangex.
  destruct Hrep as [Hf1 Hf2]. destruct Hpar as (Hm & Hcm & Hfs).
  destruct (start_sync app k kc cmd (execs c) Hm pn c Hstep eq_refl Hcmd) as (HS & _ & Hl & _).
  destruct (runx_live app k kc cmd (execs c) Hm Hcm Hfs Hf1 Hf2 fuel {| xp := pcd_start k cmd pn; nx := 0 |} c sc F HS Hl HF HnF)
    as [Hh | [Hr He]].
  - rewrite Hh. unfold enough_fuel in Hf. lia.
  - rewrite Hr. intros (_ & H2 & H3). split; [reflexivity|]. split; assumption.
Qed.

Theorem exchange_nofault_exact fuel sc : nofault sc -> enough_fuel app k cmd c fuel ->
  let o := exchange app fuel k kc cmd pn c sc in
  o_res o = Ok (response app c cmd) /\ execs (o_card o) = execs c ++ [cmd] /\ in_step (o_pni o) (o_card o).
Proof. intros Hsc Hf. apply (exchange_absorbs fuel sc 0); [rewrite (nofault_faults sc Hsc) | | assumption]; lia. Qed.
End Exchange.
