(* C09 - the inductive invariant of the LlcLife transition system (repaired code) and the
   theorems over ALL schedules (lists of labels) and any number of threads. *)
From Coq Require Import ZArith List Bool Arith Lia.
From NV Require Import Base.Result Model.LlcLife Proofs.LlcLifeSeg.
Import ListNotations.

Definition thr_ok (g : gstate) (th : thread) : Prop :=
  match ts th with
  | At o p => o < nsk g /\ pk p (kd (sk g o)) = true
              /\ (ptab p (kd (sk g o)) = true -> tabled (sk g o) = true)
              /\ (p = PClose4 -> st (sk g o) = SHUTDOWN)
  | Blocked o c p b => o < nsk g /\ pk p (kd (sk g o)) = true /\ tabled (sk g o) = true
              /\ In c (close_conds (kd (sk g o)))
              /\ (b = false -> st (sk g o) <> SHUTDOWN)      (* blocked => open, or a notification is pending *)
              /\ p <> PClose4
  | _ => True
  end.

Definition sock_ok (g : gstate) (o : nat) : Prop :=
  let s := sk g o in
  (tabled s = true -> intab s = true \/ st s = SHUTDOWN \/ lpc g = LClosing o)
  /\ (kd s = DLC -> live (st s) = true -> tabled s = true)
  /\ (tabled s = false -> bound s = false /\ intab s = false /\ rq s = [])
  /\ (kd s = DLC -> st s = SHUTDOWN -> rq s = [])
  /\ (kd s = SDP -> tabled s = true)
  /\ (nsk g <= o -> s = fresh RAW).

Definition glob_ok (g : gstate) : Prop :=
  var g = Fixed
  /\ (lpc g = LDone -> term g = true /\ llc_held g = false /\ forall o, intab (sk g o) = false)
  /\ (term g = true -> intab (sk g 0) = false)
  /\ (forall o, lpc g = LClosing o -> intab (sk g o) = false /\ o < nsk g)
  /\ (lpc g <> LRun -> lpc g <> LDone -> llc_held g = true)     (* terminate() holds llc.lock throughout *)
  /\ 0 < nsk g.

Definition Inv (g : gstate) : Prop :=
  glob_ok g /\ (forall t, thr_ok g (thr g t)) /\ (forall o, sock_ok g o).

(* the states in which a thread's next own step runs the segment at p on object o *)
Definition resumes (x : tstate) (o : nat) (p : point) : Prop :=
  x = At o p \/ exists c, x = Blocked o c p true.

Lemma upd_same {A} (f : nat -> A) i x : upd f i x i = x.
Proof. unfold upd. rewrite Nat.eqb_refl. reflexivity. Qed.
Lemma upd_other {A} (f : nat -> A) i x j : j <> i -> upd f i x j = f j.
Proof. unfold upd. intro H. destruct (Nat.eqb_spec j i); [contradiction|reflexivity]. Qed.

Lemma sstate_eqb_eq a b : sstate_eqb a b = true <-> a = b.
Proof. destruct a, b; cbn; split; intro; try reflexivity; discriminate. Qed.
(* what wake_all / wake_one do to one thread: nothing, or "un-notified" becomes "notified" *)
Definition promoted (th th' : thread) : Prop :=
  th' = th \/ exists o c p, ts th = Blocked o c p false /\ th' = set_ts th (Blocked o c p true).

Lemma wake_all_promoted thr o cs t : promoted (thr t) (wake_all thr o cs t).
Proof. unfold wake_all, promoted. destruct (ts (thr t)) as [|? ?|o' c p [|]|?] eqn:E; auto.
  destruct (Nat.eqb o' o && existsb (cond_eqb c) cs); auto. right. exists o', c, p. auto. Qed.

Lemma wake_all_hit thr o cs t c p :
  ts (thr t) = Blocked o c p false -> In c cs -> ts (wake_all thr o cs t) = Blocked o c p true.
Proof. intros E H. unfold wake_all. rewrite E, Nat.eqb_refl. cbn.
  apply WaitSyntax.existsb_cond in H. rewrite H. reflexivity. Qed.

(* a thread that notify_all left waiting was waiting before, on a condition that was not notified *)
Lemma wake_all_left thr o cs t c p :
  ts (wake_all thr o cs t) = Blocked o c p false -> ts (thr t) = Blocked o c p false /\ ~ In c cs.
Proof. intro E.
  assert (Eold : ts (thr t) = Blocked o c p false).
  { destruct (wake_all_promoted thr o cs t) as [Eq|(o2 & c2 & p2 & _ & Eq)]; rewrite Eq in E; [exact E|discriminate E]. }
  split; [exact Eold|]. intro H. rewrite (wake_all_hit _ _ _ _ _ _ Eold H) in E. discriminate E. Qed.

Lemma wake_one_promoted thr o c w t : promoted (thr t) (wake_one thr o c w t).
Proof. unfold wake_one, promoted. destruct (ts (thr w)) as [|? ?|o' c' p [|]|?] eqn:E; auto.
  destruct (Nat.eqb o' o && cond_eqb c' c); auto.
  destruct (Nat.eq_dec t w) as [->|N]; [rewrite upd_same|rewrite upd_other by assumption; auto].
  right. exists o', c', p. auto. Qed.

Lemma promoted_trans a b c : promoted a b -> promoted b c -> promoted a c.
Proof. unfold promoted. intros [->|(o & cc & p & E & ->)] [->|(o' & c' & p' & E' & ->)]; auto.
  - right. eauto.
  - right. exists o, cc, p. auto.
  - cbn in E'. discriminate. Qed.

Lemma promoted_refl th : promoted th th.
Proof. left; reflexivity. Qed.

Lemma promoted_idle th th' : promoted th th' -> ts th = Idle -> th' = th.
Proof. intros [->|(o & c & p & E & _)] H; [reflexivity|congruence]. Qed.

Lemma upd_after th thr t' x t : Nat.eqb t' t = false -> promoted th (thr t) -> promoted th (upd thr t' x t).
Proof. intros N H. unfold upd. rewrite Nat.eqb_sym, N. exact H. Qed.
Lemma wake_all_after th thr o cs t : promoted th (thr t) -> promoted th (wake_all thr o cs t).
Proof. intro H. exact (promoted_trans _ _ _ H (wake_all_promoted thr o cs t)). Qed.
Lemma wake_one_after th thr o c w t : promoted th (thr t) -> promoted th (wake_one thr o c w t).
Proof. intro H. exact (promoted_trans _ _ _ H (wake_one_promoted thr o c w t)). Qed.
Create HintDb prom.
#[export] Hint Resolve promoted_refl wake_all_after wake_one_after upd_after : prom.

(* the threads a label names: the one that issues / runs / consumes, and the serve thread TNext may start *)
Definition actor (l : label) (t : nat) : bool :=
  match l with
  | TIssue t' _ | TRun t' _ => Nat.eqb t' t
  | TNext t' w => Nat.eqb t' t || Nat.eqb w t
  | _ => false
  end.

(* a step leaves every other thread as it is, or notifies it *)
Lemma step_others g l t : actor l t = false -> promoted (thr g t) (thr (step g l) t).
Proof.
  destruct l as [t' op|t' orc|t' w|o x w|o d w|o n w|o| |t'| |o| | |]; cbn [step actor]; intro N.
  1: { destruct (ts (thr g t')); auto with prom. destruct (mode (thr g t')); auto with prom.
    destruct op as [| | | | | | | | |[]|]; cbn [entry];
      repeat match goal with |- context [if ?b then _ else _] => destruct b end; cbn; auto with prom. }
  1: { destruct (ts (thr g t')) as [|o p|o c p [|]|r]; auto with prom; destruct (runnable_point g p); auto with prom;
      unfold run_seg; destruct (o_act _); cbn; auto with prom. }
  1: { apply orb_false_elim in N. destruct N as (N1 & N2).
    destruct (ts (thr g t')); auto with prom. unfold next_of, goto_call, with_thr.
    dm; cbn; auto with prom. }
  6: { (* LTimeout notifies t' itself *)
    destruct (ts (thr g t')) as [|o p|o c p [|]|r] eqn:E; auto with prom. cbn. unfold upd.
    destruct (Nat.eqb_spec t t') as [->|]; auto with prom. right. exists o, c, p. auto. }
  all: unfold on_sock; dm; cbn; auto with prom.
Qed.

(* how one object may change in a step without disturbing the threads that refer to it *)
Definition evolves (s s' : sock) : Prop :=
  kd s' = kd s /\ (tabled s = true -> tabled s' = true) /\ (st s = SHUTDOWN -> st s' = SHUTDOWN).

Lemma evolves_refl s : evolves s s.
Proof. unfold evolves. auto. Qed.

Lemma thr_ok_step g g' th th' :
  thr_ok g th -> nsk g <= nsk g' ->
  (forall o, o < nsk g -> evolves (sk g o) (sk g' o)) ->
  promoted th th' ->
  (forall o c p, ts th' = Blocked o c p false -> st (sk g' o) = SHUTDOWN -> st (sk g o) = SHUTDOWN) ->
  thr_ok g' th'.
Proof.
  intros H Hn Hev Hp Hs. unfold thr_ok in *.
  destruct Hp as [->|(o & c & p & E & ->)].
  - destruct (ts th) as [|o p|o c p b|r] eqn:E; auto.
    + destruct H as (Ho & Hk & Ht & H4). destruct (Hev o Ho) as (Ek & Et & Es). rewrite Ek.
      repeat split; [lia|assumption|auto|auto].
    + destruct H as (Ho & Hk & Ht & Hc & Hb & H4). destruct (Hev o Ho) as (Ek & Et & Es). rewrite Ek.
      repeat split; [lia|assumption|auto|assumption| |assumption].
      intros -> Hsh. apply (Hb eq_refl). eapply Hs; eauto.
  - rewrite E in H. cbn. destruct H as (Ho & Hk & Ht & Hc & Hb & H4). destruct (Hev o Ho) as (Ek & Et & Es). rewrite Ek.
    repeat split; [lia|assumption|auto|assumption|discriminate|assumption].
Qed.

Lemma thr_ok_same_socks g g' th :
  thr_ok g th -> nsk g <= nsk g' -> (forall o, o < nsk g -> sk g' o = sk g o) -> thr_ok g' th.
Proof. intros H Hn He. eapply thr_ok_step; eauto.
  - intros o Ho. rewrite (He o Ho). apply evolves_refl.
  - left; reflexivity.
  - intros o c p E Hs. unfold thr_ok in H. rewrite E in H. destruct H as (Ho & _). rewrite (He o Ho) in Hs. assumption. Qed.

Lemma sock_ok_same g g' o :
  sock_ok g o -> sk g' o = sk g o -> nsk g' = nsk g -> (lpc g = LClosing o -> lpc g' = LClosing o) -> sock_ok g' o.
Proof. unfold sock_ok. intros (A & B & C & D & E & F) Es En El. rewrite Es, En.
  repeat split; auto; try apply C; auto. intro T. destruct (A T) as [H|[H|H]]; auto. Qed.

Lemma frame_inv g g' o :
  Inv g -> nsk g' = nsk g -> o < nsk g ->
  (forall o', o' <> o -> sk g' o' = sk g o') ->
  evolves (sk g o) (sk g' o) ->
  (forall t, promoted (thr g t) (thr g' t) \/ thr_ok g' (thr g' t)) ->
  (st (sk g o) <> SHUTDOWN -> st (sk g' o) = SHUTDOWN ->
   forall t c p, promoted (thr g t) (thr g' t) -> ts (thr g' t) = Blocked o c p false -> False) ->
  sock_ok g' o ->
  (forall o', o' <> o -> lpc g = LClosing o' -> lpc g' = LClosing o') ->
  glob_ok g' ->
  Inv g'.
Proof.
  intros (G & T & SS) En Ho Hoth Hev Hthr Hwake Hso Hl G'.
  split; [exact G'|]. split.
  - intro t. destruct (Hthr t) as [Hp|Hok]; [|exact Hok].
    eapply thr_ok_step; [apply (T t)|lia| |exact Hp|].
    + intros o' Ho'. destruct (Nat.eq_dec o' o) as [->|N]; [exact Hev|]. rewrite Hoth by assumption. apply evolves_refl.
    + intros o' c p E Hs. destruct (Nat.eq_dec o' o) as [->|N]; [|rewrite Hoth in Hs by assumption; exact Hs].
      destruct (sstate_eqb (st (sk g o)) SHUTDOWN) eqn:Es; [apply sstate_eqb_eq in Es; exact Es|].
      exfalso. eapply Hwake; eauto. intro X. apply sstate_eqb_eq in X. congruence.
  - intro o'. destruct (Nat.eq_dec o' o) as [->|N]; [exact Hso|].
    exact (sock_ok_same g g' o' (SS o') (Hoth o' N) En (Hl o' N)).
Qed.

(* closing an object: queues cleared, SHUTDOWN, every condition of that kind notified *)
Lemma close_inv_sq g o s1 n term' held' lpc' :
  Inv g -> o < nsk g ->
  kd s1 = kd (sk g o) -> tabled s1 = tabled (sk g o) ->
  (tabled s1 = false -> bound s1 = false /\ intab s1 = false) ->
  (forall o', o' <> o -> lpc g = LClosing o' -> lpc' = LClosing o') ->
  glob_ok (mkG (var g) (upd (sk g) o (set_sq (tco_close s1) n)) (nsk g) (wake_all (thr g) o (close_conds (kd s1))) term' held' lpc') ->
  Inv (mkG (var g) (upd (sk g) o (set_sq (tco_close s1) n)) (nsk g) (wake_all (thr g) o (close_conds (kd s1))) term' held' lpc').
Proof.
  intros HI Ho Ek Et Hu Hl G'. pose proof HI as (G & T & SS).
  apply (frame_inv g _ o HI); cbn.
  - reflexivity.
  - exact Ho.
  - intros o' N. apply upd_other; assumption.
  - rewrite upd_same. unfold evolves, tco_close, set_sq. cbn. rewrite Ek, Et. auto.
  - intro t. left. apply wake_all_promoted.
  - rewrite upd_same. intros Hne _ t c p Hp E. destruct (wake_all_left _ _ _ _ _ _ E) as (Eold & Hnin). apply Hnin.
    pose proof (T t) as Tt. unfold thr_ok in Tt. rewrite Eold in Tt. rewrite Ek. apply Tt.
  - destruct (SS o) as (A & B & C & D & E & F). unfold sock_ok. cbn. rewrite upd_same. unfold tco_close, set_sq. cbn.
    split; [intro; right; left; reflexivity|]. split; [intros; discriminate|].
    split; [intro H; destruct (Hu H); auto|]. split; [auto|].
    split; [intro H; rewrite Et; apply E; congruence|intro; lia].
  - exact Hl.
  - exact G'.
Qed.

Lemma close_inv g o s1 term' held' lpc' :
  Inv g -> o < nsk g ->
  kd s1 = kd (sk g o) -> tabled s1 = tabled (sk g o) ->
  (tabled s1 = false -> bound s1 = false /\ intab s1 = false) ->
  (forall o', o' <> o -> lpc g = LClosing o' -> lpc' = LClosing o') ->
  glob_ok (mkG (var g) (upd (sk g) o (tco_close s1)) (nsk g) (wake_all (thr g) o (close_conds (kd s1))) term' held' lpc') ->
  Inv (mkG (var g) (upd (sk g) o (tco_close s1)) (nsk g) (wake_all (thr g) o (close_conds (kd s1))) term' held' lpc').
Proof. exact (close_inv_sq g o s1 0 term' held' lpc'). Qed.

(* the link thread closes a connection while the link runs (FRMR received, sent, or due) *)
Lemma close_run_inv g o n :
  Inv g -> is_run (lpc g) = true -> intab (sk g o) = true -> o < nsk g ->
  Inv (on_sock g o (set_sq (tco_close (sk g o)) n) (wake_all (thr g) o (close_conds (kd (sk g o))))).
Proof.
  intros HI Hr Hi Ho. pose proof HI as ((Gv & _ & Gt & _ & _ & Gn) & _ & SS). destruct (SS o) as (_ & _ & C & _).
  apply close_inv_sq; auto.
  - intro X. destruct (C X) as (_ & Y & _). congruence.
  - unfold glob_ok. cbn. split; [exact Gv|]. destruct (lpc g); try discriminate.
    split; [discriminate|]. split; [|split; [|split]]; auto; try discriminate.
    intro X. destruct (Nat.eq_dec 0 o) as [<-|N]; [rewrite upd_same; cbn; auto|rewrite upd_other by assumption; auto].
Qed.

Lemma glob_ok_thr g thr' :
  glob_ok g -> glob_ok (mkG (var g) (sk g) (nsk g) thr' (term g) (llc_held g) (lpc g)).
Proof. unfold glob_ok. cbn. auto. Qed.

(* only threads change (promotion, or a state that is established afresh) *)
Lemma threads_inv g thr' :
  Inv g -> (forall t, promoted (thr g t) (thr' t) \/ thr_ok g (thr' t)) ->
  Inv (mkG (var g) (sk g) (nsk g) thr' (term g) (llc_held g) (lpc g)).
Proof.
  intros HI Ht. pose proof HI as (G & T & SS). destruct G as (Gv & Gd & Gt & Gc & Gh & Gn).
  apply (frame_inv g _ 0 HI); cbn.
  - reflexivity.
  - exact Gn.
  - reflexivity.
  - apply evolves_refl.
  - intro t. destruct (Ht t) as [H|H]; [left; exact H|right].
    unfold thr_ok in *. cbn. exact H.
  - intros Hne Hs. contradiction.
  - exact (sock_ok_same g _ 0 (SS 0) eq_refl eq_refl (fun X => X)).
  - auto.
  - unfold glob_ok. cbn. auto 10.
Qed.

(* one thread is put into a state that is established afresh *)
Lemma thread_inv g t th : Inv g -> thr_ok g th -> Inv (with_thr g (upd (thr g) t th)).
Proof.
  intros HI H. apply threads_inv; [exact HI|]. intro t'. unfold upd.
  destruct (Nat.eqb t' t); [right; exact H|left; apply promoted_refl].
Qed.

(* an object changes without being shut, without entering the table, threads are promoted *)
Lemma data_inv g o s' thr' :
  Inv g -> o < nsk g -> intab (sk g o) = true ->
  kd s' = kd (sk g o) -> tabled s' = tabled (sk g o) -> intab s' = intab (sk g o) ->
  (st s' = st (sk g o) \/ (st (sk g o) = ESTABLISHED /\ st s' = CLOSE_WAIT)) ->
  (kd s' = DLC -> st s' = SHUTDOWN -> rq s' = []) ->
  (forall t, promoted (thr g t) (thr' t)) ->
  Inv (on_sock g o s' thr').
Proof.
  intros HI Ho Hi Ek Et Ei Es Hq Hp. pose proof HI as (G & T & SS). destruct G as (Gv & Gd & Gt & Gc & Gh & Gn).
  destruct (SS o) as (A & B & C & D & E & F).
  assert (Htab : tabled (sk g o) = true).
  { destruct (tabled (sk g o)) eqn:X; [reflexivity|]. destruct (C eq_refl) as (_ & Y & _). congruence. }
  unfold on_sock. apply (frame_inv g _ o HI); cbn.
  - reflexivity.
  - exact Ho.
  - intros o' N. apply upd_other; assumption.
  - rewrite upd_same. unfold evolves. rewrite Ek, Et. split; [reflexivity|]. split; [auto|].
    intro X. destruct Es as [->|(Y & _)]; [exact X|congruence].
  - intro t. left. apply Hp.
  - rewrite upd_same. intros Hne Hs. exfalso. destruct Es as [Y|(_ & Y)]; congruence.
  - unfold sock_ok. cbn. rewrite upd_same.
    split; [intro; left; congruence|]. split; [intros; congruence|].
    split; [intro; congruence|]. split; [exact Hq|]. split; [intro; congruence|intro; lia].
  - auto.
  - unfold glob_ok. cbn. split; [exact Gv|]. split; [|split; [|split; [|split]]]; auto.
    + intro Hd. destruct (Gd Hd) as (X & Y & Z). rewrite Z in Hi. discriminate.
    + intro X. destruct (Nat.eq_dec 0 o) as [<-|N]; [rewrite upd_same; rewrite Ei; auto|rewrite upd_other by assumption; auto].
    + intros o' X. destruct (Gc o' X) as (Gc1 & Gc2). split; [|exact Gc2].
      destruct (Nat.eq_dec o' o) as [->|N]; [rewrite upd_same; rewrite Ei; auto|rewrite upd_other by assumption; auto].
Qed.

(* a new object becomes visible *)
Lemma new_sock_inv g s0 :
  Inv g -> sock_inv s0 -> (tabled s0 = true -> intab s0 = true \/ st s0 = SHUTDOWN) ->
  (intab s0 = true -> lpc g <> LDone) ->
  Inv (mkG (var g) (upd (sk g) (nsk g) s0) (S (nsk g)) (thr g) (term g) (llc_held g) (lpc g)).
Proof.
  intros (G & T & SS) (B0 & C0 & D0 & E0) A0 Hd. destruct G as (Gv & Gd & Gt & Gc & Gh & Gn).
  split; [|split].
  - unfold glob_ok. cbn. split; [exact Gv|]. split; [|split; [|split; [|split]]]; auto; try lia.
    + intro Hl. destruct (Gd Hl) as (X & Y & Z). repeat split; auto. intro o.
      destruct (Nat.eq_dec o (nsk g)) as [->|N]; [rewrite upd_same|rewrite upd_other by assumption; auto].
      destruct (intab s0); [destruct (Hd eq_refl Hl)|reflexivity].
    + intro X. rewrite upd_other by lia. auto.
    + intros o X. destruct (Gc o X) as (Gc1 & Gc2). split; [|lia]. rewrite upd_other by lia. exact Gc1.
  - intro t. eapply thr_ok_same_socks; [apply (T t)|cbn; lia|]. intros o Ho. cbn. apply upd_other. lia.
  - intro o. unfold sock_ok. cbn. destruct (Nat.eq_dec o (nsk g)) as [->|N]; [rewrite upd_same|rewrite upd_other by assumption].
    + repeat split; auto; try apply C0; auto. 
      * intro X. destruct (A0 X); auto.
      * intro; lia.
    + destruct (SS o) as (A & B & C & D & E & F). repeat split; auto; try apply C; auto. intro. apply F. lia.
Qed.

Lemma run_seg_inv g t o p orc :
  Inv g -> runnable_point g p = true ->
  resumes (ts (thr g t)) o p ->
  Inv (run_seg g t o p orc).
Proof.
  intros HI Hrun Hts. pose proof HI as (G & T & SS). destruct G as (Gv & Gd & Gt & Gc & Gh & Gn).
  set (s := sk g o).
  assert (Ho : o < nsk g /\ at_ok p s).
  { pose proof (T t) as Tt. unfold thr_ok in Tt. destruct Hts as [E|(c & E)]; rewrite E in Tt; [exact Tt|].
    destruct Tt as (A & B & C & _ & _ & F). repeat split; auto. intro; contradiction. }
  destruct Ho as (Ho & Hat).
  destruct (SS o) as (SA & SB & SC & SD & SE & _). fold s in SA, SB, SC, SD, SE.
  unfold run_seg. rewrite Gv. fold s. set (r := seg Fixed p s (term g) orc).
  destruct (seg_keeps p s (term g) orc (conj SB (conj SC (conj SD SE))) Hat) as ((KB & KC & KD & KE) & Kabs & Ktab & Knext).
  destruct (seg_repaired p s (term g) orc) as (Rshut & Rtab & Ract).
  destruct (seg_frame Fixed p s (term g) orc) as (Fk & _ & Ft & Fact).
  fold r in KB, KC, KD, KE, Kabs, Ktab, Knext, Rshut, Rtab, Ract, Fk, Ft, Fact.
  (* nothing enters the table after termination, or while terminate() holds llc.lock *)
  assert (Hout : intab s = false -> term g = true \/ llc_held g = true -> intab (o_sock r) = false).
  { intros Hi Hc. destruct (intab (o_sock r)); [|reflexivity]. destruct (Rtab eq_refl) as [X|(X1 & X2)]; [congruence|].
    destruct Hc as [Hc|Hc]; [congruence|]. unfold runnable_point in Hrun. rewrite X2, Hc in Hrun. discriminate Hrun. }
  (* the state after the segment, whatever thread t becomes *)
  assert (Hmain : forall th, thr_ok (on_sock g o (o_sock r) (thr g)) th ->
            Inv (mkG Fixed (upd (sk g) o (o_sock r)) (nsk g) (upd (wake_all (thr g) o (o_nall r)) t th)
                     (term g) (llc_held g) (lpc g))).
  { intros th Hth. apply (frame_inv g _ o HI); cbn.
    - reflexivity.
    - exact Ho.
    - intros o' N. apply upd_other; assumption.
    - rewrite upd_same. exact (conj Fk (conj Ft Kabs)).
    - intro t'. destruct (Nat.eq_dec t' t) as [->|N]; [rewrite upd_same; right; exact Hth|].
      rewrite upd_other by assumption. left. apply wake_all_promoted.
    - rewrite upd_same. intros Hne Hs t' c q Hp E.
      destruct (Nat.eq_dec t' t) as [->|N]; [rewrite upd_same in *|rewrite upd_other in * by assumption].
      + destruct Hp as [->|(o2 & c2 & p2 & E2 & _)]; destruct Hts as [X|(c' & X)]; congruence.
      + destruct (wake_all_left _ _ _ _ _ _ E) as (Eold & Hnin). apply Hnin. rewrite (Rshut Hne Hs).
        pose proof (T t') as Tt'. unfold thr_ok in Tt'. rewrite Eold in Tt'. apply Tt'.
    - unfold sock_ok. cbn. rewrite upd_same. refine (conj _ (conj KB (conj KC (conj KD (conj KE _))))); [|intro; lia].
      intro Ht'.
      assert (D : lpc g = LClosing o \/ lpc g <> LClosing o).
      { destruct (lpc g) as [| |o0|]; try (right; discriminate).
        destruct (Nat.eq_dec o0 o) as [->|N]; [left; reflexivity|right; congruence]. }
      destruct D as [D|D]; [right; right; exact D|].
      assert (P : tabled s = true -> intab s = true \/ st s = SHUTDOWN) 
        by (intro X; destruct (SA X) as [Y|[Y|Y]]; [left; exact Y|right; exact Y|destruct (D Y)]).
      destruct (Ktab P Ht') as [Y|Y]; [left; exact Y|right; left; exact Y].
    - auto.
    - unfold glob_ok. cbn. split; [reflexivity|]. split; [|split; [|split; [|split]]]; auto.
      + intro Hd. destruct (Gd Hd) as (Ht & Hh & Hi). repeat split; auto. intro o'.
        destruct (Nat.eq_dec o' o) as [->|N]; [rewrite upd_same; apply Hout; [apply Hi|left; exact Ht]|rewrite upd_other by assumption; apply Hi].
      + intro Ht. destruct (Nat.eq_dec 0 o) as [<-|N]; [rewrite upd_same; apply Hout; [apply Gt; exact Ht|left; exact Ht]|rewrite upd_other by assumption; auto].
      + intros o' El. destruct (Gc o' El) as (Gc1 & Gc2). split; [|exact Gc2].
        destruct (Nat.eq_dec o' o) as [->|N]; [rewrite upd_same|rewrite upd_other by assumption; auto].
        apply Hout; [exact Gc1|right; apply Gh; congruence]. }
  destruct (o_act r) as [q|c q|x|snew].
  - apply Hmain. unfold thr_ok. cbn. rewrite upd_same. exact (conj Ho Knext).
  - apply Hmain. unfold thr_ok. cbn. rewrite upd_same. destruct Knext as (K1 & K2 & K3).
    exact (conj Ho (conj K1 (conj K2 (conj K3 (conj (fun _ => Ract) Fact))))).
  - apply Hmain. exact I.
  - (* the connection accept() returns, already in the table of a live access point *)
    destruct Ract as (-> & _ & Hlive).
    refine (new_sock_inv _ (set_srv client_sock _) (Hmain (set_ts _ (Done _)) I) _ _ _); cbn.
    + repeat split; auto; discriminate.
    + auto.
    + intros _ Hd. destruct (Gd Hd) as (Ht & _ & Hi). destruct Hlive as [X|X]; [unfold s in X; rewrite Hi in X|rewrite Ht in X]; discriminate X.
Qed.

Definition item_is_other (x : item) : bool := match x with IOTHER => true | _ => false end.

Lemma fresh_thread_ok g o p md :
  ref_ok g o p = true -> (forall k, ptab p k = false) -> p <> PClose4 -> thr_ok g (mkThread (At o p) md).
Proof. unfold ref_ok, thr_ok. cbn. intros H Hp H4. apply andb_true_iff in H. destruct H as (A & B).
  apply Nat.ltb_lt in A. repeat split; auto; [rewrite Hp; discriminate|intro; contradiction]. Qed.

Lemma goto_call_inv g t o p md r :
  Inv g -> (forall k, ptab p k = false) -> p <> PClose4 -> Inv (goto_call g t o p md r).
Proof. intros HI Hp H4. unfold goto_call, with_thr.
  destruct (ref_ok g o p) eqn:E; apply thread_inv; auto.
  - apply fresh_thread_ok; auto.
  - exact I. Qed.

Lemma entry_facts op o p : entry op = Some (o, p) -> (forall k, ptab p k = false) /\ p <> PClose4.
Proof. destruct op; cbn; intro H; inversion H; subst; split; intros; try reflexivity; discriminate. Qed.

Lemma alloc_inv g t k x :
  Inv g -> k <> SDP ->
  Inv (mkG (var g) (upd (sk g) (nsk g) (fresh k)) (S (nsk g)) (upd (thr g) t (set_ts (thr g t) (Done x)))
           (term g) (llc_held g) (lpc g)).
Proof.
  intros HI Hk.
  refine (new_sock_inv (with_thr g (upd (thr g) t (set_ts (thr g t) (Done x)))) (fresh k) _ _ _ _).
  - apply thread_inv; [exact HI|exact I].
  - destruct k; try contradiction; cbn; repeat split; auto; discriminate.
  - discriminate.
  - discriminate.
Qed.

Lemma ctl_inv g term' held' lpc' :
  Inv g -> (forall o, lpc g <> LClosing o) ->
  glob_ok (mkG (var g) (sk g) (nsk g) (thr g) term' held' lpc') ->
  Inv (mkG (var g) (sk g) (nsk g) (thr g) term' held' lpc').
Proof.
  intros HI Hl G'. pose proof HI as (G & T & SS). destruct G as (Gv & Gd & Gt & Gc & Gh & Gn).
  apply (frame_inv g _ 0 HI); cbn.
  - reflexivity.
  - exact Gn.
  - reflexivity.
  - apply evolves_refl.
  - intro t. left. apply promoted_refl.
  - intros Hne Hs. contradiction.
  - apply (sock_ok_same g (mkG (var g) (sk g) (nsk g) (thr g) term' held' lpc') 0 (SS 0) eq_refl eq_refl). intro Y. exfalso. apply (Hl 0 Y).
  - intros o' _ X. exfalso. apply (Hl o' X).
  - exact G'.
Qed.

Lemma wake_promoted_all thr o cs : forall t, promoted (thr t) (wake_all thr o cs t).
Proof. intro; apply wake_all_promoted. Qed.
Lemma wake1_promoted_all thr o c w : forall t, promoted (thr t) (wake_one thr o c w t).
Proof. intro; apply wake_one_promoted. Qed.

(* the guard common to the steps of the link thread on a connection *)
Lemma link_guard g o : is_run (lpc g) && intab (sk g o) && Nat.ltb o (nsk g) = true ->
  is_run (lpc g) = true /\ intab (sk g o) = true /\ o < nsk g.
Proof. rewrite !andb_true_iff, Nat.ltb_lt. tauto. Qed.

Lemma step_inv g l : Inv g -> Inv (step g l).
Proof.
  intro HI. pose proof HI as (G & T & SS). destruct G as (Gv & Gd & Gt & Gc & Gh & Gn).
  destruct l as [t op|t orc|t w|o x w|o d w|o n w|o| |t| |o| | |]; cbn [step].
  - (* TIssue *)
    destruct (ts (thr g t)) eqn:Ets; try exact HI. destruct (mode (thr g t)) eqn:Emd; try exact HI.
    destruct op as [o|o e|o dw|o|o|o|o|o| |k|ls];
      try (match goal with
           | |- Inv (match entry ?op with _ => _ end) =>
               destruct (entry op) as [[o' p']|] eqn:Een; [|exact HI];
               destruct (ref_ok g o' p') eqn:Er; [|exact HI];
               destruct (negb (srv (sk g o'))); [|exact HI]; cbn [andb];
               destruct (entry_facts _ _ _ Een) as (Hp & H4);
               apply thread_inv; auto; apply fresh_thread_ok; auto
           end).
    + (* ONew *) destruct k; try exact HI; apply alloc_inv; auto; discriminate.
    + (* OServer *) destruct (ref_ok g ls PAcc1) eqn:Er; [|exact HI].
      destruct (negb (srv (sk g ls))); [|exact HI]. cbn [andb].
      apply thread_inv; auto. apply fresh_thread_ok; auto; discriminate.
  - (* TRun *)
    destruct (ts (thr g t)) as [|o p|o c p [|]|r] eqn:Ets; try exact HI;
      (destruct (runnable_point g p) eqn:Er; [|exact HI]); apply run_seg_inv; auto;
      try (left; exact Ets); try (right; exists c; exact Ets).
  - (* TNext *)
    destruct (ts (thr g t)) as [|o p|o c p b|r] eqn:Ets; try exact HI.
    unfold next_of. destruct (mode (thr g t)) as [|ls|c ph|o how|how] eqn:Emd.
    + apply thread_inv; [exact HI|exact I].
    + destruct r as [[| | |c|]|[]|c|]; try (apply goto_call_inv; auto; intros; try reflexivity; discriminate).
      destruct (is_free g w t) eqn:Ef; [|exact HI].
      destruct (ref_ok g c (PPoll0 PollRecv) && ref_ok g ls PAcc1) eqn:Er; [|apply thread_inv; [exact HI|exact I]].
      apply andb_true_iff in Er. destruct Er as (R1 & R2).
      unfold with_thr. apply threads_inv; auto. intro t'.
      destruct (Nat.eq_dec t' w) as [->|N]; [rewrite upd_same; right; apply fresh_thread_ok; auto; discriminate|].
      rewrite upd_other by assumption.
      destruct (Nat.eq_dec t' t) as [->|N']; [rewrite upd_same; right; apply fresh_thread_ok; auto; discriminate|].
      rewrite upd_other by assumption. left; apply promoted_refl.
    + destruct r as [[|[|]| |c'|]|[]|c'|]; try destruct ph as [|[|ph]];
        apply goto_call_inv; auto; intros; try reflexivity; discriminate.
    + apply thread_inv; [exact HI|exact I].
    + exact HI.
  - (* LEnq *)
    destruct (is_run (lpc g) && intab (sk g o) && Nat.ltb o (nsk g)) eqn:Hc; [|exact HI].
    destruct (link_guard g o Hc) as (Hr & Hi & Hlt).
    destruct (SS o) as (A & B & C & D & E & F).
    destruct (kd (sk g o)) eqn:Ek; try exact HI.
    + destruct (Nat.ltb (length (rq (sk g o))) (rbuf (sk g o))); [|exact HI].
      apply data_inv; auto; cbn; auto using wake1_promoted_all. congruence.
    + destruct (Nat.ltb (length (rq (sk g o))) (rbuf (sk g o))); [|exact HI].
      apply data_inv; auto; cbn; auto using wake1_promoted_all. congruence.
    + destruct (item_is_other x) eqn:Eoth.
      { destruct x; try discriminate.
        assert (Hclose : Inv (on_sock g o (set_sq (tco_close (sk g o)) 1) (wake_all (thr g) o (close_conds DLC))))
          by (rewrite <- Ek; apply close_run_inv; auto).
        destruct (st (sk g o)) eqn:Est; try exact Hclose.
        apply data_inv; auto; cbn; auto using promoted_refl; try (intros _ X; congruence); try (intros; apply promoted_refl). }
      destruct (st (sk g o)) eqn:Est; destruct x; try discriminate; try exact HI;
        try (destruct (Nat.ltb (length (rq (sk g o))) (rbuf (sk g o))));
        try exact HI; apply data_inv; auto; cbn; auto using wake1_promoted_all, promoted_refl;
        try (intros _ X; congruence); try (left; exact Est).
      all: try (right; split; [exact Est|reflexivity]).
      all: try (intros; apply promoted_refl).
  - (* LDeq *)
    destruct (is_run (lpc g) && intab (sk g o) && Nat.ltb o (nsk g) && Nat.ltb 0 (sq (sk g o))) eqn:Hc; [|exact HI].
    apply andb_true_iff in Hc. destruct (link_guard g o (proj1 Hc)) as (Hr & Hi & Hlt).
    destruct (SS o) as (A & B & C & D & E & F).
    assert (Hfr : kd (sk g o) = DLC -> Inv (on_sock g o (tco_close (sk g o)) (wake_all (thr g) o (close_conds DLC))))
      by (intro Ek; rewrite <- Ek; apply (close_run_inv g o 0); auto).
    destruct (kd (sk g o)) eqn:Ek; destruct d; try (apply Hfr; reflexivity); try (destruct (is_est (sk g o))); try (destruct (sstate_eqb (st (sk g o)) CLOSE_WAIT) eqn:Ecw);
      apply data_inv; auto; cbn; auto using wake1_promoted_all, promoted_refl; try congruence;
      try (intros; apply promoted_refl).
    all: try (intros _ X; apply sstate_eqb_eq in Ecw; congruence).
    all: try (intro t'; eapply promoted_trans; [apply wake_one_promoted|apply wake_all_promoted]).
  - (* LAck *)
    destruct (is_run (lpc g) && intab (sk g o) && Nat.ltb o (nsk g) && is_est (sk g o) && Nat.ltb 0 n) eqn:Hc; [|exact HI].
    apply andb_true_iff in Hc. destruct Hc as (Hc & _). apply andb_true_iff in Hc. destruct Hc as (Hc & Hes).
    destruct (link_guard g o Hc) as (_ & Hi & Hlt). unfold is_est in Hes. apply sstate_eqb_eq in Hes.
    destruct (kd (sk g o)) eqn:Ek; try exact HI.
    apply data_inv; auto; cbn; auto; try congruence.
    intro t'. eapply promoted_trans; [apply wake_all_promoted|apply wake_one_promoted].
  - (* LFrmr *)
    destruct (is_run (lpc g) && intab (sk g o) && Nat.ltb o (nsk g) && is_est (sk g o)) eqn:Hc; [|exact HI].
    apply andb_true_iff in Hc. destruct (link_guard g o (proj1 Hc)) as (Hr & Hi & Hlt).
    destruct (kd (sk g o)) eqn:Ek; try exact HI.
    rewrite <- Ek. apply (close_run_inv g o 0); auto.
  - (* LSdRes *)
    destruct (is_run (lpc g) && negb (is_shut (sk g 0))); [|exact HI].
    apply threads_inv; auto. intro t. left. apply wake_all_promoted.
  - (* LTimeout *)
    destruct (ts (thr g t)) as [|o p|o c p [|]|r] eqn:Ets; try exact HI.
    apply threads_inv; auto. intro t'.
    destruct (Nat.eq_dec t' t) as [->|N]; [rewrite upd_same|rewrite upd_other by assumption; left; apply promoted_refl].
    left. right. exists o, c, p. auto.
  - (* LTermBegin *)
    destruct (lpc g) eqn:El; cbn; try exact HI.
    assert (Ev : (match var g with Fixed => true | Orig => false end) = true) by (rewrite Gv; reflexivity). rewrite Ev.
    apply ctl_inv; auto; try (rewrite El; discriminate).
    unfold glob_ok. cbn. split; [exact Gv|]. split; [discriminate|]. split; [auto|]. split; [discriminate|]. auto.
  - (* LTermPop *)
    destruct (lpc g) eqn:El; try exact HI.
    destruct (intab (sk g o) && Nat.ltb 0 o && Nat.ltb o (nsk g)) eqn:Hc; [|exact HI].
    apply andb_true_iff in Hc. destruct Hc as (Hc & Hlt). apply andb_true_iff in Hc. destruct Hc as (Hi & Hpos).
    apply Nat.ltb_lt in Hlt. apply Nat.ltb_lt in Hpos.
    destruct (SS o) as (A & B & C & D & E & F).
    assert (Htab : tabled (sk g o) = true).
    { destruct (tabled (sk g o)) eqn:X; [reflexivity|]. destruct (C eq_refl) as (_ & Y & _). congruence. }
    apply (frame_inv g _ o HI); cbn.
    + reflexivity.
    + exact Hlt.
    + intros o' N. apply upd_other; assumption.
    + rewrite upd_same. unfold evolves. cbn. auto.
    + intro t. left. apply promoted_refl.
    + rewrite upd_same. cbn. intros Hne Hs. contradiction.
    + unfold sock_ok. cbn. rewrite upd_same. cbn. repeat split; auto; try congruence. intro; lia.
    + intros o' N X. rewrite El in X. discriminate.
    + unfold glob_ok. cbn. split; [exact Gv|]. split; [discriminate|]. split; [|split; [|split]]; auto.
      * intro X. rewrite upd_other by lia. auto.
      * intros o' X. inversion X; subst. rewrite upd_same. cbn. auto.
      * intros _ _. apply Gh; try rewrite El; discriminate.
  - (* LTermClose *)
    destruct (lpc g) as [| |o|] eqn:El; try exact HI.
    destruct (Gc o eq_refl) as (Gi & Glt).
    destruct (SS o) as (A & B & C & D & E & F).
    apply close_inv; auto.
    + intro X. destruct (C X) as (Y & Z & _). auto.
    + intros o' N X. inversion X. congruence.
    + unfold glob_ok. cbn. split; [exact Gv|]. split; [discriminate|]. split; [|split; [|split]]; auto; try discriminate.
      * intro X. destruct (Nat.eq_dec 0 o) as [<-|N]; [rewrite upd_same; cbn; auto|rewrite upd_other by assumption; auto].
      * intros _ _. apply Gh; discriminate.
  - (* LTermSd *)
    destruct (lpc g) eqn:El; try exact HI. destruct (term g) eqn:Etm; [exact HI|].
    destruct (SS 0) as (A & B & C & D & E & F).
    apply close_inv; auto; try (intros o' N X; rewrite El in X; discriminate).
    unfold glob_ok. cbn. split; [exact Gv|]. split; [discriminate|].
    split; [intros _; try rewrite upd_same; reflexivity|].
    split; [discriminate|]. split; [intros _ _; apply Gh; try rewrite El; discriminate|exact Gn].
  - (* LTermEnd *)
    destruct (lpc g) eqn:El; try exact HI.
    destruct (term g && all_out_of_table g) eqn:Hc; [|exact HI].
    apply andb_true_iff in Hc. destruct Hc as (Htm & Hall).
    apply ctl_inv; auto; try (rewrite El; discriminate).
    unfold glob_ok. cbn. split; [exact Gv|]. split; [|split; [auto|split; [discriminate|split; [congruence|exact Gn]]]].
    intros _. repeat split; auto. intro o.
    destruct (Nat.eq_dec o 0) as [->|N0]; [auto|].
    destruct (le_lt_dec (nsk g) o) as [Hge|Hlt].
    + destruct (SS o) as (_ & _ & _ & _ & _ & F). rewrite (F Hge). reflexivity.
    + unfold all_out_of_table in Hall. rewrite forallb_forall in Hall.
      specialize (Hall o). rewrite negb_true_iff in Hall. apply Hall. apply in_seq. lia.
Qed.

Lemma init_inv : Inv (init Fixed).
Proof.
  split; [|split].
  - unfold glob_ok. cbn. repeat split; auto; try discriminate; try (intros; discriminate).
  - intro t. exact I.
  - intro o. unfold sock_ok. cbn. destruct o; cbn; repeat split; auto; try discriminate; try (intros; discriminate);
      try (intros; exfalso; lia); try lia.
Qed.

Theorem reach_inv sched : Inv (run (init Fixed) sched).
Proof. unfold run. generalize init_inv. generalize (init Fixed). induction sched as [|l r IH]; intros g H; cbn; auto.
  apply IH. apply step_inv. exact H. Qed.

Lemma run_cons g l s : run g (l :: s) = run (step g l) s.
Proof. reflexivity. Qed.
Lemma run_app g s1 s2 : run g (s1 ++ s2) = run (run g s1) s2.
Proof. apply fold_left_app. Qed.

(* a thread blocked on condition c of object o  =>  o is not shut down, or a notification is pending *)
Theorem blocked_implies_open_inv g : Inv g ->
  forall t o c p, ts (thr g t) = Blocked o c p false -> st (sk g o) <> SHUTDOWN.
Proof. intros (_ & T & _) t o c p E. pose proof (T t) as H. unfold thr_ok in H. rewrite E in H.
  destruct H as (_ & _ & _ & _ & H & _). auto. Qed.

Theorem blocked_implies_open : forall sched t o c p,
  let g := run (init Fixed) sched in
  ts (thr g t) = Blocked o c p false -> st (sk g o) <> SHUTDOWN.
Proof. intros sched t o c p g. apply blocked_implies_open_inv. apply reach_inv. Qed.

(* once terminate() has completed no thread waits *)
Lemma done_no_waiting g : Inv g -> lpc g = LDone -> forall t, waiting g t = false.
Proof.
  intros (G & T & SS) Hd t. destruct G as (Gv & Gd & Gt & Gc & Gh & Gn).
  destruct (Gd Hd) as (Ht & Hh & Hi).
  unfold waiting. destruct (ts (thr g t)) as [|o p|o c p [|]|r] eqn:E; auto.
  exfalso. pose proof (T t) as H. unfold thr_ok in H. rewrite E in H.
  destruct H as (_ & _ & Htab & _ & Hopen & _).
  destruct (SS o) as (A & _). destruct (A Htab) as [X|[X|X]].
  - rewrite Hi in X. discriminate.
  - apply (Hopen eq_refl X).
  - rewrite Hd in X. discriminate.
Qed.

Lemma done_stable g l : lpc g = LDone -> lpc (step g l) = LDone.
Proof.
  intro H. destruct l; cbn [step]; try (rewrite H; cbn; exact H).
  - destruct (ts (thr g t)); auto. destruct (mode (thr g t)); auto.
    destruct op; cbn; auto;
      dm; cbn; auto.
  - destruct (ts (thr g t)) as [|o p|o c p [|]|r]; auto; destruct (runnable_point g p); auto;
      unfold run_seg; destruct (o_act _); auto.
  - destruct (ts (thr g t)); auto. unfold next_of, goto_call, with_thr.
    destruct (mode (thr g t)); auto;
      dm; cbn; auto.
  - destruct (ts (thr g t)) as [|o p|o c p [|]|r]; auto.
Qed.

Lemma done_stable_run s : forall g, lpc g = LDone -> lpc (run g s) = LDone.
Proof. induction s as [|l r IH]; intros g H; cbn; auto. apply IH. apply done_stable. exact H. Qed.

(* an idle thread that no label names stays as it is *)
Lemma run_idle s : forall g t th, thr g t = th -> ts th = Idle ->
  forallb (fun l => negb (actor l t)) s = true -> thr (run g s) t = th.
Proof.
  induction s as [|l s IH]; intros g t th E Hi H; [exact E|].
  cbn [forallb] in H. apply andb_true_iff in H. destruct H as (Hl & Hs). apply negb_true_iff in Hl.
  rewrite run_cons. apply IH; [|exact Hi|exact Hs].
  rewrite <- E in *. exact (promoted_idle _ _ (step_others g l t Hl) Hi).
Qed.

(* an idle application thread issues a call *)
Lemma issue_idle g t op o p : thr g t = mkThread Idle MApp -> entry op = Some (o, p) ->
  step g (TIssue t op) =
  if ref_ok g o p && negb (srv (sk g o)) then with_thr g (upd (thr g) t (mkThread (At o p) MApp)) else g.
Proof. intros E Ho. cbn [step]. rewrite E. cbn [ts mode set_ts]. rewrite Ho.
  destruct op; try discriminate; reflexivity. Qed.

(* no_thread_left_waiting: after the shutdown transition no thread is blocked without a pending
   notification, and none can newly block, whatever happens afterwards (s2) *)
Theorem no_thread_left_waiting : forall s1 s2 t,
  lpc (run (init Fixed) s1) = LDone -> waiting (run (init Fixed) (s1 ++ s2)) t = false.
Proof.
  intros s1 s2 t H. apply done_no_waiting; [apply reach_inv|].
  rewrite run_app. apply done_stable_run, H.
Qed.

Lemma dead_benign g t o p orc :
  Inv g -> lpc g = LDone ->
  resumes (ts (thr g t)) o p ->
  benign (o_act (seg Fixed p (sk g o) true orc)) /\
  (srv_class p = true -> srv_out (o_act (seg Fixed p (sk g o) true orc))).
Proof.
  intros (G & T & SS) Hd Hts. destruct G as (Gv & Gd & Gt & Gc & Gh & Gn).
  destruct (Gd Hd) as (Ht & Hh & Hi).
  destruct (SS o) as (A & B & C & D & E0 & F).
  pose proof (T t) as Tt. unfold thr_ok in Tt.
  apply seg_dead.
  - exact (conj B (conj C (conj D E0))).
  - destruct Hts as [E|(c & E)]; rewrite E in Tt.
    + exact (proj2 Tt).
    + destruct Tt as (_ & Hk & Htab & _ & _ & N). split; [exact Hk|split; [intros _; exact Htab|intro X; contradiction]].
  - apply Hi.
  - intro Etab. destruct (A Etab) as [X|[X|X]]; auto; [rewrite Hi in X|rewrite Hd in X]; discriminate.
Qed.

(* after_shutdown_total: once the link has terminated, whatever step is taken, no thread enters a
   wait and every call that completes returns a value or raises nfc.llcp.Error *)
Theorem after_shutdown_step g l t :
  Inv g -> lpc g = LDone ->
  match ts (thr (step g l) t) with
  | Blocked _ _ _ false => False
  | Done r => ts (thr g t) = Done r \/ good r = true
  | _ => True
  end.
Proof.
  intros HI Hd.
  pose proof (done_no_waiting (step g l) (step_inv g l HI) (done_stable g l Hd) t) as Hw. unfold waiting in Hw.
  destruct (ts (thr (step g l) t)) as [|o p|o c p [|]|r] eqn:E; auto; try discriminate.
  (* a thread the label does not name cannot have been given a result *)
  destruct (actor l t) eqn:A.
  2: { destruct (step_others g l t A) as [Eq|(o & c & p & _ & Eq)]; rewrite Eq in E; [left; exact E|discriminate E]. }
  destruct l as [t' op|t' orc|t' w| | | | | | | | | | |]; try discriminate A; cbn [step actor] in E, A.
  - (* TIssue: only socket() returns at once *)
    revert E. destruct (ts (thr g t')); auto. destruct (mode (thr g t')); auto.
    apply Nat.eqb_eq in A. subst t'.
    destruct op as [| | | | | | | | |[]|]; cbn [entry]; dm; cbn; rewrite ?upd_same; cbn; intro E;
      try discriminate E; auto.
    all: injection E as <-; right; reflexivity.
  - (* TRun: the segments of a dead link are benign *)
    assert (Hrun : forall o p, resumes (ts (thr g t')) o p ->
              ts (thr (run_seg g t' o p orc) t') = Done r -> good r = true).
    { intros o p Hts. destruct (dead_benign g t' o p orc HI Hd Hts) as (Hb & _).
      destruct HI as ((Gv & Gd & _) & _). destruct (Gd Hd) as (Ht & _).
      unfold run_seg. rewrite Gv, Ht.
      destruct (o_act (seg Fixed p (sk g o) true orc)); cbn; rewrite upd_same; cbn; intro E';
        try discriminate E'; injection E' as <-; [exact Hb|reflexivity]. }
    revert E. destruct (ts (thr g t')) as [|o p|o c p [|]|r']; auto;
      (destruct (runnable_point g p); auto); apply Nat.eqb_eq in A; subst t'; intro E; right;
      apply (Hrun o p); unfold resumes; eauto.
  - (* TNext: the thread keeps its result or starts the next call; the serve thread it may start is at a call *)
    revert E. destruct (ts (thr g t')) as [|o p|o c p b|r'] eqn:E1; auto.
    unfold next_of, goto_call, with_thr. dm; cbn [thr]; unfold upd; dme; cbn [ts]; intro E; try discriminate E; auto;
      match goal with H : Nat.eqb t t' = true |- _ => apply Nat.eqb_eq in H; subst t' end;
      injection E as <-; left; exact E1.
Qed.

Theorem after_shutdown_total : forall s1 s2 l t,
  lpc (run (init Fixed) s1) = LDone ->
  let g := run (init Fixed) (s1 ++ s2) in
  match ts (thr (step g l) t) with
  | Blocked _ _ _ false => False                       (* does not enter a wait *)
  | Done r => ts (thr g t) = Done r \/ good r = true    (* returns a value or raises nfc.llcp.Error *)
  | _ => True
  end.
Proof.
  intros s1 s2 l t H g. apply after_shutdown_step.
  - apply reach_inv.
  - unfold g. rewrite run_app. apply done_stable_run, H.
Qed.

Lemma wake_all_mode thr o cs t : mode (wake_all thr o cs t) = mode (thr t).
Proof. unfold wake_all. destruct (ts (thr t)) as [| | ? ? ? [|] |]; auto. destruct (_ && _); reflexivity. Qed.

(* after termination every own step of a thread brings its call nearer to its end *)
Lemma done_own_step g t o p orc :
  Inv g -> lpc g = LDone ->
  resumes (ts (thr g t)) o p ->
  mode (thr (step g (TRun t orc)) t) = mode (thr g t) /\
  match ts (thr (step g (TRun t orc)) t) with
  | At o' q => o' = o /\ rank q < rank p /\
               (srv_class p = true -> srv_class q = true)
  | Done r => good r = true /\ (srv_class p = true -> is_llcp r = true) /\ (forall c, r <> Ok (VSock c))
  | _ => False
  end.
Proof.
  intros HI Hd Hts. destruct (dead_benign g t o p orc HI Hd Hts) as (Hb & Hsrv).
  pose proof HI as (G & T & SS). destruct G as (Gv & Gd & Gt & Gc & Gh & Gn).
  destruct (Gd Hd) as (Ht & Hh & Hi).
  assert (Hstep : step g (TRun t orc) = run_seg g t o p orc).
  { cbn [step]. assert (Hrp : runnable_point g p = true) by (unfold runnable_point; rewrite Hh, andb_false_r; reflexivity).
    destruct Hts as [E|(c & E)]; rewrite E, Hrp; reflexivity. }
  rewrite Hstep. unfold run_seg. rewrite Gv, Ht.
  pose proof (seg_rank Fixed p (sk g o) true orc) as Hr.
  pose proof (seg_ret_not_sock Fixed p (sk g o) true orc) as Hns.
  pose proof (seg_repaired p (sk g o) true orc) as (_ & _ & Hna).
  destruct (o_act (seg Fixed p (sk g o) true orc)) eqn:Ea; cbn; rewrite upd_same; cbn; rewrite ?wake_all_mode.
  - split; [reflexivity|]. split; [reflexivity|]. split; [apply Hr; reflexivity|]. intro Hc. apply (Hsrv Hc).
  - contradiction.
  - split; [reflexivity|]. split; [exact Hb|]. split; [intro Hc; apply (Hsrv Hc)|]. intros c E. apply (Hns c). congruence.
  - (* accept() needs a live access point *)
    destruct Hna as (_ & _ & [X|X]); [rewrite Hi in X|]; discriminate X.
Qed.

Lemma run_solo_done g t orcs r : ts (thr g t) = Done r -> run g (map (TRun t) orcs) = g.
Proof. revert g. induction orcs as [|b l IH]; intros g E; [reflexivity|].
  cbn [map]. rewrite run_cons.
  assert (X : step g (TRun t b) = g) by (cbn [step]; rewrite E; reflexivity). rewrite X. apply IH. exact E. Qed.

(* every call in progress after termination completes within rank p <= 4 steps of its thread (whatever
   the other threads do in between is covered by after_shutdown_total; here the thread runs alone), and
   a call of a server loop ends by raising nfc.llcp.Error *)
Lemma calls_end : forall n g t o p,
  Inv g -> lpc g = LDone ->
  resumes (ts (thr g t)) o p ->
  rank p <= n -> forall orcs, n <= length orcs ->
  exists r, ts (thr (run g (map (TRun t) orcs)) t) = Done r /\ good r = true /\
            (srv_class p = true -> is_llcp r = true).
Proof.
  induction n as [|n IH]; intros g t o p HI Hd Hts Hr orcs Hl.
  - pose proof (rank_pos p). lia.
  - destruct orcs as [|b l]; [cbn in Hl; lia|]. cbn [map]. rewrite run_cons.
    destruct (done_own_step g t o p b HI Hd Hts) as (_ & Hs).
    pose proof (step_inv g (TRun t b) HI) as HI'. pose proof (done_stable g (TRun t b) Hd) as Hd'.
    destruct (ts (thr (step g (TRun t b)) t)) as [|o' q|o' c q bb|r] eqn:E; try contradiction.
    + destruct Hs as (-> & Hq & Hcq). cbn in Hl.
      destruct (IH _ t o q HI' Hd' (or_introl E) ltac:(lia) l ltac:(lia)) as (r & Er & Hg & Hc).
      exists r. auto.
    + exists r. rewrite (run_solo_done _ t l r E). tauto.
Qed.

Theorem calls_complete : forall n g t o p,
  Inv g -> lpc g = LDone ->
  (ts (thr g t) = At o p \/ exists c, ts (thr g t) = Blocked o c p true) ->
  rank p <= n -> forall orcs, n <= length orcs ->
  exists r, ts (thr (run g (map (TRun t) orcs)) t) = Done r /\ good r = true.
Proof.
  intros n g t o p HI Hd Hts Hr orcs Hl.
  destruct (calls_end n g t o p HI Hd Hts Hr orcs Hl) as (r & E & Hg & _). exists r. auto.
Qed.

(* the calls that were blocked when the link ended: all are notified, and return / raise nfc.llcp.Error *)
Theorem blocked_calls_return : forall s1 t o c p b,
  let g := run (init Fixed) s1 in
  lpc g = LDone -> ts (thr g t) = Blocked o c p b ->
  b = true /\ forall orcs, 4 <= length orcs ->
    exists r, ts (thr (run g (map (TRun t) orcs)) t) = Done r /\ good r = true.
Proof.
  intros s1 t o c p b g Hd E. pose proof (reach_inv s1) as HI. fold g in HI.
  assert (Hb : b = true).
  { pose proof (done_no_waiting g HI Hd t) as Hw. unfold waiting in Hw. rewrite E in Hw. destruct b; [reflexivity|discriminate]. }
  split; [exact Hb|]. subst b. intros orcs Hl.
  apply (calls_complete 4 g t o p HI Hd); [right; exists c; exact E|apply rank_le4|exact Hl].
Qed.

(* the listen and serve loops of SnepServer / HandoverServer, and the close() they end with *)
Definition is_server (m : tmode) : bool :=
  match m with MListen _ | MServe _ _ | MClosing _ _ => true | _ => false end.

(* the own steps a server thread has left, at most.  Ranks are 1..4 (rank_pos, rank_le4).  The final close() counts
   1 + rank <= 5, so a result that takes the handler counts 6; a call of the loop itself (srv_class), which ends
   in that result, counts rank + 6 <= 10; any other result is followed by such a call and counts 11; any other
   call may return anything and counts rank + 12 <= 16. *)
Definition mu (th : thread) : nat :=
  match mode th with
  | MExit _ | MApp => 0
  | MClosing _ _ => match ts th with At _ p | Blocked _ _ p _ => 1 + rank p | _ => 1 end
  | MListen _ | MServe _ _ =>
      match ts th with
      | At _ p | Blocked _ _ p _ => rank p + (if srv_class p then 6 else 12)
      | Done r => if is_llcp r then 6 else 11
      | Idle => 0
      end
  end.

Definition srv_step (t w : nat) (orc : bool) (g : gstate) : gstate :=
  match ts (thr g t) with Done _ => step g (TNext t w) | _ => step g (TRun t orc) end.

Definition active (x : tstate) : Prop :=
  match x with Idle => False | Done (Ok (VSock _)) => False | _ => True end.

Lemma mu_bound th : mu th <= 16.
Proof. unfold mu. destruct (mode th); try lia; destruct (ts th); try lia;
  try (pose proof (rank_le4 p); destruct (srv_class p); lia); destruct (is_llcp r); lia. Qed.

Lemma goto_call_thr g t o p md r :
  thr (goto_call g t o p md r) t = mkThread (At o p) md \/ thr (goto_call g t o p md r) t = mkThread (Done r) (MExit ExCrash).
Proof. unfold goto_call, with_thr. destruct (ref_ok g o p); cbn; rewrite upd_same; auto. Qed.

Lemma mu_resumes th o p : resumes (ts th) o p ->
  mu th = match mode th with
          | MExit _ | MApp => 0
          | MClosing _ _ => 1 + rank p
          | MListen _ | MServe _ _ => rank p + (if srv_class p then 6 else 12)
          end.
Proof. intros [E|(c & E)]; unfold mu; rewrite E; reflexivity. Qed.

(* an own step inside a call: done_own_step says where it leads, and mu counts that as less *)
Lemma call_step_decreases g t o p orc :
  Inv g -> lpc g = LDone -> is_server (mode (thr g t)) = true -> resumes (ts (thr g t)) o p ->
  let g' := step g (TRun t orc) in
  mu (thr g' t) < mu (thr g t) /\
  (is_server (mode (thr g' t)) = true -> active (ts (thr g' t))) /\
  (is_server (mode (thr g' t)) = true \/ exists how, mode (thr g' t) = MExit how).
Proof.
  intros HI Hd Hm Hts g'. subst g'.
  destruct (done_own_step g t o p orc HI Hd Hts) as (Em & Hs).
  rewrite (mu_resumes _ o p Hts). unfold mu. rewrite Em.
  destruct (ts (thr (step g (TRun t orc)) t)) as [|o' q|o' c' q bb|r] eqn:E'; try contradiction.
  - (* the call goes on at q, of lower rank; from a point of a loop call, q is one too *)
    destruct Hs as (-> & Hq & Hc). rewrite Hm.
    split; [|split; [intros _; exact I|left; reflexivity]].
    destruct (mode (thr g t)); try discriminate;
      try (destruct (srv_class p); [rewrite (Hc eq_refl)|destruct (srv_class q)]); lia.
  - (* the call returns r; from a point of a loop call, r is an nfc.llcp.Error *)
    destruct Hs as (Hg & Hc & Hns). rewrite Hm.
    split; [|split; [intros _; destruct r as [[| | |c|]| | |]; cbn; auto; apply (Hns c); reflexivity|left; reflexivity]].
    pose proof (rank_pos p).
    destruct (mode (thr g t)); try discriminate;
      try (destruct (srv_class p); [rewrite (Hc eq_refl)|destruct (is_llcp r)]); lia.
Qed.

(* servers_exit, one step: after termination every own step of a server thread strictly decreases mu;
   a thread in a server mode never waits, and a call it issues from its loop ends in the
   nfc.llcp.Error handler (next_of: Err (LlcpError _) -> MClosing _ ExHandler) *)
(* a loop thread that starts its next call at p, or finds the socket gone and exits *)
Lemma goto_call_decreases g t o p md r n :
  let th := thr (goto_call g t o p md r) t in
  is_server md = true -> mu (mkThread (At o p) md) < n -> 0 < n ->
  mu th < n /\ (is_server (mode th) = true -> active (ts th)) /\
  (is_server (mode th) = true \/ exists how, mode th = MExit how).
Proof.
  intros th Hmd Hlt Hpos. subst th. destruct (goto_call_thr g t o p md r) as [X|X]; rewrite X.
  - split; [exact Hlt|split; [intros _; exact I|left; exact Hmd]].
  - split; [exact Hpos|split; [discriminate|right; eexists; reflexivity]].
Qed.

Theorem server_step_decreases g t w orc :
  Inv g -> lpc g = LDone -> is_server (mode (thr g t)) = true -> active (ts (thr g t)) ->
  let g' := srv_step t w orc g in
  mu (thr g' t) < mu (thr g t) /\
  (is_server (mode (thr g' t)) = true -> active (ts (thr g' t))) /\
  (is_server (mode (thr g' t)) = true \/ exists how, mode (thr g' t) = MExit how).
Proof.
  intros HI Hd Hm Ha g'. subst g'. unfold srv_step.
  pose proof (done_no_waiting g HI Hd t) as Hw. unfold waiting in Hw.
  destruct (ts (thr g t)) as [|o p|o c p b|r] eqn:E; try contradiction.
  - (* in a call *)
    apply (call_step_decreases g t o p orc HI Hd Hm). rewrite E. left. reflexivity.
  - (* woken, or still notified *)
    destruct b; [|discriminate].
    apply (call_step_decreases g t o p orc HI Hd Hm). rewrite E. right. exists c. reflexivity.
  - (* a result is consumed *)
    cbn [step]. rewrite E. unfold next_of.
    destruct (mode (thr g t)) as [|ls|c ph|o how|how] eqn:Em; try discriminate.
    + (* accept loop *)
      destruct r as [[| | |c|]|[]|c|]; try contradiction;
        apply goto_call_decreases; try reflexivity; unfold mu; rewrite Em, E; cbn; lia.
    + (* serve loop *)
      destruct r as [[|[|]| |c'|]|[]|c'|]; try contradiction; try destruct ph as [|[|ph]];
        apply goto_call_decreases; try reflexivity; unfold mu; rewrite Em, E; cbn; lia.
    + (* the final close() has returned *)
      unfold with_thr. cbn. rewrite upd_same. unfold mu. cbn. rewrite Em, E.
      split; [lia|split; [discriminate|right; eexists; reflexivity]].
Qed.

(* a call of a server loop (accept / poll / recv / send, entered at PAcc1 / PPoll0 / PRecv0 / PSend0) that
   runs after termination ends by raising nfc.llcp.Error: the loop is left through its handler *)
Theorem server_calls_raise : forall n g t o p,
  Inv g -> lpc g = LDone ->
  (ts (thr g t) = At o p \/ exists c, ts (thr g t) = Blocked o c p true) ->
  srv_class p = true -> rank p <= n -> forall orcs, n <= length orcs ->
  exists r, ts (thr (run g (map (TRun t) orcs)) t) = Done r /\ is_llcp r = true.
Proof.
  intros n g t o p HI Hd Hts Hc Hr orcs Hl.
  destruct (calls_end n g t o p HI Hd Hts Hr orcs Hl) as (r & E & _ & Hl'). exists r. auto.
Qed.

Lemma handler_is_taken g t w ls e :
  mode (thr g t) = MListen ls -> ts (thr g t) = Done (Err (LlcpError e)) ->
  step g (TNext t w) = goto_call g t ls PClose0 (MClosing ls ExHandler) (Err (LlcpError e)).
Proof. intros Em E. cbn [step]. rewrite E, Em. reflexivity. Qed.
Lemma handler_is_taken_serve g t w c ph e :
  mode (thr g t) = MServe c ph -> ts (thr g t) = Done (Err (LlcpError e)) ->
  step g (TNext t w) = goto_call g t c PClose0 (MClosing c ExHandler) (Err (LlcpError e)).
Proof. intros Em E. cbn [step]. rewrite E, Em. reflexivity. Qed.

Fixpoint srv_run (t w : nat) (orcs : list bool) (g : gstate) : gstate :=
  match orcs with [] => g | b :: l => srv_run t w l (srv_step t w b g) end.

Lemma srv_step_inv t w b g : Inv g -> Inv (srv_step t w b g).
Proof. intro H. unfold srv_step. destruct (ts (thr g t)); apply step_inv; exact H. Qed.
Lemma srv_step_done t w b g : lpc g = LDone -> lpc (srv_step t w b g) = LDone.
Proof. intro H. unfold srv_step. destruct (ts (thr g t)); apply done_stable; exact H. Qed.

(* servers_exit: after termination a server thread (accept loop, serve loop, or the final close())
   has exited after at most mu <= 16 of its own steps, for every choice of the oracle bits *)
Theorem servers_exit : forall n g t w,
  Inv g -> lpc g = LDone -> is_server (mode (thr g t)) = true -> active (ts (thr g t)) ->
  mu (thr g t) <= n -> forall orcs, n <= length orcs ->
  exists k how, k <= n /\ mode (thr (srv_run t w (firstn k orcs) g) t) = MExit how.
Proof.
  induction n as [|n IH]; intros g t w HI Hd Hm Ha Hmu orcs Hl.
  - exfalso. destruct orcs as [|b l].
    + pose proof (server_step_decreases g t w true HI Hd Hm Ha) as (X & _). lia.
    + pose proof (server_step_decreases g t w b HI Hd Hm Ha) as (X & _). lia.
  - destruct orcs as [|b l]; [cbn in Hl; lia|].
    destruct (server_step_decreases g t w b HI Hd Hm Ha) as (Hlt & Hact & [Hs|(how & Hx)]).
    + destruct (IH (srv_step t w b g) t w (srv_step_inv t w b g HI) (srv_step_done t w b g Hd) Hs (Hact Hs) ltac:(lia) l ltac:(cbn in Hl; lia))
        as (k & how & Hk & Hmode).
      exists (S k), how. split; [lia|]. cbn. exact Hmode.
    + exists 1, how. split; [lia|]. cbn. exact Hx.
Qed.

(* the unrepaired code (variant Orig): refutation witnesses, each a concrete schedule *)
Definition bound_raw (v : variant) : gstate :=
  run (init v) [TIssue 1 (ONew RAW); TNext 1 0; TIssue 1 (OBind 1); TRun 1 true; TRun 1 true; TNext 1 0].
Definition terminate_all : list label := [LTermBegin; LTermPop 1; LTermClose; LTermSd; LTermEnd].

(* RawAccessPoint.recv: the state test is made outside the lock; terminate() runs between the
   test and the wait; the caller is left waiting on a socket that is shut down *)
Definition lost_wakeup (v : variant) : gstate :=
  run (bound_raw v) ([TIssue 5 (ORecv 1); TRun 5 true] ++ terminate_all ++ [TRun 5 true]).

Lemma orig_lost_wakeup :
  let g := lost_wakeup Orig in
  lpc g = LDone /\ ts (thr g 5) = Blocked 1 RecvReady PRecv2 false /\ st (sk g 1) = SHUTDOWN.
Proof. vm_compute. repeat split. Qed.
Lemma fixed_same_schedule_returns : ts (thr (lost_wakeup Fixed) 5) = Done (Err (LlcpError ESHUTDOWN)).
Proof. vm_compute. reflexivity. Qed.

(* a socket created, bound and connected after termination waits for a CC that can never arrive *)
Definition late_connect (v : variant) : gstate :=
  run (bound_raw v) (terminate_all ++ [TIssue 7 (ONew DLC); TNext 7 0; TIssue 7 (OConnect 2); TRun 7 true; TRun 7 true; TRun 7 true]).
Lemma orig_late_connect_hangs :
  let g := late_connect Orig in lpc g = LDone /\ ts (thr g 7) = Blocked 2 RecvReady PConn2 false.
Proof. vm_compute. repeat split. Qed.
Lemma fixed_late_connect_raises : ts (thr (late_connect Fixed) 7) = Done (Err (LlcpError ESHUTDOWN)).
Proof. vm_compute. reflexivity. Qed.

(* llc.resolve() after termination: AttributeError *)
Definition late_resolve (v : variant) : gstate := run (bound_raw v) (terminate_all ++ [TIssue 7 OResolve; TRun 7 true]).
Lemma orig_late_resolve_crashes : ts (thr (late_resolve Orig) 7) = Done (Crash AttributeErr).
Proof. vm_compute. reflexivity. Qed.
Lemma fixed_late_resolve_none : ts (thr (late_resolve Fixed) 7) = Done (Ok VNone).
Proof. vm_compute. reflexivity. Qed.

(* Why the invariant "a closed DLC has an empty receive queue" (sock_ok, 4th part) matters, and what the
   unrepaired DataLinkConnection.enqueue (state test outside the lock, fixes/c09-8) broke: a connect()
   woken by close() that finds a CC in the queue of the closed socket sets ESTABLISHED again; the socket
   has meanwhile left the access point table and is never shut down with the link. *)
Example revive_needs_empty_queue :
  let closed_with_cc := mkSock DLC SHUTDOWN true true true [ICC] 0 1 1 0 0 false in
  st (o_sock (seg Fixed PConn2 closed_with_cc false true)) = ESTABLISHED /\
  o_act (seg Fixed PConn2 (set_rq closed_with_cc []) false true) = ARet (Err (LlcpError EPIPE)).
Proof. vm_compute. split; reflexivity. Qed.
