(* The memory reader's state (data_from_tag, data_in_cache) across several write attempts on one tag object.
   A failed synchronize resets the reader, so every attempt starts with reader = cache = tag memory T, and the
   invariant INV T T T says that T is SAFE: previous message | length byte 0 | complete new message, and different
   from the final cache cF only where cF differs from the memory em the tag object was activated on.  An attempt
   executes a prefix of the commands of the undisturbed operation started from T; each such prefix leaves a
   unit-wise mixture of two consecutive caches, which is SAFE again.  Abstract in the write unit, the caches and
   the phases; indices are list positions. *)
From Coq Require Import ZArith List Bool Lia ZifyBool.
From NV Require Import Base.Result Base.Bytes Model.TlvMem Proofs.TlvLib Proofs.TlvSync.
Import ListNotations.
Open Scope Z_scope.

Section Retry.
Variables (u k z : nat) (n : Z) (em cF : list Z).
Variable Sall : nat -> bool.      (* positions a cache may differ from the final cache cF (and from em) in *)
Hypothesis upos : (0 < u)%nat.
Hypothesis Hem : length em = (k * u)%nat.
Hypothesis HcF : length cF = (k * u)%nat.
Hypothesis Hlow : forall i, Sall i = true -> (z <= i)%nat.
Hypothesis HzS : Sall z = true.
Hypothesis HaccS : forall i, Sall i = true -> Z.of_nat (i / u * u + u) <= n.

Notation uz := (z / u)%nat.
Definition lenok (l : list Z) : Prop := length l = (k * u)%nat.
Definition FR (l : list Z) : Prop := lenok l /\ forall i, Sall i = false -> nth i l 0 = nth i cF 0.
Hypothesis FRem : FR em.
Set Default Proof Using "upos Hem HcF Hlow HzS HaccS FRem".
Definition ueq (q : nat) (a b : list Z) : Prop := forall i, (i / u = q)%nat -> nth i a 0 = nth i b 0.
(* the new message is complete on the tag, and reader and cache know everything but the unit of the length byte *)
Definition D3 (T F c : list Z) : Prop :=
  T = cF /\ forall i, (i / u)%nat <> uz -> nth i F 0 = nth i cF 0 /\ nth i c 0 = nth i cF 0.
Definition mode (T F c : list Z) : Prop :=
  (T = em /\ F = em /\ nth z em 0 <> 0) \/ nth z T 0 = 0 \/ D3 T F c.
(* reader_ok: T tag memory, F data_from_tag, c data_in_cache *)
Definition INV (T F c : list Z) : Prop :=
  FR T /\ FR F /\ FR c /\ mode T F c /\
  forall q, ueq q T F \/ (ueq q T c /\ (q = uz -> nth z c 0 = 0)) \/ (q = uz /\ D3 T F c).
Definition SAFE (T : list Z) : Prop := FR T /\ (T = em \/ nth z T 0 = 0 \/ T = cF).

Lemma INV_safe T F c : INV T F c -> SAFE T.
Proof. intros (FT & _ & _ & [(H & _)|[H|(H & _)]] & _); (split; [exact FT|]); [left | right; left | right; right]; exact H. Qed.
Lemma SAFE_INV T : SAFE T -> INV T T T.
Proof.
  intros [FT H]. split; [exact FT|]. split; [exact FT|]. split; [exact FT|]. split.
  - destruct H as [->|[H| ->]].
    + destruct (Z.eq_dec (nth z em 0) 0) as [E|E]; [right; left; exact E | left; auto].
    + right; left; exact H.
    + right; right. split; [reflexivity|]. auto.
  - intro q. left. intros i _. reflexivity.
Qed.
Lemma FR_cF : FR cF. Proof. split; [exact HcF | auto]. Qed.
Lemma SAFE_em : SAFE em. Proof. split; [exact FRem | auto]. Qed.
Lemma SAFE_cF : SAFE cF. Proof. split; [exact FR_cF | auto]. Qed.
Lemma INV_init : INV em em em. Proof. apply SAFE_INV, SAFE_em. Qed.
Lemma INV_final : INV cF cF cF. Proof. apply SAFE_INV, SAFE_cF. Qed.

(* ---- a unit-wise mixture x of two consecutive caches f, c (the tag after an interrupted synchronize f -> c) ---- *)
Lemma FR_umixed f c x : FR f -> FR c -> umixed u f c x -> FR x.
Proof.
  intros [Lf Hf] [_ Hc] Hm. split; [unfold lenok in *; destruct Hm; congruence|]. intros i Hi.
  destruct (umixed_pointwise u upos f c x Hm i) as [E|E]; rewrite E; auto.
Qed.
Lemma safe_zero f c x : FR f -> FR c -> nth z f 0 = 0 -> nth z c 0 = 0 -> umixed u f c x -> SAFE x.
Proof.
  intros Ff Fc Zf Zc Hm. split; [apply (FR_umixed f c); assumption|]. right; left.
  destruct (umixed_pointwise u upos f c x Hm z) as [E|E]; rewrite E; assumption.
Qed.
Lemma safe_single f c x : SAFE f -> SAFE c -> (forall i, nth i f 0 <> nth i c 0 -> (i / u)%nat = uz) -> umixed u f c x -> SAFE x.
Proof.
  intros Sf Sc Hd Hm. pose proof Sf as [[Lf _] _]. pose proof Sc as [[Lc _] _].
  destruct (umixed_single u upos f c x uz Hm ltac:(unfold lenok in *; congruence) Hd) as [->| ->]; assumption.
Qed.

(* every command of a synchronize between caches that differ only in Sall starts at or behind the length byte's
   unit and ends inside the tag's memory *)
Definition cmd_ok (w : write) : Prop := Z.of_nat (uz * u) <= fst w /\ fst w + len (snd w) <= n.
Lemma sync_cmd_ok F c : FR F -> FR c -> Forall cmd_ok (sync_cmds u F c).
Proof.
  intros [LF HF] [Lc Hc]. apply Forall_forall. intros [b dat] Hw.
  destruct (sync_cmd_spec u k F c b dat upos Lc LF Hw) as (Hb0 & Hmod & _ & Hd & _ & x & Hx & Hne).
  assert (Hs : Sall (Z.to_nat x) = true).
  { destruct (Sall (Z.to_nat x)) eqn:E; [reflexivity|]. elim Hne. unfold get. rewrite (HF _ E), (Hc _ E). reflexivity. }
  pose proof (HaccS _ Hs) as Hn. pose proof (Hlow _ Hs) as Hz. clear - upos Hb0 Hmod Hd Hx Hn Hz.
  (* b is the start of the unit of x *)
  pose proof (Nat.div_mod (Z.to_nat x) u ltac:(lia)). pose proof (Nat.mod_upper_bound (Z.to_nat x) u ltac:(lia)).
  assert (z / u <= Z.to_nat x / u)%nat by (apply Nat.div_le_mono; lia).
  apply Z.mod_divide in Hmod; [|lia]. destruct Hmod as [qb ->].
  assert (qb = Z.of_nat (Z.to_nat x / u)) by nia. unfold cmd_ok. cbn [fst snd]. nia.
Qed.

(* ---- the caches of one attempt from a SAFE memory T: length byte := 0, caches with length byte 0 up to one that
        equals cF outside the unit of the length byte, then cF ---- *)
Definition zeroP (c c' : list Z) : Prop := lenok c' /\ forall i, nth i c' 0 = if (i =? z)%nat then 0 else nth i c 0.
Lemma zeroP_FR T c1 : FR T -> zeroP T c1 -> FR c1 /\ nth z c1 0 = 0.
Proof.
  intros FT [L1 H1]. split; [|rewrite H1, Nat.eqb_refl; reflexivity]. split; [exact L1|]. intros i Hi. rewrite H1.
  destruct (Nat.eqb_spec i z) as [->|_]; [rewrite HzS in Hi; discriminate | apply FT, Hi].
Qed.
Inductive to_final : list Z -> list (list Z) -> Prop :=
| tf_commit cm : (forall i, (i / u)%nat <> uz -> nth i cm 0 = nth i cF 0) -> to_final cm [cF]
| tf_mid c c' r : FR c' -> nth z c' 0 = 0 -> to_final c' r -> to_final c (c' :: r).

Lemma to_final_safe c cs : to_final c cs -> FR c -> nth z c 0 = 0 ->
  last_cache c cs = cF /\ Forall FR cs /\ Forall cmd_ok (chain_cmds u c cs) /\
  forall f c' x, adjacent c cs f c' -> umixed u f c' x -> SAFE x.
Proof.
  induction 1 as [cm Hout | c c' r Fc' Hz' Hr IH]; intros Fc Hz.
  - split; [reflexivity|]. split; [constructor; [exact FR_cF | constructor]|]. split.
    + cbn [chain_cmds]. rewrite app_nil_r. apply sync_cmd_ok; [exact Fc | exact FR_cF].
    + intros f c' x Ha Hm. apply adjacent_inv in Ha as [[-> ->]|Ha']; [|destruct (adjacent_inv _ _ _ _ Ha')].
      apply (safe_single cm cF x); [split; auto | exact SAFE_cF | | exact Hm].
      intros i Hne. destruct (Nat.eq_dec (i / u) uz) as [E|E]; [exact E|]. elim Hne. apply Hout, E.
  - destruct (IH Fc' Hz') as (E & Fr & Cr & Sr). split; [exact E|]. split; [constructor; assumption|]. split.
    + cbn [chain_cmds]. apply Forall_app. split; [apply sync_cmd_ok; assumption | exact Cr].
    + intros f y x Ha Hm. apply adjacent_inv in Ha as [[-> ->]|Ha']; [apply (safe_zero c c'); assumption | apply (Sr f y); assumption].
Qed.

(* One attempt on the tag memory m whose readable image [vw m] is the SAFE memory T, by a reader in step with it:
   the image stays SAFE after every command the tag executes, the reader ends in step with the tag again, and an
   attempt without fault completes with the final cache.  [cmd_ok] is reported because it is what makes [vw]
   commute with the commands. *)
Theorem attempt_ok vw m T phs c1 cs kf f : SAFE T -> steps T phs (c1 :: cs) -> zeroP T c1 -> to_final c1 cs ->
  (forall ws, Forall cmd_ok ws -> vw (apply_ws m ws) = apply_ws T ws) ->
  let '(r, (m', F', c'), ex) := run_attempt u n vw m T T phs kf f in
  m' = apply_ws m ex /\ F' = vw m' /\ c' = vw m' /\ Forall cmd_ok ex /\
  (forall i, SAFE (vw (apply_ws m (firstn i ex)))) /\ (r = Ok tt -> vw m' = cF) /\ (kf = None -> r = Ok tt).
Proof.
  intros ST Hst Z0 Htf Hvw. pose proof ST as [FT _]. destruct (zeroP_FR T c1 FT Z0) as [Fc1 Hz1]. destruct Z0 as [L1 H1].
  destruct (to_final_safe c1 cs Htf Fc1 Hz1) as (EL & Fcs & Ccs & Scs).
  assert (Hcmd : Forall cmd_ok (chain_cmds u T (c1 :: cs))) by (apply Forall_app; split; [apply sync_cmd_ok; assumption | exact Ccs]).
  assert (Hlen : Forall (fun c' => length c' = (k * u)%nat) (c1 :: cs)).
  { constructor; [exact L1|]. eapply Forall_impl; [|exact Fcs]. intros a Ha. apply Ha. }
  assert (Hsafe : forall ex rest, chain_cmds u T (c1 :: cs) = ex ++ rest -> SAFE (apply_ws T ex)).
  { intros ex rest E. pose proof (chain_cut u k upos (c1 :: cs) T (length ex) (proj1 FT) Hlen) as C.
    rewrite E, firstn_app, Nat.sub_diag, firstn_all, app_nil_r in C. destruct C as [C|(f0 & c & Ha & Hm)].
    - rewrite C. cbn [last_cache]. rewrite EL. exact SAFE_cF.
    - apply adjacent_inv in Ha as [[-> ->]|Ha']; [|apply (Scs f0 c); assumption].
      apply (safe_single T c1); [exact ST | split; auto | | exact Hm].
      intros i Hne. destruct (Nat.eqb_spec i z) as [Ei|Ei]; [rewrite Ei; reflexivity|]. elim Hne. rewrite H1.
      apply Nat.eqb_neq in Ei. rewrite Ei. reflexivity. }
  pose proof (run_attempt_chain u k n f vw upos phs (c1 :: cs) T Hst m kf (proj1 FT) Hlen) as R.
  destruct (run_attempt u n vw m T T phs kf f) as [[r [[m' F'] c']] ex].
  destruct R as (R1 & [rest R2] & R3).
  { intros w Hw. rewrite Forall_forall in Hcmd. destruct (Hcmd w Hw). split; [lia | assumption]. }
  assert (Cex : Forall cmd_ok ex) by (rewrite R2 in Hcmd; apply Forall_app in Hcmd; apply Hcmd).
  split; [exact R1|].
  assert (Hpre : forall i, SAFE (vw (apply_ws m (firstn i ex)))).
  { intro i. rewrite Hvw by (rewrite <- (firstn_skipn i ex) in Cex; apply Forall_app in Cex; apply Cex).
    apply (Hsafe _ (skipn i ex ++ rest)). rewrite app_assoc, firstn_skipn. exact R2. }
  destruct R3 as [(-> & -> & -> & ->)|(-> & Hk & -> & ->)].
  - assert (Vm : vw m' = cF).
    { rewrite R1, (Hvw _ Cex), (chain_apply u k upos (c1 :: cs) T (proj1 FT) Hlen). exact EL. }
    cbn [last_cache]. rewrite EL, Vm. auto 8.
  - split; [reflexivity|]. split; [reflexivity|]. split; [exact Cex|]. split; [exact Hpre|]. split; [discriminate | intro; contradiction].
Qed.
End Retry.
Set Default Proof Using "Type".
