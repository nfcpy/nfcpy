(* C17 - basic facts about the address-table model and the well-formedness invariant. *)
From Coq Require Import ZArith List Bool Lia ZifyBool.
From NV Require Import Base.Result Base.Bytes Base.PyPrims Model.Addr.
Import ListNotations.
Open Scope Z_scope.

Lemma upd_nth_length {A} (l : list A) i x : length (upd_nth l i x) = length l.
Proof. revert i; induction l as [|h t IH]; intros [|i]; cbn; auto. Qed.
Lemma nth_error_upd_same {A} (l : list A) i x : (i < length l)%nat -> nth_error (upd_nth l i x) i = Some x.
Proof. revert i; induction l as [|h t IH]; intros [|i] H; cbn in *; try lia; auto. apply IH; lia. Qed.
Lemma nth_error_upd_other {A} (l : list A) i j x : i <> j -> nth_error (upd_nth l i x) j = nth_error l j.
Proof. revert i j; induction l as [|h t IH]; intros [|i] [|j] H; cbn; auto; try congruence. Qed.
Lemma upd_nth_oob {A} (l : list A) i x : (length l <= i)%nat -> upd_nth l i x = l.
Proof. revert i; induction l as [|h t IH]; intros [|i] H; cbn in *; auto; try lia. f_equal. apply IH. lia. Qed.
Lemma nth_upd_same {A} (l : list A) i x d : (i < length l)%nat -> nth i (upd_nth l i x) d = x.
Proof. revert i; induction l as [|h t IH]; intros [|i] H; cbn in *; try lia; auto. apply IH; lia. Qed.
Lemma nth_upd_other {A} (l : list A) i j x d : i <> j -> nth j (upd_nth l i x) d = nth j l d.
Proof. revert i j; induction l as [|h t IH]; intros [|i] [|j] H; cbn; auto; try congruence. Qed.

Lemma name_eqb_eq a b : name_eqb a b = true <-> a = b.
Proof. apply list_eqb_eq. Qed.
Lemma name_eqb_refl a : name_eqb a a = true.
Proof. apply name_eqb_eq. reflexivity. Qed.
Lemma name_eqb_neq a b : name_eqb a b = false <-> a <> b.
Proof. split; intro H.
  - intro E. apply name_eqb_eq in E. congruence.
  - destruct (name_eqb a b) eqn:E; auto. apply name_eqb_eq in E. contradiction. Qed.

Lemma lookup_app_none {V} (l : list (name * V)) n k v :
  lookup l n = None -> lookup (l ++ [(k, v)]) n = if name_eqb k n then Some v else None.
Proof. induction l as [|[k' v'] t IH]; cbn; intro H; auto.
  destruct (name_eqb k' n); [discriminate | auto]. Qed.
Lemma lookup_app_some {V} (l : list (name * V)) n k v x :
  lookup l n = Some x -> lookup (l ++ [(k, v)]) n = Some x.
Proof. induction l as [|[k' v'] t IH]; cbn; intro H; [discriminate|].
  destruct (name_eqb k' n); auto. Qed.

Lemma lookup_in {V} (l : list (name * V)) n v : lookup l n = Some v -> In n (map fst l).
Proof. induction l as [|[k' v'] t IH]; cbn; [discriminate|].
  destruct (name_eqb k' n) eqn:E; [left; apply name_eqb_eq; auto | right; auto]. Qed.
(* remove_socket drops the names of an address *)
Lemma lookup_drop_addr (l : list (name * Z)) a n x : NoDup (map fst l) ->
  lookup (filter (fun kv => negb (snd kv =? a)) l) n = Some x <-> lookup l n = Some x /\ x <> a.
Proof.
  induction l as [|[k v] t IH]; cbn; intro ND; [split; [discriminate | intros [? _]; discriminate]|].
  inversion ND as [|? ? Hn ND']; subst. destruct (v =? a) eqn:E; cbn.
  - destruct (name_eqb k n) eqn:K; [|apply IH; auto]. apply name_eqb_eq in K. subst k. rewrite IH by auto. split.
    + intros [L _]. exfalso. apply Hn. eapply lookup_in; eauto.
    + intros [H N]. inversion H; subst. lia.
  - destruct (name_eqb k n); [|apply IH; auto]. split; [intro H; inversion H; subst; split; auto; lia | tauto].
Qed.
Lemma lookup_not_in {V} (l : list (name * V)) n : ~ In n (map fst l) -> lookup l n = None.
Proof. intro H. destruct (lookup l n) eqn:E; auto. exfalso. apply H. eapply lookup_in; eauto. Qed.
Lemma filter_keys_nodup {V} (l : list (name * V)) f : NoDup (map fst l) -> NoDup (map fst (filter f l)).
Proof. induction l as [|[k v] t IH]; cbn; intro ND; auto. inversion ND; subst.
  destruct (f (k, v)); cbn; auto. constructor; auto.
  intro Hin. apply H1. clear -Hin. induction t as [|[k' v'] t IH]; cbn in *; auto.
  destruct (f (k', v')); cbn in *; tauto. Qed.

Definition socks_of (e : sapent) : list nat := match e with Sap l _ => l | _ => [] end.
Definition listed (c : ctl) (a : Z) (i : nat) : Prop := In i (socks_of (sap_get c a)).

Lemma in_range_iff a : in_range a = true <-> 0 <= a < 64.
Proof. unfold in_range. lia. Qed.

Lemma sap_get_oob c a : ~ (0 <= a < 64) -> sap_get c a = SapNone.
Proof. intro H. unfold sap_get. destruct (in_range a) eqn:E; auto. apply in_range_iff in E. lia. Qed.

Lemma sap_get_set_same c a e : length (c_sap c) = 64%nat -> 0 <= a < 64 -> sap_get (sap_set c a e) a = e.
Proof. intros L H. unfold sap_get, sap_set. replace (in_range a) with true by (symmetry; apply in_range_iff; auto).
  cbn. apply nth_upd_same. lia. Qed.
Lemma sap_get_set_other c a b e : a <> b -> sap_get (sap_set c a e) b = sap_get c b.
Proof. intro H. unfold sap_get, sap_set. destruct (in_range a) eqn:Ea; auto.
  destruct (in_range b) eqn:Eb; auto. cbn. apply nth_upd_other.
  apply in_range_iff in Ea. apply in_range_iff in Eb. lia. Qed.
Lemma sap_get_set c a e b : length (c_sap c) = 64%nat -> 0 <= a < 64 ->
  sap_get (sap_set c a e) b = if a =? b then e else sap_get c b.
Proof. intros L R. destruct (a =? b) eqn:E; [replace b with a by lia; apply sap_get_set_same | apply sap_get_set_other]; auto; lia. Qed.
Lemma sap_set_len c a e : length (c_sap (sap_set c a e)) = length (c_sap c).
Proof. unfold sap_set. destruct (in_range a); auto. cbn. apply upd_nth_length. Qed.
Lemma sap_set_socks c a e : c_socks (sap_set c a e) = c_socks c.
Proof. unfold sap_set. destruct (in_range a); auto. Qed.
Lemma sap_set_snl c a e : c_snl (sap_set c a e) = c_snl c.
Proof. unfold sap_set. destruct (in_range a); auto. Qed.
Lemma get_sock_sap_set c a e i : get_sock (sap_set c a e) i = get_sock c i.
Proof. unfold get_sock. rewrite sap_set_socks. reflexivity. Qed.

Lemma sap_get_put_sock c i s a : sap_get (put_sock c i s) a = sap_get c a.
Proof. reflexivity. Qed.
Lemma get_put_same c i s s0 : get_sock c i = Some s0 -> get_sock (put_sock c i s) i = Some s.
Proof. unfold get_sock, put_sock. cbn. intro H. apply nth_error_upd_same.
  apply nth_error_Some. congruence. Qed.
Lemma get_put_other c i j s : i <> j -> get_sock (put_sock c i s) j = get_sock c j.
Proof. unfold get_sock, put_sock. cbn. apply nth_error_upd_other. Qed.
Lemma put_sock_snl c i s : c_snl (put_sock c i s) = c_snl c. Proof. reflexivity. Qed.
Lemma put_sock_sap c i s : c_sap (put_sock c i s) = c_sap c. Proof. reflexivity. Qed.
Lemma put_sock_len c i s : length (c_socks (put_sock c i s)) = length (c_socks c).
Proof. cbn. apply upd_nth_length. Qed.

Lemma is_free_iff c a : is_free c a = true <-> sap_get c a = SapNone.
Proof. unfold is_free. destruct (sap_get c a); split; congruence. Qed.

Lemma first_free_some c l a : first_free c l = Some a ->
  In a l /\ is_free c a = true /\ exists l1 l2, l = l1 ++ a :: l2 /\ forall b, In b l1 -> is_free c b = false.
Proof.
  induction l as [|x t IH]; cbn; [discriminate|].
  destruct (is_free c x) eqn:F.
  - intro H; inversion H; subst. split; [auto|]. split; [auto|]. exists [], t. split; auto. intros b [].
  - intro H. destruct (IH H) as (Hin & Hf & l1 & l2 & -> & Hb). split; [auto|]. split; [auto|].
    exists (x :: l1), l2. split; auto. intros b [<-|Hb']; auto.
Qed.
Lemma first_free_none c l : first_free c l = None -> forall b, In b l -> is_free c b = false.
Proof.
  induction l as [|x t IH]; cbn; [intros _ b []|].
  destruct (is_free c x) eqn:F; [discriminate|]. intros H b [<-|Hb]; auto.
Qed.
Lemma first_free_range_some c lo hi a : first_free c (zrange lo hi) = Some a ->
  lo <= a < hi /\ is_free c a = true /\ forall b, lo <= b < a -> is_free c b = false.
Proof.
  remember (Z.to_nat (hi - lo)) as n eqn:N. revert lo N. induction n as [|n IH]; intros lo N.
  - rewrite zrange_nil by lia. discriminate.
  - rewrite zrange_cons by lia. cbn. destruct (is_free c lo) eqn:F; intro H.
    + inversion H; subst. repeat split; auto; lia.
    + destruct (IH (lo + 1) ltac:(lia) H) as (R & Fa & B). repeat split; auto; try lia.
      intros b Hb. destruct (Z.eq_dec b lo); [subst; auto | apply B; lia].
Qed.
Lemma first_free_range_none c lo hi : first_free c (zrange lo hi) = None ->
  forall b, lo <= b < hi -> is_free c b = false.
Proof. intros H b Hb. eapply first_free_none; eauto. apply in_zrange; auto. Qed.

Lemma remove_id_in l i j : In j (remove_id l i) -> In j l.
Proof. induction l as [|x t IH]; cbn; auto. destruct (Nat.eqb x i); cbn; intuition. Qed.
Lemma remove_id_keeps l i j : j <> i -> In j l -> In j (remove_id l i).
Proof. induction l as [|x t IH]; cbn; auto. intros Hne [->|Hin].
  - destruct (Nat.eqb j i) eqn:E; [apply Nat.eqb_eq in E; contradiction | left; auto].
  - destruct (Nat.eqb x i); [auto | right; auto]. Qed.
Lemma remove_id_nodup l i : NoDup l -> NoDup (remove_id l i) /\ ~ In i (remove_id l i).
Proof. induction l as [|x t IH]; cbn; intro ND; [split; [constructor | auto]|].
  inversion ND; subst. destruct (Nat.eqb x i) eqn:E.
  - apply Nat.eqb_eq in E. subst. auto.
  - apply Nat.eqb_neq in E. destruct (IH H2) as [N1 N2]. split.
    + constructor; auto. intro Hx. apply H1. eapply remove_id_in; eauto.
    + intros [?|?]; auto. Qed.
Lemma remove_id_notin l i : ~ In i l -> remove_id l i = l.
Proof. induction l as [|x t IH]; cbn; auto. intro H. destruct (Nat.eqb x i) eqn:E.
  - apply Nat.eqb_eq in E. subst. tauto.
  - f_equal. apply IH. tauto. Qed.
Lemma remove_id_single i : remove_id [i] i = [].
Proof. cbn. rewrite Nat.eqb_refl. reflexivity. Qed.

(* states a connection socket created by accept() can be in: it can never listen *)
Definition nolisten (st : sstate) : Prop :=
  st = StEstablished \/ st = StCloseWait \/ st = StDisconnect \/ st = StShutdown.

(* a UI PDU whose source / destination is the address [oa] *)
Definition ui_src (oa : option Z) (p : pdu) : Prop := exists d data a, p = PUI d a data /\ oa = Some a.
Definition ui_dst (oa : option Z) (p : pdu) : Prop := exists d sa data, p = PUI d sa data /\ oa = Some d.

Definition is_ui (p : pdu) : bool := match p with PUI _ _ _ => true | _ => false end.

Record wf (c : ctl) : Prop := mkWf {
  wf_len : length (c_sap c) = 64%nat;
  wf_sap0 : exists sl, sap_get c 0 = Sap [] sl;
  wf_sap1 : sap_get c 1 = SapSD;
  wf_nosd : forall a, a <> 1 -> sap_get c a <> SapSD;
  wf_nonempty : forall a l sl, 2 <= a -> sap_get c a = Sap l sl -> l <> [];
  (* a socket in the list of SAP a says that it is bound to a *)
  wf_listed_addr : forall a i, listed c a i -> exists s, get_sock c i = Some s /\ s_addr s = Some a;
  wf_nodup : forall a, NoDup (socks_of (sap_get c a));
  (* a socket that is bound and not shut down is in the list of its SAP *)
  wf_open_listed : forall i s a, get_sock c i = Some s -> s_addr s = Some a -> s_state s <> StShutdown -> listed c a i;
  wf_addr_range : forall i s a, get_sock c i = Some s -> s_addr s = Some a -> 2 <= a < 64;
  (* all sockets of one SAP have the same type *)
  wf_homog : forall a i j si sj, listed c a i -> listed c a j -> get_sock c i = Some si -> get_sock c j = Some sj ->
             s_type si = s_type sj;
  (* service names *)
  wf_snl_keys : NoDup (map fst (c_snl c));
  wf_snl_sdp : lookup (c_snl c) name_sdp = Some 1;
  wf_snl_val : forall n a, lookup (c_snl c) n = Some a ->
      (n = name_sdp /\ a = 1) \/
      (name_valid n = true /\ 2 <= a /\ is_free c a = false /\ (wks n = Some a \/ (wks n = None /\ 16 <= a < 32)));
  wf_snl_inj : forall n1 n2 a, 2 <= a -> lookup (c_snl c) n1 = Some a -> lookup (c_snl c) n2 = Some a -> n1 = n2;
  (* history variable: a socket still in the table that was bound under n has n in the name table;
     a socket of a named SAP that can listen is the one bound under that name *)
  wf_bname_snl : forall a i s n, listed c a i -> get_sock c i = Some s -> s_bname s = Some n -> lookup (c_snl c) n = Some a;
  wf_snl_bname : forall a i s n, 2 <= a -> lookup (c_snl c) n = Some a -> listed c a i -> get_sock c i = Some s ->
      s_bname s = Some n \/ (s_bname s = None /\ nolisten (s_state s));
  wf_unbound_noname : forall i s, get_sock c i = Some s -> s_addr s = None -> s_bname s = None;
  (* datagram sockets: every PDU waiting to be sent is a UI PDU carrying the socket's own address as source,
     every PDU waiting to be received is a UI PDU addressed to the socket's own address *)
  wf_ldl_sq : forall i s p, get_sock c i = Some s -> s_type s = TLdl -> In p (s_sendq s) -> ui_src (s_addr s) p;
  wf_ldl_rq : forall i s p, get_sock c i = Some s -> s_type s = TLdl -> In p (s_recvq s) -> ui_dst (s_addr s) p;
  (* a UI PDU waits for transmission only in the send queue of a datagram socket or a raw access point *)
  wf_dlc_sq : forall i s p, get_sock c i = Some s -> s_type s = TDlc -> In p (s_sendq s) -> is_ui p = false;
  wf_sendl_ui : forall a l sl p, sap_get c a = Sap l sl -> In p sl -> is_ui p = false;
  wf_dmpdu_ui : forall p, In p (sd_dmpdu c) -> is_ui p = false
}.

Lemma wf_free_ge2 c a : wf c -> is_free c a = true -> a <> 0 /\ a <> 1.
Proof. intros W F. apply is_free_iff in F.
  split; intro; subst a; [destruct (wf_sap0 _ W) as (sl & E) | pose proof (wf_sap1 _ W) as E]; congruence. Qed.

Lemma wf_ext c c' : c_sap c' = c_sap c -> c_snl c' = c_snl c -> c_socks c' = c_socks c ->
  (forall p, In p (sd_dmpdu c') -> is_ui p = false) -> wf c -> wf c'.
Proof.
  intros E1 E2 E3 E4 W. destruct c, c'. cbn in E1, E2, E3, E4. subst. destruct W. constructor; assumption.
Qed.
