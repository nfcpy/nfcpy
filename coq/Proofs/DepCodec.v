(* NFC-DEP frame codec: decode_frame (encode_frame pdu) = pdu for both directions. *)
From Coq Require Import ZArith List Bool Lia ZifyBool.
From NV Require Import Base.Result Base.Bytes Model.Dep.
Import ListNotations.
Open Scope Z_scope.
Ltac Zify.zify_post_hook ::= Z.to_euclidean_division_equations.

Definition dep_wf (d : deppdu) : Prop := 0 <= fmt d <= 15 /\ 0 <= pni d <= 3.

Lemma lr_of_range i : 64 <= lr_of i <= 254.
Proof. unfold lr_of. destruct (i =? 0), (i =? 1), (i =? 2); lia. Qed.

Lemma strip_frame_encode b body f :
  encode_frame b body = Ok f -> 2 <= len body -> strip_frame b f = Ok body.
Proof.
  unfold encode_frame. destruct (255 <? len body + 1) eqn:E; [discriminate|].
  intros H Hl. injection H as <-. unfold strip_frame.
  destruct b; cbn [app bind].
  - change (240 =? 240) with true. cbv iota. cbn [bind]. rewrite len_cons.
    replace (1 + len body =? len body + 1) with true by lia.
    replace (len body <? 2) with false by lia. reflexivity.
  - rewrite len_cons. replace (1 + len body =? len body + 1) with true by lia.
    replace (len body <? 2) with false by lia. reflexivity.
Qed.

Lemma encode_frame_ok b body : len body + 1 <= 255 ->
  encode_frame b body = Ok ((if b then [240] else []) ++ [len body + 1] ++ body).
Proof. intro H. unfold encode_frame. replace (255 <? len body + 1) with false by lia. reflexivity. Qed.

(* (f << k) | x = f * 2^k + x when x has k bits: the fields of the PFB and PP octets do not overlap *)
Lemma lor_shiftl_low f k x : 0 <= k -> 0 <= x < 2 ^ k -> Z.lor (Z.shiftl f k) x = f * 2 ^ k + x.
Proof.
  intros Hk Hx.
  assert (E : Z.land (Z.shiftl f k) x = 0).
  { apply Z.bits_inj'. intros n Hn. rewrite Z.land_spec, Z.bits_0. destruct (Z.lt_ge_cases n k).
    - rewrite Z.shiftl_spec_low by assumption. reflexivity.
    - rewrite <- (Z.mod_small x (2 ^ k) Hx), Z.mod_pow2_bits_high by lia. apply andb_false_r. }
  rewrite <- Z.lxor_lor, <- Z.add_nocarry_lxor, Z.shiftl_mul_pow2 by assumption. reflexivity.
Qed.

(* x & 2^k tests bit k, which is the parity of x / 2^k *)
Lemma land_bit a k : 0 <= k -> negb (Z.land a (2 ^ k) =? 0) = ((a / 2 ^ k) mod 2 =? 1).
Proof.
  intro Hk. rewrite <- (Z.testbit_spec' a k Hk).
  assert (E : Z.land a (2 ^ k) = if Z.testbit a k then 2 ^ k else 0).
  { apply Z.bits_inj'. intros n Hn. rewrite Z.land_spec, Z.pow2_bits_eqb by exact Hk.
    destruct (Z.eqb_spec k n) as [<-|Hne].
    - rewrite andb_true_r. destruct (Z.testbit a k); [symmetry; apply Z.pow2_bits_true, Hk | symmetry; apply Z.bits_0].
    - rewrite andb_false_r. destruct (Z.testbit a k); [symmetry; apply Z.pow2_bits_false, Hne | symmetry; apply Z.bits_0]. }
  rewrite E. pose proof (Z.pow_pos_nonneg 2 k eq_refl Hk). destruct (Z.testbit a k); cbn [Z.b2z]; lia.
Qed.

(* the four fields of the PFB octet, the two flags as numbers 0 / 1 *)
Lemma pfb_arith f p a b : 0 <= f <= 15 -> 0 <= p <= 3 -> 0 <= a <= 1 -> 0 <= b <= 1 ->
  (f * 16 + b * 8 + a * 4 + p) / 16 = f /\ (f * 16 + b * 8 + a * 4 + p) mod 4 = p /\
  ((f * 16 + b * 8 + a * 4 + p) / 4) mod 2 = a /\ ((f * 16 + b * 8 + a * 4 + p) / 8) mod 2 = b.
Proof. intros. repeat split; lia. Qed.

Lemma pfb_fields d : dep_wf d ->
  pfb_byte d / 16 = fmt d /\ pfb_byte d mod 4 = pni d /\
  ((pfb_byte d / 4) mod 2 =? 1) = is_some (did d) /\ ((pfb_byte d / 8) mod 2 =? 1) = is_some (nad d).
Proof.
  intros [Hf Hp]. unfold pfb_byte.
  assert (Hb : forall o : option Z, 0 <= b2z (is_some o) <= 1) by (intros [x|]; cbn; lia).
  destruct (pfb_arith _ _ _ _ Hf Hp (Hb (did d)) (Hb (nad d))) as (-> & -> & -> & ->).
  destruct (did d), (nad d); repeat split.
Qed.

Lemma dec_dep_enc d : dep_wf d ->
  dec_dep (pfb_byte d :: opt_list (did d) ++ opt_list (nad d) ++ data d) = Ok d.
Proof.
  intro Hwf. destruct (pfb_fields d Hwf) as (H1 & H2 & H3 & H4).
  unfold dec_dep. rewrite H1, H2, H3, H4.
  destruct d as [f p dd nn dat]; cbn [Dep.did Dep.nad Dep.data Dep.fmt Dep.pni] in *.
  destruct dd, nn; reflexivity.
Qed.

Lemma len_enc_dep code d :
  len (enc_dep code d) = len code + 1 + b2z (is_some (did d)) + b2z (is_some (nad d)) + len (data d).
Proof.
  unfold enc_dep. rewrite !len_app. destruct (did d), (nad d); cbn [opt_list is_some b2z]; rewrite ?len_cons, ?len_nil; lia.
Qed.

(* Every PDU passes the frame codec: requests through Target.decode_frame, responses through Initiator.decode_frame. *)
Definition is_req (p : pdu) : bool :=
  match p with PAtrReq _ _ _ _ _ _ | PPslReq _ _ _ | PDepReq _ | PDslReq _ | PRlsReq _ => true | _ => false end.

(* what decoding recovers: an NFCID3 of ten octets, general bytes exactly when the PP octet announces them, PFB
   fields within their bits *)
Definition pdu_wf (p : pdu) : Prop :=
  match p with
  | PAtrReq id _ _ _ pp gb | PAtrRes id _ _ _ _ pp gb => length id = 10%nat /\ ((pp / 2) mod 2 =? 1) = nonempty gb
  | PDepReq d | PDepRes d => dep_wf d
  | _ => True
  end.

Lemma enc_pdu_codes p : exists c0 c1 r, enc_pdu p = c0 :: c1 :: r.
Proof. destruct p; do 3 eexists; reflexivity. Qed.

Lemma len10 (l : list Z) : length l = 10%nat -> exists a0 a1 a2 a3 a4 a5 a6 a7 a8 a9, l = [a0; a1; a2; a3; a4; a5; a6; a7; a8; a9].
Proof.
  intro H. do 10 (destruct l as [|? l]; [discriminate|]). destruct l; [|discriminate]. repeat eexists.
Qed.

Theorem decode_encode b p f : pdu_wf p -> encode_frame b (enc_pdu p) = Ok f ->
  (if is_req p then decode_frame_tgt b f else decode_frame_ini b f) = Ok p.
Proof.
  intros Hwf He.
  assert (Hs : strip_frame b f = Ok (enc_pdu p)).
  { apply strip_frame_encode; [exact He|]. destruct (enc_pdu_codes p) as (c0 & c1 & r & ->).
    rewrite !len_cons. pose proof (len_nonneg r). lia. }
  destruct p; cbn [is_req pdu_wf] in *; unfold decode_frame_tgt, decode_frame_ini; rewrite Hs;
    cbn [bind enc_pdu enc_dep app Z.eqb Pos.eqb negb].
  1,2: destruct Hwf as [Hl Hpp]; destruct (len10 _ Hl) as (a0 & a1 & a2 & a3 & a4 & a5 & a6 & a7 & a8 & a9 & ->).
  - unfold dec_atr_req, slice, drop. cbn [app Z.max Z.sub Z.to_nat Z.compare Pos.compare Pos.compare_cont Z.opp Z.add Z.pos_sub Pos.pred_double Z.double Z.succ_double Z.pred_double].
    change (Pos.to_nat 12) with 12%nat; change (Pos.to_nat 4) with 4%nat; change (Pos.to_nat 10) with 10%nat;
      change (Pos.to_nat 2) with 2%nat; change (Pos.to_nat 16) with 16%nat. cbn [firstn skipn].
    rewrite Hpp. destruct gb; reflexivity.
  - unfold dec_atr_res, slice, drop. cbn [app Z.max Z.sub Z.to_nat Z.compare Pos.compare Pos.compare_cont Z.opp Z.add Z.pos_sub Pos.pred_double Z.double Z.succ_double Z.pred_double].
    change (Pos.to_nat 12) with 12%nat; change (Pos.to_nat 5) with 5%nat; change (Pos.to_nat 10) with 10%nat;
      change (Pos.to_nat 2) with 2%nat; change (Pos.to_nat 17) with 17%nat. cbn [firstn skipn].
    rewrite Hpp. destruct gb; reflexivity.
  - reflexivity.
  - reflexivity.
  - change (drop 2 (212 :: 6 :: ?l)) with l. rewrite (dec_dep_enc d Hwf). reflexivity.
  - change (drop 2 (213 :: 7 :: ?l)) with l. rewrite (dec_dep_enc d Hwf). reflexivity.
  - destruct did; reflexivity.
  - destruct did; reflexivity.
  - destruct did; reflexivity.
  - destruct did; reflexivity.
Qed.

Lemma frame_ok b p : pdu_wf p -> len (enc_pdu p) <= 254 ->
  exists f, encode_frame b (enc_pdu p) = Ok f /\ (if is_req p then decode_frame_tgt b f else decode_frame_ini b f) = Ok p.
Proof.
  intros Hwf Hl. eexists. split; [apply encode_frame_ok; lia|]. apply (decode_encode b p _ Hwf). apply encode_frame_ok. lia.
Qed.

Lemma decode_ini_rls b x f :
  encode_frame b (enc_pdu (PRlsRes x)) = Ok f -> decode_frame_ini b f = Ok (PRlsRes x).
Proof. exact (decode_encode b (PRlsRes x) f I). Qed.
Lemma decode_ini_dsl b x f :
  encode_frame b (enc_pdu (PDslRes x)) = Ok f -> decode_frame_ini b f = Ok (PDslRes x).
Proof. exact (decode_encode b (PDslRes x) f I). Qed.

(* decode_frame never hangs, and its only crash is IndexError/ValueError on short input (for C07) *)
Lemma strip_frame_nonempty b f : 2 <= len f -> (b = true -> 3 <= len f) ->
  match strip_frame b f with Crash _ | Hang => False | _ => True end.
Proof.
  intros H Hb. unfold strip_frame. destruct b.
  - specialize (Hb eq_refl). destruct f as [|x [|y r]]; cbn [bind]; try (unfold len in *; cbn in *; lia).
    destruct (x =? 240); cbn [bind]; [|exact I].
    destruct (len (y :: r) =? y); [|exact I]. destruct (len r <? 2); exact I.
  - destruct f as [|y r]; cbn [bind]; [unfold len in *; cbn in *; lia|].
    destruct (len (y :: r) =? y); [|exact I]. destruct (len r <? 2); exact I.
Qed.
