(* C08: everything the Type 3 / Type 4 safety proofs (Proofs/TagSafeBlk.v) need to know about the SHARED model
   functions of Model/T3T.v, Model/T4T.v and Model/IsoDep.v, as small lemmas (frames, block ranges and the attribute
   block: Proofs/T3T.v).  TagSafeBlk.v unfolds none of those models' functions; when one of them is refactored,
   only the short proofs in this file have to follow. *)
From Coq Require Import ZArith List Bool Lia ZifyBool.
From NV Require Import Base.Result Base.Bytes Base.PyPrims Proofs.Chunks Model.IsoDep Model.T3T Model.T4T Proofs.T3T.
Import ListNotations.
Open Scope Z_scope.
Ltac Zify.zify_post_hook ::= Z.to_euclidean_division_equations.

(* what a command may yield against any responder: a value with [P], or the error of a tag that is lost or misbehaves *)
Definition cmd_res {A} (P : A -> Prop) (r : res A) : Prop :=
  match r with Ok d => P d | Err (TagCommandError _) => True | _ => False end.
Lemma cmd_res_inv {A} (P : A -> Prop) r : cmd_res P r -> (exists d, r = Ok d /\ P d) \/ exists e, r = Err (TagCommandError e).
Proof. destruct r as [d|[]| |]; cbn; try contradiction; eauto. Qed.
Lemma cmd_res_bind {A B} (P : A -> Prop) (Q : B -> Prop) r k :
  cmd_res P r -> (forall d, P d -> cmd_res Q (k d)) -> cmd_res Q (bind r k).
Proof. intros H K. destruct (cmd_res_inv P r H) as [(d & -> & Hd) | (e & ->)]; [apply K, Hd | exact I]. Qed.

Lemma len_firstn_le {A} n (l : list A) : len (firstn n l) <= Z.of_nat n.
Proof. unfold len. rewrite firstn_length. lia. Qed.

(* the two functions of Model/T3T.v the reader is built from, as equations *)
Lemma read_attr_eq (S : Type) (dev : S -> list Z -> res (list Z) * S) s :
  read_attr S dev s = match dev s [0] with
                      | (Ok d, s1) => (Ok (attr_parse d), s1)
                      | (Err _, s1) => (Ok None, s1)
                      | (Crash c, s1) => (Crash c, s1)
                      | (Hang, s1) => (Hang, s1)
                      end.
Proof. unfold read_attr. destruct (dev s [0]) as [[d|e|c|] s1]; reflexivity. Qed.
Lemma rd_loop_eq (S : Type) (dev : S -> list Z -> res (list Z) * S) fuel s i last nbr acc :
  rd_loop S dev fuel s i last nbr acc =
  if i <? last then
    match fuel with
    | O => (Hang, s)
    | Datatypes.S f =>
      match dev s (zrange i (Z.min (i + nbr) last)) with
      | (Ok d, s1) => rd_loop S dev f s1 (i + nbr) last nbr (acc ++ d)
      | (Err _, s1) => (Ok None, s1)
      | (Crash c, s1) => (Crash c, s1)
      | (Hang, s1) => (Hang, s1)
      end
    end
  else (Ok (Some acc), s).
Proof. destruct fuel; cbn [rd_loop]; destruct (i <? last); try reflexivity;
  destruct (dev s (zrange i (Z.min (i + nbr) last))) as [[d|e|c|] s1]; reflexivity. Qed.

Lemma last2_two (l : list Z) : (2 <= length l)%nat -> exists a b, last2 l = [a; b].
Proof.
  intro H. unfold last2. remember (skipn (length l - 2) l) as t eqn:E.
  assert (L : length t = 2%nat) by (subst t; rewrite skipn_length; lia).
  destruct t as [|a [|b [|c t]]]; try discriminate. eauto.
Qed.
Lemma apdu_finish_ok d : bytes_ok d -> cmd_res bytes_ok (apdu_finish true (Ok d)).
Proof.
  intro Hb. unfold apdu_finish. cbn [bind]. destruct (len d <? 2) eqn:E; [exact I|].
  destruct (last2_two d) as (a & b & ->); [unfold len in E; lia|].
  destruct (Z.eq_dec a 144) as [->|Ha].
  - destruct (Z.eq_dec b 0) as [->|Hb0]; [exact (bytes_ok_firstn _ _ Hb)|].
    destruct b as [|p|p]; try congruence; exact I.
  - destruct a as [|p|p]; try exact I. repeat (destruct p as [p|p|]; try exact I). congruence.
Qed.

Lemma apdu_sel_aid v2 : exists a, apdu_of_op (SelAid v2) = Ok a.
Proof. destruct v2; cbn; eauto. Qed.
Lemma apdu_sel_fid p2 fid : len fid <= 255 -> exists a, apdu_of_op (SelFid p2 fid) = Ok a.
Proof.
  intro H. cbn [apdu_of_op]. unfold short_apdu. replace (len fid >? 255) with false by lia.
  rewrite andb_false_r. cbn. eauto.
Qed.
Lemma apdu_rd off m : 0 <= off <= 65535 -> m <= 256 -> exists a, apdu_of_op (RdBin off m) = Ok a.
Proof.
  intros Ho Hm. cbn [apdu_of_op]. replace ((off <? 0) || (off >? 65535)) with false by lia.
  unfold short_apdu. cbn [len length Z.of_nat Z.eqb negb andb]. replace (m >? 256) with false by lia.
  rewrite andb_false_r. eauto.
Qed.

Lemma be_nonneg l : bytes_ok l -> 0 <= be l.
Proof.
  unfold be. assert (G : forall l a, bytes_ok l -> 0 <= a -> 0 <= fold_left (fun a x => a * 256 + x) l a).
  { induction l0 as [|x l0 IH]; intros a Hb Ha; cbn; [exact Ha|]. inversion Hb; subst. apply IH; auto. unfold byte_ok in *. lia. }
  intro Hb. apply G; auto; lia.
Qed.

(* what discovery yields is usable: short Le, file identifier of two bytes, capacity inside the 16 bit offset range *)
Definition info_ok (i : ccinfo) : Prop :=
  i_mle i <= 256 /\ (i_nlen i = 2 \/ i_nlen i = 4) /\ i_nlen i + i_cap i <= 65536 /\ len (i_fid i) <= 2.
(* the record of either mapping version: Le clipped to 256, NLEN of n = 2 / 4 bytes, capacity the clipped file size
   less n, the first two bytes of the TLV value as file identifier *)
Lemma mkInfo_ok mle mlc mfs ro wo n v p2 : n = 2 \/ n = 4 ->
  info_ok (mkInfo (Z.min mle 256) mlc (Z.min mfs 65536 - n) ro wo n (firstn 2 v) p2).
Proof.
  intro Hn. unfold info_ok. cbn [i_mle i_nlen i_cap i_fid].
  split; [lia|]. split; [exact Hn|]. split; [lia | apply (len_firstn_le 2)].
Qed.
Lemma cc_parse_ok p2 cap i : cc_parse p2 cap = Some i -> info_ok i.
Proof.
  unfold cc_parse, cc_fields. cbv zeta. destruct (negb _); [discriminate|].
  destruct (_ && _).
  - intro E. injection E as <-. apply mkInfo_ok. left; reflexivity.
  - destruct (_ && _); [|discriminate]. intro E. injection E as <-. apply mkInfo_ok. right; reflexivity.
Qed.

