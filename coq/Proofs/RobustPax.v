(* C07: LogicalLinkController.activate consumes arbitrary general bytes: it returns a bool (and, when true, the
   negotiated parameters); never an exception.  Uses C11's decode_total for the parameter list. *)
From Coq Require Import ZArith List Bool Lia ZifyBool.
From NV Require Import Base.Result Base.Bytes Base.PyPrims Model.Pdu Proofs.PduTotal Model.Pax.
Import ListNotations.
Open Scope Z_scope.
Ltac Zify.zify_post_hook ::= Z.to_euclidean_division_equations.

Definition is_pax (p : pdu) : bool := match p with Pax _ _ _ _ _ _ _ => true | _ => false end.

Lemma pax_step_pax st t : is_pax st = true -> is_pax (pax_step st t) = true.
Proof. destruct st; cbn [is_pax pax_step]; try discriminate. intros _. destruct t; reflexivity. Qed.

Lemma tlv_loop_pax fuel : forall data off size st p, is_pax st = true ->
  tlv_loop fuel pax_step data off size st = Ok p -> is_pax p = true.
Proof.
  induction fuel as [|f IH]; intros data off size st p Hst; cbn [tlv_loop].
  - destruct (size <? 2); [intro H; inversion H; subst; assumption | discriminate].
  - destruct (size <? 2); [intro H; inversion H; subst; assumption |].
    destruct (param_decode data off size) as [[L t]| | |]; cbn [bind]; try discriminate.
    apply IH, pax_step_pax, Hst.
Qed.

Lemma decode_pax_header rest p :
  decode (0 :: 64 :: rest) 0 (len (0 :: 64 :: rest)) = Ok p -> is_pax p = true.
Proof.
  remember (0 :: 64 :: rest) as d eqn:Hd. assert (Hl : 2 <= len d) by (subst d; rewrite !len_cons; pose proof (len_nonneg rest); lia).
  unfold decode, decode_gen.
  replace (0 + len d >? len d) with false by lia. replace (len d <? 2) with false by lia.
  assert (R0 : rdc StructErr d 0 = Ok 0) by (subst d; reflexivity).
  assert (R1 : rdc StructErr d (0 + 1) = Ok 64) by (subst d; reflexivity).
  rewrite R0, R1. cbn [bind].
  change (Z.land (Z.shiftr (0 * 256 + 64) 6) 15) with 1. cbn [Z.eqb Pos.eqb].
  unfold dec_pax, decode_header. replace (len d <? 2) with false by lia.
  rewrite R0, R1. cbn [bind]. change (Z.shiftr 0 2) with 0. change (Z.land 64 63) with 0. cbn [Z.eqb negb orb].
  apply tlv_loop_pax. reflexivity.
Qed.

Lemma land3_range x : 0 <= Z.land x 3 < 4.
Proof. rewrite land3. apply Z.mod_pos_bound. reflexivity. Qed.
Lemma land1_range x : 0 <= Z.land x 1 < 2.
Proof.
  pose proof (Z.land_ones x 1 ltac:(lia)) as E. change (Z.ones 1) with 1 in E. change (2 ^ 1) with 2 in E.
  rewrite E. apply Z.mod_pos_bound. reflexivity.
Qed.

Lemma lsc_text_ok o : exists v, lsc_text o = Ok v.
Proof.
  unfold lsc_text, pax_lsc. destruct o as [x|]; [|eexists; reflexivity].
  pose proof (land3_range x) as H. assert (C : Z.land x 3 = 0 \/ Z.land x 3 = 1 \/ Z.land x 3 = 2 \/ Z.land x 3 = 3) by lia.
  destruct C as [-> | [-> | [-> | ->]]]; eexists; reflexivity.
Qed.
Lemma dpc_text_ok o : exists v, dpc_text o = Ok v.
Proof.
  unfold dpc_text, pax_dpc. destruct o as [x|]; [|eexists; reflexivity].
  pose proof (land1_range (Z.shiftr x 2)) as H. assert (C : Z.land (Z.shiftr x 2) 1 = 0 \/ Z.land (Z.shiftr x 2) 1 = 1) by lia.
  destruct C as [-> | ->]; eexists; reflexivity.
Qed.

Lemma use_pax_ok sec p : is_pax p = true -> exists cfg, use_pax sec p = Ok (true, Some cfg).
Proof.
  destruct p; cbn [is_pax]; try discriminate. intros _. cbn [use_pax].
  destruct (lsc_text_ok opt) as [a ->]. destruct (dpc_text_ok opt) as [b ->]. cbn [bind]. eexists. reflexivity.
Qed.

(* activation with arbitrary general bytes returns a bool: false (link not established) or true with the parameters *)
Theorem pax_total sec gb : (forall g, gb = Some g -> bytes_ok g) ->
  activate_gb sec gb = Ok (false, None) \/ exists cfg, activate_gb sec gb = Ok (true, Some cfg).
Proof.
  intro Hb. destruct gb as [g|]; [|left; reflexivity]. specialize (Hb g eq_refl). unfold activate_gb.
  destruct (negb (0 <? len g) || negb (has_magic g) || negb (6 <=? len g)); [left; reflexivity|].
  assert (Hok : bytes_ok (pax_bytes g)).
  { unfold pax_bytes. apply bytes_ok_app. split; [|apply bytes_ok_drop, Hb].
    repeat constructor; unfold byte_ok; lia. }
  destruct (decode_total (pax_bytes g) 0 (len (pax_bytes g)) ltac:(lia) Hok) as [[p Hp] | He].
  - rewrite Hp. right. apply use_pax_ok. unfold pax_bytes in Hp. cbn [app] in Hp. eapply decode_pax_header, Hp.
  - rewrite He. left. reflexivity.
Qed.

(* ... and the parameters have the ranges the rest of the stack relies on *)
Theorem pax_cfg_ranges sec gb cfg : activate_gb sec gb = Ok (true, Some cfg) ->
  0 <= send_lsc cfg < 4 /\ 0 <= llcp_dpc cfg < 2.
Proof.
  destruct gb as [g|]; cbn [activate_gb]; [|discriminate].
  destruct (negb (0 <? len g) || negb (has_magic g) || negb (6 <=? len g)); [discriminate|].
  destruct (decode (pax_bytes g) 0 (len (pax_bytes g))) as [p|e|c|]; try discriminate; [|destruct e; discriminate].
  destruct p; cbn [use_pax]; try discriminate.
  destruct (lsc_text opt); cbn [bind]; try discriminate. destruct (dpc_text opt); cbn [bind]; try discriminate.
  intro H. inversion H; subst. cbn [send_lsc llcp_dpc]. unfold pax_lsc, pax_dpc.
  destruct opt as [x|]; [|destruct sec; lia]. pose proof (land3_range x). pose proof (land1_range (Z.shiftr x 2)). destruct sec; lia.
Qed.

(* the code as it was: the truncated MIUX TLV of the check's corpus raises DecodeError out of activate() *)
Lemma orig_truncated_miux : activate_gb_orig false (Some [70; 102; 109; 1; 1; 19; 2; 2]) = Err DecodeError.
Proof. vm_compute. reflexivity. Qed.
Lemma fixed_truncated_miux : activate_gb false (Some [70; 102; 109; 1; 1; 19; 2; 2]) = Ok (false, None).
Proof. vm_compute. reflexivity. Qed.
