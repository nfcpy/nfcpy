(* C07: the SNEP / handover fragment handling never lets an exception escape the serving thread, whatever the
   fragments are and whatever ndeflib makes of the octets (records, DecodeError or ValueError). *)
From Coq Require Import ZArith List Bool Lia ZifyBool.
From NV Require Import Base.Result Base.Bytes Base.PyPrims Model.SnepHdr.
Import ListNotations.
Open Scope Z_scope.

Section Snep.
Variable nd : Z -> list Z -> ndef_out.

Lemma idx_ok (l : list Z) i : 0 <= i < len l -> exists v, idx l i = Ok v.
Proof. intro H. eexists. apply idx_nth, H. Qed.

Lemma process_ok d : 6 <= len d -> exists r, process_snep_request nd false d = Ok r /\ len r = 6.
Proof.
  intro H. unfold process_snep_request. destruct (idx_ok d 1 ltac:(lia)) as [r ->]. cbn [bind].
  destruct ((r =? 1) && (10 <=? len d)).
  - destruct (nd 0 (drop 10 d)); eexists; split; reflexivity.
  - destruct (r =? 2); [destruct (nd 0 (drop 6 d))|]; eexists; split; reflexivity.
Qed.

Definition snep_inv (st : snep_state) : Prop := match st with Idle => True | Collect data _ => 6 <= len data end.

(* every arrival in every reachable state: the thread sends responses - 6-byte SNEP headers - and goes on, or returns;
   no exception *)
Lemma snep_step_spec max_len st a : snep_inv st ->
  exists sends nx, snep_step nd false max_len st a = Ok (sends, nx) /\
                   match nx with Continue st' => snep_inv st' | Return => True end /\ Forall (fun m => len m = 6) sends.
Proof.
  intro Hi. destruct st as [|data need]; destruct a as [d| |]; cbn [snep_step].
  - destruct (len d =? 0); [do 2 eexists; split; [reflexivity | split; [exact I | constructor]]|].
    destruct (len d <? 6) eqn:E6; [do 2 eexists; split; [reflexivity | split; [exact I | constructor]]|].
    destruct (idx_ok d 0 ltac:(lia)) as [v ->]. cbn [bind].
    destruct (Z.shiftr v 4 >? 1); [do 2 eexists; split; [reflexivity | split; [exact I | repeat constructor]]|].
    destruct (be32 (slice d 2 6) >? max_len); [do 2 eexists; split; [reflexivity | split; [exact I | repeat constructor]]|].
    destruct (len d - 6 <? be32 (slice d 2 6)); [do 2 eexists; split; [reflexivity | split; [cbn; lia | repeat constructor]]|].
    destruct (process_ok d ltac:(lia)) as (r & -> & Hl). cbn [bind].
    do 2 eexists; split; [reflexivity | split; [exact I | repeat constructor; exact Hl]].
  - do 2 eexists; split; [reflexivity | split; [exact I | constructor]].
  - do 2 eexists; split; [reflexivity | split; [exact I | constructor]].
  - cbn [snep_inv] in Hi. pose proof (len_nonneg d).
    destruct (len (data ++ d) - 6 <? need); [do 2 eexists; split; [reflexivity | split; [cbn; rewrite len_app; lia | constructor]]|].
    destruct (process_ok (data ++ d) ltac:(rewrite len_app; lia)) as (r & -> & Hl). cbn [bind].
    do 2 eexists; split; [reflexivity | split; [exact I | repeat constructor; exact Hl]].
  - cbn [snep_inv] in Hi. destruct (process_ok data Hi) as (r & -> & _). cbn [bind].
    do 2 eexists; split; [reflexivity | split; [exact I | constructor]].
  - do 2 eexists; split; [reflexivity | split; [exact Hi | constructor]].
Qed.

Theorem snep_step_total max_len st a : snep_inv st ->
  exists sends nx, snep_step nd false max_len st a = Ok (sends, nx) /\
                   match nx with Continue st' => snep_inv st' | Return => True end.
Proof. intro Hi. destruct (snep_step_spec max_len st a Hi) as (sends & nx & E & H & _). eauto. Qed.

(* the whole life of a serving thread over any sequence of arrivals: it returns or waits for the peer *)
Theorem snep_serve_total max_len : forall script st, snep_inv st ->
  exists sends o, snep_serve nd false max_len st script = Ok (sends, o).
Proof.
  induction script as [|a r IH]; intros st Hi; cbn [snep_serve]; [do 2 eexists; reflexivity|].
  destruct (snep_step_total max_len st a Hi) as (s1 & nx & -> & Hn). cbn [bind].
  destruct nx as [st'|]; [|do 2 eexists; reflexivity].
  destruct (IH st' Hn) as (s2 & o & ->). cbn [bind]. do 2 eexists; reflexivity.
Qed.
Theorem snep_sends_headers max_len st a sends nx : snep_inv st ->
  snep_step nd false max_len st a = Ok (sends, nx) -> Forall (fun m => len m = 6) sends.
Proof. intros Hi H. destruct (snep_step_spec max_len st a Hi) as (s1 & n1 & E & _ & F). rewrite E in H. inversion H; subst. exact F. Qed.

Theorem snep_client_total acceptable st a : exists sends nx r, client_step acceptable st a = Ok (sends, nx, r).
Proof.
  destruct st; destruct a; cbn [client_step]; repeat match goal with |- context [if ?c then _ else _] => destruct c end;
    do 3 eexists; reflexivity.
Qed.

Variables (hs : list Z) (send_miu : Z) (reset : bool).

Theorem handover_step_total request a : exists sends nx, ho_step nd false hs send_miu reset request a = Ok (sends, nx).
Proof.
  destruct a; cbn [ho_step]; try (do 2 eexists; reflexivity).
  destruct (len (request ++ d) =? 0); [do 2 eexists; reflexivity|].
  destruct (nd 1 (request ++ d)); try (do 2 eexists; reflexivity).
  unfold ho_process. destruct (nd 2 (request ++ d)); cbn [bind]; do 2 eexists; reflexivity.
Qed.
Theorem handover_serve_total : forall script request, exists sends o, ho_serve nd false hs send_miu reset request script = Ok (sends, o).
Proof.
  induction script as [|a r IH]; intro request; cbn [ho_serve]; [do 2 eexists; reflexivity|].
  destruct (handover_step_total request a) as (s1 & nx & ->). cbn [bind].
  destruct nx as [q|]; [|do 2 eexists; reflexivity].
  destruct (IH q) as (s2 & o & ->). cbn [bind]. do 2 eexists; reflexivity.
Qed.
Theorem handover_client_total octets a : exists nx r, hc_step nd false octets a = Ok (nx, r).
Proof. destruct a; cbn [hc_step]; try (do 2 eexists; reflexivity). destruct (nd 1 (octets ++ d)); do 2 eexists; reflexivity. Qed.

End Snep.

(* the code as it was: a PUT whose NDEF record has a non-ASCII TYPE (check corpus: 10 02 00000004 d2 01 00 80) *)
Definition nd_value_error (_ : Z) (_ : list Z) : ndef_out := NdValueError.
Lemma orig_snep_put_bad_type :
  snep_serve nd_value_error true 1048576 Idle [Frag [16; 2; 0; 0; 0; 4; 210; 1; 0; 128]; Closed] = Crash ValueErr.
Proof. vm_compute. reflexivity. Qed.
Lemma orig_handover_bad_type : ho_serve nd_value_error true [209;2;1;72;115;18] 128 false [] [Frag [210; 1; 0; 128]; Closed] = Crash ValueErr.
Proof. vm_compute. reflexivity. Qed.
Lemma fixed_snep_put_bad_type :
  snep_serve nd_value_error false 1048576 Idle [Frag [16; 2; 0; 0; 0; 4; 210; 1; 0; 128]; Closed] = Ok ([[16; 194; 0; 0; 0; 0]], Ended).
Proof. vm_compute. reflexivity. Qed.
