(* C20: the two defects of FelicaLiteS found by the check, as witnesses on the model of the code as
   found (repaired = false), and the behaviour of the repaired code on the same inputs. *)
From Coq Require Import ZArith List Bool.
From NV Require Import Base.Result Base.Bytes Base.PyPrims Model.Des Model.FelicaMac Model.Ntag Model.AuthRun.
Import ListNotations.
Open Scope Z_scope.

Definition w_idm : list Z := [1; 2; 3; 4; 5; 6; 7; 8].
Definition w_key : list Z := [48; 49; 50; 51; 52; 53; 54; 55; 56; 57; 97; 98; 99; 100; 101; 102].  (* "0123456789abcdef" *)
Definition w_rc : list Z := [0; 1; 2; 3; 4; 5; 6; 7; 8; 9; 10; 11; 12; 13; 14; 15].

(* a mutual authentication with the right key in which one bit of the MAC of the STATE read
   (last response, byte 29: BDh -> BCh) was flipped in transit *)
Definition w_rsps : list xres :=
  [ XRsp [12; 9; 1; 2; 3; 4; 5; 6; 7; 8; 0; 0];
    XRsp [45; 7; 1; 2; 3; 4; 5; 6; 7; 8; 0; 0; 2; 0; 1; 2; 3; 4; 5; 6; 7; 8; 9; 10; 11; 12; 13; 14; 15; 126; 97; 200; 232; 108; 182; 80; 79; 0; 0; 0; 0; 0; 0; 0; 0];
    XRsp [29; 7; 1; 2; 3; 4; 5; 6; 7; 8; 0; 0; 1; 0; 254; 255; 0; 0; 0; 0; 0; 0; 0; 0; 0; 0; 0; 0; 0];
    XRsp [12; 9; 1; 2; 3; 4; 5; 6; 7; 8; 0; 0];
    XRsp [45; 7; 1; 2; 3; 4; 5; 6; 7; 8; 0; 0; 2; 1; 0; 0; 0; 0; 0; 0; 0; 0; 0; 0; 0; 0; 0; 0; 0; 188; 115; 235; 114; 148; 160; 2; 121; 0; 0; 0; 0; 0; 0; 0; 0] ].

Definition first_obs (r : list fobs * rstate * list (list Z)) : list fobs := fst (fst r).

(* one evaluation for both versions of the code: they differ only in what follows the failed MAC check *)
Lemma lites_authenticate_mac_mismatch rep :
  first_obs (felica_run true rep w_idm w_rsps [OpAuth w_key w_rc]) = [ObBool (if rep then Ok false else Crash TypeErr)].
Proof. vm_compute. destruct rep; reflexivity. Qed.
Lemma lites_authenticate_found_TypeError :
  first_obs (felica_run true false w_idm w_rsps [OpAuth w_key w_rc]) = [ObBool (Crash TypeErr)].
Proof. exact (lites_authenticate_mac_mismatch false). Qed.
Lemma lites_authenticate_repaired_False :
  first_obs (felica_run true true w_idm w_rsps [OpAuth w_key w_rc]) = [ObBool (Ok false)].
Proof. exact (lites_authenticate_mac_mismatch true). Qed.

(* protect(b"0123456789abcdef") on a blank Lite-S card: the memory configuration block is read, then
   the code as found calls .encode() on a bytes object *)
Definition w_mc_rsp : list xres :=
  [ XRsp [29; 7; 1; 2; 3; 4; 5; 6; 7; 8; 0; 0; 1; 255; 255; 255; 1; 7; 0; 0; 0; 0; 0; 0; 0; 0; 0; 0; 0] ].
Lemma lites_protect_found_AttributeError :
  first_obs (felica_run true false w_idm w_mc_rsp [OpProtect (Some w_key) false 1 w_rc]) = [ObProt (Crash AttributeErr)].
Proof. vm_compute. reflexivity. Qed.
