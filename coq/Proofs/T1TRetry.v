(* Type 1: the memory reader's state across several assignments on one tag object (see Proofs/T2TRetry.v).
   With three length bytes the length field must lie in one write unit (the guard of the open finding of C02). *)
From Coq Require Import ZArith List Bool Lia ZifyBool.
From NV Require Import Base.Result Base.Bytes Model.TlvMem Model.T1T Proofs.TlvLib Proofs.TlvSync Proofs.TlvRetry
  Proofs.TlvPhases Proofs.TlvRetryInst Proofs.T1T.
Import ListNotations.
Open Scope Z_scope.
Ltac Zify.zify_post_hook ::= Z.to_euclidean_division_equations.

Definition t1_guard (hr0 : Z) (L : layout) (d : list Z) : Prop := len d < 255 \/ one_unit (t1_unit hr0) (l_off L).
Definition t1_reader_ok (hr0 : Z) (m d : list Z) (st : list Z * list Z * list Z) : Prop :=
  let '(m1, F, c) := st in
  exists L ku c1 c2 cF, wfL1 hr0 m L /\ len d <= l_cap L /\ t1_guard hr0 L d /\ length m = (ku * t1_unit hr0)%nat /\
    clean m L (t1_reader hr0) d c1 c2 cF /\
    INV (t1_unit hr0) ku (zN L) m cF (Sall m L cF) m1 F c /\ F = m1 /\ c = m1.
Definition t1_safe_class (hr0 : Z) (m d m' : list Z) : Prop :=
  t1_fresh hr0 m' = t1_fresh hr0 m \/ t1_fresh hr0 m' = Msg [] \/ t1_fresh hr0 m' = Msg d.

Section R1.
Variables (hr0 : Z) (m : list Z) (L : layout) (d : list Z) (ku : nat).
Hypothesis WF : wfL1 hr0 m L.
Hypothesis Hcap : len d <= l_cap L.
Hypothesis Hg : t1_guard hr0 L d.
Hypothesis Hku : length m = (ku * t1_unit hr0)%nat.
Notation u := (t1_unit hr0).

Ltac unpack := let H := fresh in pose proof WF as H; unfold wfL1 in H;
  destruct H as (?Hr & ?Hsz & ?Hrd & ?Hwr & ?Hde & ?Hhw & ?Ho12 & ?Ho1 & ?S0 & ?S1 & ?S23).

Notation GH lemma := (at_layout lemma (wfL1_gen hr0 m L WF ku Hku)).

Lemma h_clean : exists c1 c2 cF, clean m L (t1_reader hr0) d c1 c2 cF.
Proof. exact (GH clean_final d Hcap). Qed.

Variables c1 c2 cF : list Z.
Hypothesis HCF : clean m L (t1_reader hr0) d c1 c2 cF.
Notation INVx := (INV u ku (zN L) m cF (Sall m L cF)).
Notation SAFEx := (SAFE u ku (zN L) m cF (Sall m L cF)).
Notation GF lemma := (GH lemma d c1 c2 cF (len m) Hcap HCF (wfL1_bound hr0 m L WF ku Hku)).

Lemma h_att : ATT m L u ku cF (len m) (t1_phases L d).
Proof.
  unfold t1_phases. destruct (Z.ltb_spec (len d) 255) as [Hd|Hd].
  - apply (GF att_short Hd).
  - destruct Hg as [Hs|H1]; [lia|]. apply (GF att_unrepaired Hd H1).
Qed.

Lemma h_init : INVx m m m. Proof. exact (GF INV_init_x). Qed.
Lemma h_inv T : SAFEx T <-> INVx T T T.
Proof. split; [exact (GF SAFE_INV_x T) | exact (GF INV_safe_x T T T)]. Qed.

Lemma h_reads T : SAFEx T -> exists v, t1_reader hr0 T = Ok (Some (set_val L v)) /\ t1_safe_class hr0 m d T.
Proof.
  intros HS. unfold t1_safe_class, t1_fresh. unpack.
  destruct (GF SAFE_read T HS) as [->|[H|H]].
  - exists (l_val L). split; [rewrite set_val_same; exact Hr | left; reflexivity].
  - exists []. split; [exact H|]. right; left. rewrite H. cbn [classify set_val l_rd l_val]. rewrite Hrd. reflexivity.
  - exists d. split; [exact H|]. right; right. rewrite H. cbn [classify set_val l_rd l_val]. rewrite Hrd. reflexivity.
Qed.

Lemma h_attempt m1 kf f : SAFEx m1 ->
  let '(r, (m2, F2, c2'), ex) := t1_attempt hr0 m1 L m1 m1 d kf f in
  m2 = apply_ws m1 ex /\ SAFEx m2 /\
  (forall i, t1_safe_class hr0 m d (apply_ws m1 (firstn i ex))) /\
  (r = Ok tt -> t1_fresh hr0 m2 = Msg d /\ t1_capacity hr0 m2 = Some (l_cap L)) /\ (kf = None -> r = Ok tt) /\ F2 = m2 /\ c2' = m2.
Proof.
  intros HS. unfold t1_attempt. unpack. rewrite Hwr. cbn [negb]. replace (l_cap L <? len d) with false by lia.
  assert (Hl : len m1 = len m) by (destruct HS as [[E _] _]; unfold lenok in E; unfold len; congruence).
  rewrite Hl. pose proof (h_att (fun x => x) m1 m1 kf f HS (fun _ _ => eq_refl)) as A.
  destruct (run_attempt u (len m) (fun x => x) m1 m1 m1 (t1_phases L d) kf f) as [[r [[T2 F2] c2']] ex].
  destruct A as (A1 & A2 & A3 & _ & A5 & A6 & A7).
  split; [exact A1|]. split; [rewrite A1, <- (firstn_all ex); apply A5|]. split; [intro i; destruct (h_reads _ (A5 i)) as (_ & _ & H); exact H|].
  split; [|split; [exact A7 | auto]].
  intro Hrok. unfold t1_fresh, t1_capacity. rewrite (A6 Hrok).
  rewrite (clean_read _ _ _ _ _ _ _ HCF). cbn [classify set_val l_rd l_val l_cap]. rewrite Hrd. auto.
Qed.
Lemma h_wf m1 : SAFEx m1 -> exists v, wfL1 hr0 m1 (set_val L v).
Proof.
  intros HS. assert (Hl : length m1 = length m) by (destruct HS as [[E _] _]; unfold lenok in E; congruence).
  destruct (h_reads m1 HS) as (v & Ev & _). exists v. unpack. unfold wfL1. cbn [set_val l_rd l_wr l_dend l_hw l_off l_skip l_cap].
  unfold len in *. rewrite Hl. split; [exact Ev|]. repeat split; try assumption; try lia; apply S23; assumption.
Qed.
End R1.

Lemma wfL1_unique hr0 m L L' : wfL1 hr0 m L -> wfL1 hr0 m L' -> L = L'.
Proof. intros (H & _) (H' & _). congruence. Qed.

Lemma t1_reader_ok_init hr0 m d cap L : t1_wf_layout hr0 m -> t1_capacity hr0 m = Some cap -> len d <= cap ->
  t1_layout hr0 m = Some L -> t1_guard hr0 L d -> t1_reader_ok hr0 m d (m, m, m).
Proof.
  intros Hwf Hc Hd HLay Hg. destruct (t1_wf_layout_wfL hr0 m Hwf) as (L' & HL). pose proof (wfL1_layout _ _ _ _ HL HLay). subst L'.
  pose proof (wfL1_capacity hr0 m L cap HL Hc) as E. destruct (w_unit hr0 m L HL) as (_ & ku & Hku).
  destruct (h_clean hr0 m L d ku HL ltac:(lia) Hku) as (c1 & c2 & cF & HCF). exists L, ku, c1, c2, cF.
  split; [exact HL|]. split; [lia|]. split; [exact Hg|]. split; [exact Hku|]. split; [exact HCF|]. split; [|auto].
  eapply h_init; try eassumption; lia.
Qed.

Theorem t1_attempt_reader_ok hr0 m d L m1 F c kf f : wfL1 hr0 m L -> t1_reader_ok hr0 m d (m1, F, c) ->
  let '(r, st', ex) := t1_attempt hr0 m1 L F c d kf f in
  t1_reader_ok hr0 m d st' /\ fst (fst st') = apply_ws m1 ex /\
  (forall i, t1_safe_class hr0 m d (apply_ws m1 (firstn i ex))) /\
  (r = Ok tt -> t1_fresh hr0 (fst (fst st')) = Msg d /\ t1_capacity hr0 (fst (fst st')) = Some (l_cap L)) /\ (kf = None -> r = Ok tt).
Proof.
  intros HL (L' & ku & c1 & c2 & cF & HL' & Hcap & Hg & Hku & HCF & HI & -> & ->). pose proof (wfL1_unique hr0 m L' L HL' HL). subst L'.
  pose proof (h_inv hr0 m L d ku HL Hcap Hku c1 c2 cF HCF) as Hinv.
  pose proof (h_attempt hr0 m L d ku HL Hcap Hg Hku c1 c2 cF HCF m1 kf f (proj2 (Hinv m1) HI)) as A.
  destruct (t1_attempt hr0 m1 L m1 m1 d kf f) as [[r [[m2 F2] c2']] ex]. destruct A as (A1 & A3 & A4 & A5 & A6 & -> & ->).
  split; [exists L, ku, c1, c2, cF; apply Hinv in A3; auto 12|]. cbn [fst snd]. auto.
Qed.

Lemma t1_attempts_ok hr0 m d L : wfL1 hr0 m L -> forall faults st, t1_reader_ok hr0 m d st -> t1_reader_ok hr0 m d (t1_attempts hr0 L d faults st).
Proof.
  intros HL. induction faults as [|[k f] r IH]; intros [[m1 F] c] Hok; [exact Hok|]. cbn [t1_attempts].
  pose proof (t1_attempt_reader_ok hr0 m d L m1 F c (Some k) f HL Hok) as A.
  destruct (t1_attempt hr0 m1 L F c d (Some k) f) as [[r0 st'] ex]. cbn [fst snd]. apply IH, A.
Qed.

Lemma t1_after_ok hr0 m d cap L faults : t1_wf_layout hr0 m -> t1_capacity hr0 m = Some cap -> len d <= cap ->
  t1_layout hr0 m = Some L -> t1_guard hr0 L d ->
  exists m1 F c, wfL1 hr0 m L /\ l_cap L = cap /\ t1_after hr0 m d faults = Some (L, (m1, F, c)) /\ t1_reader_ok hr0 m d (m1, F, c).
Proof.
  intros Hwf Hc Hd HLay Hg. destruct (t1_wf_layout_wfL hr0 m Hwf) as (L' & HL). pose proof (wfL1_layout _ _ _ _ HL HLay). subst L'.
  pose proof (wfL1_capacity hr0 m L cap HL Hc) as E.
  pose proof (t1_attempts_ok hr0 m d L HL faults (m, m, m) (t1_reader_ok_init hr0 m d cap L Hwf Hc Hd HLay Hg)) as Hok.
  destruct (t1_attempts hr0 L d faults (m, m, m)) as [[m1 F] c] eqn:Ea.
  exists m1, F, c. split; [exact HL|]. split; [exact E|]. split; [|exact Hok].
  unfold t1_after. rewrite (wfL1_reader _ _ _ HL), Ea. reflexivity.
Qed.

Theorem t1_retry_write_read hr0 m d cap L faults : t1_wf_layout hr0 m -> bytes_ok d -> t1_capacity hr0 m = Some cap -> len d <= cap ->
  t1_layout hr0 m = Some L -> t1_guard hr0 L d ->
  exists r m1 ws, t1_retry hr0 m d faults = Some (r, m1, ws) /\ r = Ok tt /\
    t1_fresh hr0 (apply_ws m1 ws) = Msg d /\ t1_capacity hr0 (apply_ws m1 ws) = Some cap.
Proof.
  intros Hwf _ Hc Hd HLay Hg. destruct (t1_after_ok hr0 m d cap L faults Hwf Hc Hd HLay Hg) as (m1 & F & c & HL & E & Ha & Hok).
  pose proof (t1_attempt_reader_ok hr0 m d L m1 F c None Lost HL Hok) as A.
  unfold t1_retry. rewrite Ha. destruct (t1_attempt hr0 m1 L F c d None Lost) as [[r st'] ex]. cbn [fst snd].
  destruct A as (_ & A2 & _ & A4 & A5). exists r, m1, ex. split; [reflexivity|]. split; [apply A5; reflexivity|].
  rewrite <- A2, <- E. apply A4, A5. reflexivity.
Qed.

Theorem t1_retry_cut_safe hr0 m d cap L faults kf f : t1_wf_layout hr0 m -> t1_capacity hr0 m = Some cap -> len d <= cap ->
  t1_layout hr0 m = Some L -> t1_guard hr0 L d ->
  exists m1 F c, t1_after hr0 m d faults = Some (L, (m1, F, c)) /\ t1_safe_class hr0 m d m1 /\
    forall k2, t1_safe_class hr0 m d (apply_ws m1 (firstn k2 (snd (t1_attempt hr0 m1 L F c d kf f)))).
Proof.
  intros Hwf Hc Hd HLay Hg. destruct (t1_after_ok hr0 m d cap L faults Hwf Hc Hd HLay Hg) as (m1 & F & c & HL & E & Ha & Hok).
  pose proof (t1_attempt_reader_ok hr0 m d L m1 F c kf f HL Hok) as A.
  exists m1, F, c. split; [exact Ha|]. destruct (t1_attempt hr0 m1 L F c d kf f) as [[r st'] ex]. cbn [fst snd].
  destruct A as (_ & _ & A3 & _). split; [exact (A3 O) | exact A3].
Qed.

Lemma t1_attempt_set_val hr0 m1 L v F c d k f : t1_attempt hr0 m1 (set_val L v) F c d k f = t1_attempt hr0 m1 L F c d k f.
Proof. reflexivity. Qed.
Lemma t1_reader_ok_wf hr0 m d m1 F c L : wfL1 hr0 m L -> t1_reader_ok hr0 m d (m1, F, c) ->
  t1_safe_class hr0 m d m1 /\ exists v, wfL1 hr0 m1 (set_val L v) /\ F = m1 /\ c = m1.
Proof.
  intros HL (L' & ku & c1 & c2 & cF & HL' & Hcap & Hg & Hku & HCF & HI & -> & ->). pose proof (wfL1_unique hr0 m L' L HL' HL). subst L'.
  apply (h_inv hr0 m L d ku HL Hcap Hku c1 c2 cF HCF) in HI.
  split; [destruct (h_reads hr0 m L d ku HL Hcap Hku c1 c2 cF HCF m1 HI) as (_ & _ & H); exact H|].
  destruct (h_wf hr0 m L d ku HL Hcap Hku c1 c2 cF HCF m1 HI) as [v Hv]. exists v. auto.
Qed.
Lemma wfL1_wf hr0 m L : wfL1 hr0 m L -> t1_wf_layout hr0 m /\ t1_capacity hr0 m = Some (l_cap L) /\ t1_layout hr0 m = Some L.
Proof.
  intros (Hr & Hsz & HT).
  split; [|split; [unfold t1_capacity; rewrite Hr; reflexivity | unfold t1_layout; rewrite Hr; reflexivity]].
  unfold t1_wf_layout, t1_wf_layoutb. rewrite Hr. apply andb_true_iff. split; [lia | apply wf_tail_iff, HT].
Qed.

Theorem t1_rewrite_safe hr0 m d1 cap L faults d2 kf f : t1_wf_layout hr0 m -> t1_capacity hr0 m = Some cap -> len d1 <= cap -> len d2 <= cap ->
  t1_layout hr0 m = Some L -> t1_guard hr0 L d1 -> t1_guard hr0 L d2 ->
  exists m1 F c, t1_after hr0 m d1 faults = Some (L, (m1, F, c)) /\ t1_safe_class hr0 m d1 m1 /\
    let '(r, st', ex) := t1_attempt hr0 m1 L F c d2 kf f in
    (forall k2, t1_safe_class hr0 m1 d2 (apply_ws m1 (firstn k2 ex))) /\
    (kf = None -> r = Ok tt /\ t1_fresh hr0 (apply_ws m1 ex) = Msg d2 /\ t1_capacity hr0 (apply_ws m1 ex) = Some cap).
Proof.
  intros Hwf Hc Hd1 Hd2 HLay Hg1 Hg2. destruct (t1_after_ok hr0 m d1 cap L faults Hwf Hc Hd1 HLay Hg1) as (m1 & F & c & HL & E & Ha & Hok).
  exists m1, F, c. split; [exact Ha|].
  destruct (t1_reader_ok_wf hr0 m d1 m1 F c L HL Hok) as (Hs & v & HL1 & -> & ->). split; [exact Hs|].
  destruct (wfL1_wf hr0 m1 (set_val L v) HL1) as (Hwf1 & Hc1 & HLay1). cbn [set_val l_cap] in Hc1.
  pose proof (t1_reader_ok_init hr0 m1 d2 (l_cap L) (set_val L v) Hwf1 Hc1 ltac:(lia) HLay1 Hg2) as Hok2.
  pose proof (t1_attempt_reader_ok hr0 m1 d2 (set_val L v) m1 m1 m1 kf f HL1 Hok2) as A.
  rewrite t1_attempt_set_val in A. destruct (t1_attempt hr0 m1 L m1 m1 d2 kf f) as [[r st'] ex].
  destruct A as (_ & A2 & A3 & A4 & A5). split; [exact A3|]. intro Hk. specialize (A5 Hk). split; [exact A5|].
  rewrite <- A2, <- E. apply A4, A5.
Qed.
