(* The library's own Type 3 Tag emulation (Type3TagEmulation.process_command serving an application
   memory array) is a device in the sense of Proofs/T3T.v section Dev: the frames the reader builds
   (rd_frame / wr_frame) are parsed back by process_command to the same block lists, the response
   frames pass send_cmd_recv_rsp's checks.  Hence the C01-C03 theorems hold for a Type3Tag reader
   talking to the emulation. *)
From Coq Require Import ZArith List Bool Lia ZifyBool.
From NV Require Import Base.Result Base.Bytes Base.PyPrims Proofs.Chunks Model.T3T Proofs.T3T.
Import ListNotations.
Open Scope Z_scope.
Ltac Zify.zify_post_hook ::= Z.to_euclidean_division_equations.

Lemma Ok_inj {A} (a b : A) : @Ok A a = Ok b -> a = b.
Proof. intro H. now injection H. Qed.

Lemma blk_elems_cons b r es : blk_elems (b :: r) = Ok es ->
  exists e er, blk_elem b = Ok e /\ blk_elems r = Ok er /\ es = e ++ er.
Proof.
  cbn [blk_elems]. destruct (blk_elem b) as [e| | |]; cbn [bind]; try discriminate.
  destruct (blk_elems r) as [er| | |]; cbn [bind]; try discriminate. intro H. inversion H. eauto.
Qed.

Lemma t3_frame_shape code body f : t3_frame code e_idm body = Ok f -> f = (10 + len body) :: code :: e_idm ++ body.
Proof. unfold t3_frame. change (2 + len e_idm) with 10. destruct (_ >? 255); [discriminate|]. intro H. now apply Ok_inj in H. Qed.
Lemma rd_frame_shape bl f : rd_frame e_idm bl = Ok f ->
  exists es, blk_elems bl = Ok es /\ f = (14 + len es) :: 6 :: e_idm ++ [1; 11; 0; len bl] ++ es.
Proof.
  unfold rd_frame. destruct (blk_elems bl) as [es| | |]; cbn [bind]; try discriminate.
  destruct (len bl >? 255); [discriminate|]. intros ->%t3_frame_shape. exists es. split; [reflexivity|].
  rewrite len_app. change (len [1; 11; 0; len bl]) with 4. f_equal. lia.
Qed.
Lemma wr_frame_shape bl d f : wr_frame e_idm bl d = Ok f ->
  exists es, blk_elems bl = Ok es /\ f = (14 + len es + len d) :: 8 :: e_idm ++ [1; 9; 0; len bl] ++ es ++ d.
Proof.
  unfold wr_frame. destruct (blk_elems bl) as [es| | |]; cbn [bind]; try discriminate.
  destruct (len bl >? 255); [discriminate|]. intros ->%t3_frame_shape. exists es. split; [reflexivity|].
  rewrite !len_app. change (len [1; 9; 0; len bl]) with 4. f_equal. lia.
Qed.

Lemma hd_not_polling n c : c = 6 \/ c = 8 ->
  list_eqb [n; c; 3; 254] [6; 0; 255; 255] || list_eqb [n; c; 3; 254] ([6; 0] ++ e_sys) = false.
Proof. intros [-> | ->]; cbn [list_eqb app e_sys]; destruct (n =? 6); reflexivity. Qed.

Lemma emu_process_cmd mem n c body : c = 6 \/ c = 8 -> n = 10 + len body ->
  emu_process mem (n :: c :: e_idm ++ body) =
  if c =? 6 then (emu_wrap 7 (emu_read mem body), mem)
  else let (r, mem1) := emu_write mem body in (emu_wrap 9 r, mem1).
Proof.
  intros Hc Hn. unfold emu_process.
  change (idx (n :: c :: e_idm ++ body) 0) with (Ok n).
  assert (Hl : len (n :: c :: e_idm ++ body) = n).
  { rewrite !len_cons, len_app. change (len e_idm) with 8. lia. }
  rewrite Hl. replace (negb (n =? n)) with false by lia.
  change (take 4 (n :: c :: e_idm ++ body)) with [n; c; 3; 254]. rewrite (hd_not_polling n c Hc).
  change (slice (n :: c :: e_idm ++ body) 2 10) with e_idm. replace (list_eqb e_idm e_idm) with true by reflexivity.
  change (bt (n :: c :: e_idm ++ body) 1) with c. change (drop 10 (n :: c :: e_idm ++ body)) with body.
  destruct Hc as [-> | ->]; reflexivity.
Qed.

Lemma parse_blks_ok sc : forall bl es, blk_elems bl = Ok es -> forall i acc rest,
  parse_blks (length bl) i [sc] (es ++ rest) acc = Ok (inl (rev acc ++ map (fun b => (sc, b)) bl, rest)).
Proof.
  induction bl as [|b r IH]; intros es Hes i acc rest.
  - cbn in Hes. apply Ok_inj in Hes. subst es. cbn. now rewrite app_nil_r.
  - destruct (blk_elems_cons b r es Hes) as (e & er & He & Her & ->).
    unfold blk_elem in He. destruct (b <? 0) eqn:E0; [discriminate|].
    destruct (b <? 256) eqn:E1.
    + apply Ok_inj in He. subst e. cbn [length app]. cbn [parse_blks].
      change (nth_error [sc] (Z.to_nat (Z.land 128 15))) with (Some sc). change (128 >=? 128) with true. cbv iota.
      change (idx (128 :: b :: er ++ rest) 1) with (Ok b). cbn [bind].
      change (drop 2 (128 :: b :: er ++ rest)) with (er ++ rest).
      rewrite (IH er Her). cbn [rev map]. now rewrite <- app_assoc.
    + destruct (b <? 65536) eqn:E2; [|discriminate]. apply Ok_inj in He. subst e. cbn [length app]. cbn [parse_blks].
      change (nth_error [sc] (Z.to_nat (Z.land 0 15))) with (Some sc). change (0 >=? 128) with false. cbv iota.
      change (idx (0 :: b mod 256 :: b / 256 :: er ++ rest) 2) with (Ok (b / 256)).
      change (idx (0 :: b mod 256 :: b / 256 :: er ++ rest) 1) with (Ok (b mod 256)). cbn [bind].
      change (drop 3 (0 :: b mod 256 :: b / 256 :: er ++ rest)) with (er ++ rest).
      rewrite (IH er Her). cbn [rev map]. rewrite <- app_assoc. cbn [app].
      replace (b / 256 * 256 + b mod 256) with b by lia. reflexivity.
Qed.

Lemma emu_read_head mem nb es : emu_read mem ([1; 11; 0; nb] ++ es) =
  if nb >? 15 then Ok [255; 162] else
  do pb <- parse_blks (Z.to_nat nb) 0 [11] es [];
  match pb with inr i => Ok [pow2 i; 163] | inl (bl, _) => Ok (emu_rd_blocks mem 0 bl []) end.
Proof. reflexivity. Qed.
Lemma emu_write_head mem nb rest : emu_write mem ([1; 9; 0; nb] ++ rest) =
  match (do pb <- parse_blks (Z.to_nat nb) 0 [9] rest [];
         match pb with
         | inr i => Ok (inl [pow2 i; 163])
         | inl (bl, rest') => if negb (len rest' mod 16 =? 0) then Ok (inl [255; 162]) else Ok (inr (bl, rest'))
         end) with
  | Ok (inl st) => (Ok st, mem)
  | Ok (inr (bl, rest')) => emu_wr_blocks mem 0 bl rest'
  | Err e => (Err e, mem) | Crash c => (Crash c, mem) | Hang => (Hang, mem)
  end.
Proof. reflexivity. Qed.

Lemma emu_rd_blocks_ok mem sc : forall bl i acc, Forall (fun b => 0 <= b < 65536 /\ 16 * (b + 1) <= len mem) bl ->
  emu_rd_blocks mem i (map (fun b => (sc, b)) bl) acc =
  [0; 0; len (acc ++ flat_map (blk_get mem) bl) / 16] ++ acc ++ flat_map (blk_get mem) bl.
Proof.
  induction bl as [|b r IH]; intros i acc Hb.
  - cbn. now rewrite app_nil_r.
  - inversion Hb as [|? ? [H0 H1] Hr]; subst. cbn [map emu_rd_blocks flat_map]. unfold app_read.
    replace (16 * b <? len mem) with true by lia. fold (blk_get mem b).
    rewrite IH by exact Hr. now rewrite <- !app_assoc.
Qed.
Lemma flat_blk_len mem : forall bl, Forall (fun b => 0 <= b < 65536 /\ 16 * (b + 1) <= len mem) bl ->
  len (flat_map (blk_get mem) bl) = 16 * len bl.
Proof.
  induction bl as [|b r IH]; intro Hb; [reflexivity|]. inversion Hb as [|? ? [H0 H1] Hr]; subst.
  cbn [flat_map]. rewrite len_app, len_cons, IH by exact Hr. unfold blk_get. rewrite len_slice by lia. lia.
Qed.

Lemma emu_wr_blocks_ok (mem0 : list Z) : forall (bl mem : list Z) i (data : list Z), len mem = len mem0 ->
  Forall (fun b => 0 <= b < 65536 /\ 16 * (b + 1) <= len mem0) bl -> 0 <= i -> 16 * (i + len bl) <= len data ->
  emu_wr_blocks mem i (map (fun b => (9, b)) bl) data = (Ok [0; 0], blks_put mem bl (drop (16 * i) data)).
Proof.
  induction bl as [|b r IH]; intros mem i data Hl Hb Hi Hd; [reflexivity|].
  inversion Hb as [|? ? [H0 H1] Hr]; subst. rewrite len_cons in Hd. pose proof (len_nonneg r).
  cbn [map emu_wr_blocks blks_put]. change (9 =? 9) with true. cbv iota. unfold app_write.
  replace (16 * b <? len mem) with true by lia.
  assert (Hs : slice data (16 * i) (16 * i + 16) = take 16 (drop (16 * i) data)).
  { rewrite slice_take_drop by lia. f_equal. lia. }
  rewrite Hs.
  assert (Ht : len (take 16 (drop (16 * i) data)) = 16) by (apply len_take; rewrite len_drop; lia).
  assert (Hsp : take (16 * b) mem ++ take 16 (drop (16 * i) data) ++ drop (16 * b + 16) mem =
                splice mem (16 * b) (take 16 (drop (16 * i) data))) by (unfold splice; now rewrite Ht).
  rewrite Hsp. rewrite IH; [| rewrite len_splice; lia | exact Hr | lia | lia].
  f_equal. f_equal. rewrite drop_drop by lia. f_equal. lia.
Qed.

(* a frame with the right length byte, response code, IDm and status 00 00 passes send_cmd_recv_rsp *)
Lemma t3_rsp_ok code data : t3_rsp code e_idm ((12 + len data) :: (code + 1) :: e_idm ++ 0 :: 0 :: data) = Ok data.
Proof.
  unfold t3_rsp. pose proof (len_nonneg data).
  assert (Hl : len ((12 + len data) :: (code + 1) :: e_idm ++ 0 :: 0 :: data) = 12 + len data)
    by (cbn [e_idm app]; rewrite !len_cons; lia).
  rewrite Hl. cbn [e_idm app bt nth]. replace ((12 + len data <? 2) || negb (12 + len data =? 12 + len data)) with false by lia.
  replace (negb (code + 1 =? code + 1)) with false by lia. replace (12 + len data <? 12) with false by lia. reflexivity.
Qed.

Definition em_inv (s : emu) : Prop := True.
Definition em_fresh_of (m : list Z) : emu := mkEmu m (-1) [].

Lemma emu_eta s : mkEmu (e_mem s) (e_budget s) (e_log s) = s.
Proof. destruct s; reflexivity. Qed.

Lemma e_read_ok s bl : em_inv s -> e_budget s <> 0 -> rd_ok (len (e_mem s)) 15 bl ->
  e_read s bl = (Ok (flat_map (blk_get (e_mem s)) bl), s).
Proof.
  intros _ Hb (Hn & _ & Hf). unfold e_read.
  destruct (rd_frame_ok e_idm bl) as (f & Hfr); [reflexivity | eapply Forall_impl; [|exact Hf]; cbn; intros; lia | lia |].
  rewrite Hfr. destruct (rd_frame_shape bl f Hfr) as (es & Hes & ->).
  pose proof (flat_blk_len (e_mem s) bl Hf) as HD.
  (* the emulation's answer *)
  assert (Hp : emu_process (e_mem s) ((14 + len es) :: 6 :: e_idm ++ [1; 11; 0; len bl] ++ es) =
               (Ok (Some ((13 + 16 * len bl) :: 7 :: e_idm ++ [0; 0; len bl] ++ flat_map (blk_get (e_mem s)) bl)), e_mem s)).
  { rewrite emu_process_cmd; [| left; reflexivity | rewrite len_app; change (len [1; 11; 0; len bl]) with 4; lia].
    change (6 =? 6) with true. cbv iota. rewrite emu_read_head. replace (len bl >? 15) with false by lia.
    unfold len at 1. rewrite Nat2Z.id. rewrite <- (app_nil_r es). rewrite (parse_blks_ok 11 bl es Hes 0 [] []).
    cbn [bind rev app]. rewrite emu_rd_blocks_ok by exact Hf. cbn [app]. rewrite HD. replace (16 * len bl / 16) with (len bl) by lia.
    unfold emu_wrap. cbn [bind]. rewrite !len_cons, HD.
    replace (10 + (1 + (1 + (1 + 16 * len bl))) >? 255) with false by lia.
    do 4 f_equal. lia. }
  unfold emu_xchg3, emu_xchg. replace (e_budget s =? 0) with false by lia. rewrite Hp.
  change (bt ((14 + len es) :: 6 :: e_idm ++ [1; 11; 0; len bl] ++ es) 1) with 6. change (6 =? 8) with false. cbn [andb].
  rewrite emu_eta.
  (* send_cmd_recv_rsp and read_without_encryption accept it *)
  replace (13 + 16 * len bl) with (12 + len (len bl :: flat_map (blk_get (e_mem s)) bl)) by (rewrite len_cons; lia).
  rewrite (t3_rsp_ok 6). cbn [bind]. rewrite len_cons, HD.
  replace (negb (1 + 16 * len bl =? 1 + 16 * len bl)) with false by lia. reflexivity.
Qed.

Lemma e_dead_xchg1 s cmd : e_budget s = 0 -> emu_xchg s cmd = (None, s).
Proof. intro Hb. unfold emu_xchg. rewrite Hb. reflexivity. Qed.
Lemma e_dead_xchg s cmd : e_budget s = 0 -> emu_xchg3 s cmd = (None, s).
Proof. intro Hb. unfold emu_xchg3. rewrite !e_dead_xchg1 by exact Hb. reflexivity. Qed.

Lemma e_read_dead s : em_inv s -> e_budget s = 0 -> e_read s [0] = (Err (TagCommandError 0), s).
Proof.
  intros _ Hb. unfold e_read.
  destruct (rd_frame_ok e_idm [0]) as (f & ->); [reflexivity | constructor; [lia | constructor] | cbn; lia |].
  now rewrite e_dead_xchg.
Qed.

Lemma e_write_ok s c : em_inv s -> e_budget s <> 0 -> cmd_ok (len (e_mem s)) 13 c ->
  exists s', e_write s (fst c) (snd c) = (Ok tt, s') /\ em_inv s' /\ e_mem s' = apply_cmd (e_mem s) c /\
             e_budget s' = (if e_budget s <? 0 then e_budget s else e_budget s - 1).
Proof.
  destruct c as [bl d]. intros _ Hb (Hfr & Hn & Hf & Hd). cbn [fst snd] in *. unfold e_write.
  destruct (Hfr e_idm eq_refl) as (f & Hf0). rewrite Hf0.
  destruct (wr_frame_shape bl d f Hf0) as (es & Hes & ->).
  assert (Hp : emu_process (e_mem s) ((14 + len es + len d) :: 8 :: e_idm ++ [1; 9; 0; len bl] ++ es ++ d) =
               (Ok (Some [12; 9; 3; 254; 1; 2; 3; 4; 5; 6; 0; 0]), blks_put (e_mem s) bl d)).
  { rewrite emu_process_cmd; [| right; reflexivity | rewrite !len_app; change (len [1; 9; 0; len bl]) with 4; lia].
    change (8 =? 6) with false. cbv iota. rewrite emu_write_head.
    unfold len at 1. rewrite Nat2Z.id. rewrite (parse_blks_ok 9 bl es Hes 0 [] d). cbn [bind rev app].
    replace (negb (len d mod 16 =? 0)) with false by lia.
    rewrite (emu_wr_blocks_ok (e_mem s)); [| reflexivity | exact Hf | lia | lia]. reflexivity. }
  unfold emu_xchg3, emu_xchg. replace (e_budget s =? 0) with false by lia. rewrite Hp.
  change (bt ((14 + len es + len d) :: 8 :: e_idm ++ [1; 9; 0; len bl] ++ es ++ d) 1) with 8.
  change (8 =? 8) with true. change (bt [12; 9; 3; 254; 1; 2; 3; 4; 5; 6; 0; 0] 10 =? 0) with true.
  rewrite orb_true_r. cbn [andb].
  change (t3_rsp 8 e_idm [12; 9; 3; 254; 1; 2; 3; 4; 5; 6; 0; 0]) with (@Ok (list Z) []). cbn [bind].
  eexists. split; [reflexivity|]. cbn [e_mem e_budget]. unfold em_inv, apply_cmd. cbn [fst snd]. auto.
Qed.

Lemma e_write_dead s c : em_inv s -> e_budget s = 0 -> cmd_ok (len (e_mem s)) 13 c ->
  e_write s (fst c) (snd c) = (Err (TagCommandError 0), s).
Proof.
  intros _ Hb (Hfr & _). unfold e_write. destruct (Hfr e_idm eq_refl) as (f & ->). now rewrite e_dead_xchg.
Qed.

Lemma em_fresh_ok m : em_inv (em_fresh_of m) /\ e_mem (em_fresh_of m) = m /\ e_budget (em_fresh_of m) = -1.
Proof. unfold em_inv, em_fresh_of. cbn. auto. Qed.

Definition em_wf (s : emu) (a : attrs) : Prop := t3_wf emu e_mem em_inv 15 13 s a.

Theorem t3emu_write_read s a d : em_wf s a -> e_budget s < 0 -> len d <= a_nmaxb a * 16 ->
  exists old s',
    em_read_ndef s = (Ok (Ndef true true (a_nmaxb a * 16) old), s) /\
    em_set_octets (Ndef true true (a_nmaxb a * 16) old) s d = (Ok tt, s') /\
    em_fresh (e_mem s') = Ok (Ndef true true (a_nmaxb a * 16) d).
Proof.
  intros W Hb Hd.
  eapply (t3_write_read_dev emu e_read e_write e_mem e_budget em_inv 15 13 em_fresh_of);
    eauto using e_read_ok, e_read_dead, e_write_ok, e_write_dead, em_fresh_ok.
Qed.

Theorem t3emu_cut_safe s a d old : em_wf s a -> len d <= a_nmaxb a * 16 -> 0 <= e_budget s ->
  let k := e_budget s in
  let n := Z.of_nat (length (t3_plan a d)) in
  exists r s', em_set_octets (Ndef true true (a_nmaxb a * 16) old) s d = (r, s') /\ em_inv s' /\
    (k = 0 -> e_mem s' = e_mem s) /\
    (0 < k < n -> exists w c x, em_fresh (e_mem s') = Ok (Ndef false w c x)) /\
    (n <= k -> em_fresh (e_mem s') = Ok (Ndef true true (a_nmaxb a * 16) d)).
Proof.
  intros W Hd Hk.
  eapply (t3_cut_safe_dev emu e_read e_write e_mem e_budget em_inv 15 13 em_fresh_of);
    eauto using e_read_ok, e_read_dead, e_write_ok, e_write_dead, em_fresh_ok.
Qed.

Theorem t3emu_write_frame s a d old : em_wf s a -> len d <= a_nmaxb a * 16 ->
  let hi := 1 + nblk (len d) in
  hi <= 1 + a_nmaxb a /\
  Forall (fun c => Forall (fun b => 0 <= b < hi) (fst c)) (t3_plan a d) /\
  exists r s', em_set_octets (Ndef true true (a_nmaxb a * 16) old) s d = (r, s') /\
    (exists j, e_mem s' = apply_cmds (e_mem s) (firstn j (t3_plan a d))) /\
    len (e_mem s') = len (e_mem s) /\ drop (16 * hi) (e_mem s') = drop (16 * hi) (e_mem s).
Proof.
  intros W Hd.
  eapply (t3_write_frame_dev emu e_read e_write e_mem e_budget em_inv 15 13);
    eauto using e_read_ok, e_read_dead, e_write_ok, e_write_dead, em_fresh_ok.
Qed.
