(* Type 2 Tag sector select (Model/T2Sector.v): the library's notion of the current sector follows the tag's. *)
From Coq Require Import ZArith List Bool Lia.
From NV Require Import Base.Result Model.TlvMem Model.T2Sector.
Open Scope Z_scope.
Ltac Zify.zify_post_hook ::= Z.to_euclidean_division_equations.

(* whatever happens to a SECTOR SELECT sequence, library and tag stay in step *)
Lemma sector_select_sync lib tag target o r lib' tag' : lib = tag ->
  sector_select lib tag target o = (r, lib', tag') -> lib' = tag' /\ (forall s, r = Ok s -> s = target /\ tag' = target).
Proof.
  intros -> H. unfold sector_select in H. destruct (Z.eqb_spec target tag) as [->|Hne].
  - injection H as <- <- <-. split; [reflexivity|]. intros s E. injection E as <-. auto.
  - destruct o; injection H as <- <- <-; (split; [reflexivity|]); intros s E; try discriminate. injection E as <-. auto.
Qed.
(* any sequence of sector selects (memory accesses at addresses a_i), each with any outcome *)
Fixpoint ss_run (lib tag : Z) (ops : list (Z * ss_outcome)) : Z * Z :=
  match ops with
  | nil => (lib, tag)
  | (a, o) :: r => let '(_, lib', tag') := sector_select lib tag (Z.shiftr a 10) o in ss_run lib' tag' r
  end.
Lemma ss_run_sync : forall ops lib tag, lib = tag -> fst (ss_run lib tag ops) = snd (ss_run lib tag ops).
Proof.
  induction ops as [|[a o] r IH]; intros lib tag E; [exact E|]. cbn [ss_run].
  destruct (sector_select lib tag (Z.shiftr a 10) o) as [[x lib'] tag'] eqn:H.
  apply IH. apply (sector_select_sync lib tag _ o x lib' tag' E H).
Qed.
(* after every successful one a READ / WRITE of page p reaches the absolute address the memory reader means *)
Lemma access_addr lib tag a o s lib' tag' : lib = tag -> 0 <= a -> sector_select lib tag (Z.shiftr a 10) o = (Ok s, lib', tag') ->
  abs_addr tag' (Z.shiftr a 2 mod 256) = 4 * (a / 4).
Proof.
  intros E Ha H. destruct (sector_select_sync lib tag _ o _ lib' tag' E H) as [_ H2]. destruct (H2 s eq_refl) as [_ Et]. rewrite Et.
  unfold abs_addr. rewrite !Z.shiftr_div_pow2 by lia. change (2 ^ 10) with 1024. change (2 ^ 2) with 4. lia.
Qed.
