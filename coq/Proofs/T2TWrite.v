(* C01, Type 2: NDEF write then read round-trips; capacity is sound; oversize data is rejected. *)
From Coq Require Import ZArith List Bool Lia ZifyBool.
From NV Require Import Base.Result Base.Bytes Model.TlvMem Model.T2T Proofs.TlvLib Proofs.TlvPhases Proofs.T2TRead Proofs.T2TPhases.
Import ListNotations.
Open Scope Z_scope.
Ltac Zify.zify_post_hook ::= Z.to_euclidean_division_equations.

Lemma t2_capacity_layout m cap : t2_capacity m = Some cap -> exists L, t2_reader (view m) = Ok (Some L) /\ l_cap L = cap.
Proof. unfold t2_capacity. destruct (t2_reader (view m)) as [[L|]| | |]; try discriminate. intro H. injection H as <-. eauto. Qed.
Lemma wfL_capacity m L cap : wfL m L -> t2_capacity m = Some cap -> l_cap L = cap.
Proof. intros H Hc. destruct (t2_capacity_layout m cap Hc) as (L' & Hr' & Hc'). pose proof (wfL_reader _ _ H). congruence. Qed.

Theorem t2_write_read m d cap : wf_layout m -> bytes_ok d -> t2_capacity m = Some cap -> len d <= cap ->
  let m' := apply_ws m (snd (t2_write m d)) in
  fst (t2_write m d) = Ok tt /\ t2_fresh m' = Msg d /\ t2_capacity m' = Some cap /\ len m' = len m.
Proof.
  intros Hwf _ Hcap Hd. destruct (wf_layout_wfL m Hwf) as (L & HL). pose proof (wfL_capacity m L cap HL Hcap) as Hc.
  destruct (t2_write_result m L HL d ltac:(lia)) as (cs & cf & Hw & _ & Hv & Hl & _ & Hf & _).
  cbv zeta. rewrite Hw. cbn [fst snd]. split; [reflexivity|].
  unfold t2_fresh, t2_capacity. rewrite Hv, Hf. cbn [classify set_val l_rd l_val l_cap].
  rewrite (wfL_rd _ _ HL), Hc. auto.
Qed.

Theorem t2_capacity_sound m L : wf_layout m -> t2_layout m = Some L -> l_cap L <= room (t2_free_after_tag L).
Proof.
  intros Hwf HL. destruct (wf_layout_wfL m Hwf) as (L' & HL'). pose proof (gl_cap _ _ _ _ _ (wfL_gen m L' HL')) as Hc. use_wfL HL'.
  unfold t2_layout in HL. rewrite Hr in HL. injection HL as ->.
  rewrite Hc. apply capacity_room; [exact S0 | lia].
Qed.

Theorem t2_oversize_rejected m d cap : t2_capacity m = Some cap -> cap < len d ->
  (exists L, t2_layout m = Some L /\ l_wr L = true) -> t2_write m d = (Err ValueError, []).
Proof.
  intros Hcap Hd (L & HL & Hwr). destruct (t2_capacity_layout m cap Hcap) as (L' & Hr' & Hc').
  unfold t2_layout in HL. rewrite Hr' in HL. injection HL as ->.
  unfold t2_write. rewrite Hr', Hwr. cbn [negb]. replace (l_cap L <? len d) with true by lia. reflexivity.
Qed.
