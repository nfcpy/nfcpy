(* C07: Type3TagEmulation.process_command answers every command - arbitrary bytes - with a response or None.
   Hypotheses are about the LOCAL configuration only: IDm/PMm of 8 bytes, a 2-byte system code, and a block read
   function that returns at most 16 bytes per block. *)
From Coq Require Import ZArith List Bool Lia ZifyBool.
From NV Require Import Base.Result Base.Bytes Base.PyPrims Model.T3Emu.
Import ListNotations.
Open Scope Z_scope.

(* a parser result: a value, or the IndexError the repaired process_command turns into "no response" *)
Definition okidx {A} (r : res A) : Prop := match r with Ok _ | Crash IndexErr => True | _ => False end.

Lemma okidx_bind {A B} (r : res A) (f : A -> res B) : okidx r -> (forall a, r = Ok a -> okidx (f a)) -> okidx (bind r f).
Proof. destruct r as [a|e|c|]; cbn [okidx bind]; try tauto. intros _ H. apply H. reflexivity. Qed.

(* ... and what the value satisfies; [okidx r] is [okidx_of (fun _ => True) r] *)
Definition okidx_of {A} (T : A -> Prop) (r : res A) : Prop :=
  match r with Ok a => T a | Crash IndexErr => True | _ => False end.
Lemma okidx_of_bind {A B} (T : A -> Prop) (U : B -> Prop) (r : res A) (f : A -> res B) :
  okidx_of T r -> (forall a, T a -> okidx_of U (f a)) -> okidx_of U (bind r f).
Proof. destruct r as [a|e|c|]; cbn [okidx_of bind]; try tauto. auto. Qed.

Lemma okidx_idx l i : okidx_of (fun _ => True) (idx l i).
Proof. unfold idx. destruct (i <? 0); [exact I|]. destruct (nth_error l (Z.to_nat i)); exact I. Qed.

Lemma dget_fold (d : list (Z * Z)) (k : Z) : forall acc : option Z,
  fold_left (fun (acc : option Z) (e : Z * Z) => if fst e =? k then Some (snd e) else acc) d acc <> None <-> (acc <> None \/ In k (map fst d)).
Proof.
  induction d as [|[a b] d IH]; intro acc; cbn [fold_left map In fst snd].
  - tauto.
  - rewrite IH. destruct (a =? k) eqn:E.
    + split; [intros _; right; left; lia | intros _; left; discriminate].
    + split; [intros [H | H]; [left; exact H | right; right; exact H] | intros [H | [H | H]]; [left; exact H | lia | right; exact H]].
Qed.
Lemma dget_ok (d : list (Z * Z)) (k : Z) : In k (map fst d) -> exists v, dget d k = Ok v.
Proof.
  intro H. unfold dget.
  destruct (fold_left _ d None) as [v|] eqn:E; [eexists; reflexivity|].
  exfalso. apply (proj2 (dget_fold d k None)); [right; exact H | exact E].
Qed.
Lemma dset_keys (d : list (Z * Z)) (k v : Z) : map fst (dset d k v) = map fst d.
Proof.
  unfold dset. rewrite map_map. apply map_ext_in. intros [a b] _. cbn [fst]. destruct (a =? k) eqn:E; cbn [fst]; lia.
Qed.

Lemma set_nth_keys (sl : list (Z * Z)) : forall k code cnt c',
  nth_error sl k = Some (code, cnt) -> map fst (set_nth k (code, c') sl) = map fst sl.
Proof.
  induction sl as [|h t IH]; intros [|k] code cnt c'; cbn [nth_error set_nth map]; try discriminate.
  - intro H. inversion H; subst. reflexivity.
  - intro H. f_equal. eapply IH, H.
Qed.
Lemma nth_error_key (sl : list (Z * Z)) k code cnt : nth_error sl k = Some (code, cnt) -> In code (map fst sl).
Proof. intro H. apply nth_error_In in H. apply (in_map fst) in H. exact H. Qed.

Section Emu.
Variables (idm pmm sys svcs : list Z).
Variable rdf : Z -> Z -> bool -> bool -> option (list Z).
Variable wrf : Z -> Z -> list Z -> bool -> bool -> bool.
Hypothesis Hidm : len idm = 8.
Hypothesis Hpmm : len pmm = 8.
Hypothesis Hsys : len sys = 2.
Hypothesis Hrd : forall sc bn rb re d, rdf sc bn rb re = Some d -> len d <= 16.

Definition known (code : Z) : Prop := memz code svcs = true.

Lemma parse_services_spec n : forall err cd acc, Forall (fun e => known (fst e)) acc ->
  okidx_of (fun e => match e with Go (sl, _) => Forall (fun e => known (fst e)) sl | Rsp r => r = err end)
           (parse_services svcs n err cd acc).
Proof.
  induction n as [|n IH]; intros err cd acc Ha; cbn [parse_services]; [exact Ha|].
  eapply okidx_of_bind; [apply okidx_idx|]. intros b1 _. eapply okidx_of_bind; [apply okidx_idx|]. intros b0 _.
  destruct (memz (Z.lor (Z.shiftl b1 8) b0) svcs) eqn:E; cbn [negb]; [|reflexivity].
  apply IH. apply Forall_app. split; [exact Ha|]. constructor; [exact E | constructor].
Qed.

Definition bl_ok (sl : list (Z * Z)) (bl : list (Z * Z)) : Prop := Forall (fun e => In (fst e) (map fst sl)) bl.

Definition blocks_post (sl : list (Z * Z)) (n : nat) (e : early (list (Z * Z) * list (Z * Z) * list Z)) : Prop :=
  match e with
  | Go (sl', bl, _) => map fst sl' = map fst sl /\ bl_ok sl' bl /\ length bl = n
  | Rsp r => len r = 2
  end.

Lemma parse_blocks_spec m : forall i cd sl acc, bl_ok sl acc ->
  okidx_of (blocks_post sl (length acc + m)) (parse_blocks m i cd sl acc).
Proof.
  induction m as [|m IH]; intros i cd sl acc Ha; cbn [parse_blocks].
  - repeat split; [exact Ha | lia].
  - destruct (nth_error cd 0) as [b0|]; [|reflexivity].
    destruct (nth_error sl (Z.to_nat (Z.land b0 15))) as [[code cnt]|] eqn:En; [|reflexivity].
    pose proof (set_nth_keys sl _ code cnt (cnt + 1) En) as Hk.
    set (sl1 := set_nth (Z.to_nat (Z.land b0 15)) (code, cnt + 1) sl) in *.
    (* the 2-byte and the 3-byte element go on in the same way: the rest of the list, one more block of service [code] *)
    assert (Hrec : forall cd' bn, okidx_of (blocks_post sl (length acc + S m)) (parse_blocks m (i + 1) cd' sl1 (acc ++ [(code, bn)]))).
    { intros cd' bn.
      assert (Hb : bl_ok sl1 (acc ++ [(code, bn)])).
      { unfold bl_ok. rewrite Hk. apply Forall_app. split; [exact Ha|]. constructor; [|constructor]. eapply nth_error_key, En. }
      specialize (IH (i + 1) cd' sl1 _ Hb).
      destruct (parse_blocks m (i + 1) cd' sl1 (acc ++ [(code, bn)])) as [[r|[[sl' bl] cd'']]|e|c|]; try exact IH.
      destruct IH as (A & B & C). split; [rewrite A; exact Hk|]. split; [exact B|]. rewrite C, app_length. cbn [length]. lia. }
    destruct (b0 >=? 128).
    + eapply okidx_of_bind; [apply okidx_idx|]. intros bn _. apply Hrec.
    + eapply okidx_of_bind; [apply okidx_idx|]. intros b2 _. eapply okidx_of_bind; [apply okidx_idx|]. intros b1 _. apply Hrec.
Qed.

Definition abl_ok (d : list (Z * Z)) (bl : list (Z * Z * Z)) : Prop :=
  Forall (fun t => In (fst (fst t)) (map fst d) /\ known (fst (fst t))) bl.

Lemma annotate_spec d : forall bl, bl_ok d bl -> Forall (fun e => known (fst e)) d ->
  exists bl', annotate d bl = Ok bl' /\ abl_ok d bl' /\ length bl' = length bl.
Proof.
  intros bl Hb Hk. induction bl as [|[sc bn] r IH]; cbn [annotate].
  - exists []. repeat split. constructor.
  - inversion Hb as [|? ? Hin Hr]; subst. cbn [fst] in Hin.
    destruct (dget_ok d sc Hin) as [c ->]. cbn [bind].
    destruct (IH Hr) as (r' & -> & Ha & Hl). cbn [bind]. eexists. split; [reflexivity|]. split.
    + constructor; [|exact Ha]. cbn [fst]. split; [exact Hin|].
      apply in_map_iff in Hin. destruct Hin as ([a b] & <- & Hin). rewrite Forall_forall in Hk. apply (Hk _ Hin).
    + cbn [length]. lia.
Qed.

(* the block list of a command over a parsed service list, annotated with the per-service block counts *)
Lemma blocks_annot m cd sl : Forall (fun e => known (fst e)) sl ->
  okidx_of (fun e => match e with
                     | Go (sl', bl, _) => exists bl', annotate sl' bl = Ok bl' /\ abl_ok sl' bl' /\ length bl' = Z.to_nat m
                     | Rsp r => len r = 2
                     end)
           (parse_blocks (Z.to_nat m) 0 cd sl []).
Proof.
  intro H1. pose proof (parse_blocks_spec (Z.to_nat m) 0 cd sl [] (Forall_nil _)) as H2.
  destruct (parse_blocks (Z.to_nat m) 0 cd sl []) as [[r|[[sl' bl] cd4]]|e|c|]; try exact H2.
  destruct H2 as (Hk & Hb & Hl).
  assert (Hkn : Forall (fun e => known (fst e)) sl') by (apply Forall_map; rewrite Hk; apply Forall_map, H1).
  destruct (annotate_spec sl' bl Hb Hkn) as (bl' & E & Ha & Hl'). exists bl'. cbn [length] in Hl. repeat split; [exact E | exact Ha | lia].
Qed.

Lemma services_get_ok sc : known sc -> services_get svcs sc = Ok tt.
Proof. unfold services_get, known. intros ->. reflexivity. Qed.

Lemma read_loop_spec : forall bl i d acc, abl_ok d bl ->
  match read_loop svcs rdf bl i d acc with
  | Ok (Go data) => len data <= len acc + 16 * Z.of_nat (length bl)
  | Ok (Rsp r) => len r = 2
  | _ => False
  end.
Proof.
  induction bl as [|[[sc bn] bc] r IH]; intros i d acc Ha; cbn [read_loop].
  - cbn [length]. lia.
  - inversion Ha as [|? ? [Hin Hkn] Hr]; subst. cbn [fst] in *.
    destruct (dget_ok d sc Hin) as [c ->]. cbn [bind]. rewrite (services_get_ok sc Hkn). cbn [bind].
    destruct (rdf sc bn (bc =? c) (c - 1 =? 0)) as [one|] eqn:Er; [|reflexivity].
    assert (Ha' : abl_ok (dset d sc (c - 1)) r).
    { unfold abl_ok. rewrite dset_keys. exact Hr. }
    specialize (IH (i + 1) _ (acc ++ one) Ha').
    destruct (read_loop svcs rdf r (i + 1) _ _) as [[rr|data]|e|cc|]; try exact IH.
    rewrite len_app in IH. pose proof (Hrd _ _ _ _ _ Er). cbn [length]. lia.
Qed.

Lemma write_loop_spec bd : forall bl i d, abl_ok d bl ->
  exists r, write_loop svcs wrf bl i d bd = Ok r /\ len r = 2.
Proof.
  induction bl as [|[[sc bn] bc] r IH]; intros i d Ha; cbn [write_loop].
  - eexists. split; reflexivity.
  - inversion Ha as [|? ? [Hin Hkn] Hr]; subst. cbn [fst] in *.
    destruct (dget_ok d sc Hin) as [c ->]. cbn [bind]. rewrite (services_get_ok sc Hkn). cbn [bind].
    destruct (negb _); [eexists; split; reflexivity|].
    apply IH. unfold abl_ok. rewrite dset_keys. exact Hr.
Qed.

Lemma pop0_ok cd : okidx (pop0 cd).
Proof. destruct cd; exact I. Qed.

Lemma ba2_ok a b rest : 0 <= a < 256 -> ba2 a b rest = Ok (a :: b :: rest).
Proof. intro H. unfold ba2. replace ((0 <=? a) && (a <? 256)) with true by lia. reflexivity. Qed.

Lemma read_spec cd : okidx_of (fun rsp => len rsp <= 243) (read_without_encryption svcs rdf cd).
Proof.
  unfold read_without_encryption. destruct cd as [|n cd1]; [exact I|]. cbn [pop0 bind].
  eapply okidx_of_bind; [apply parse_services_spec, Forall_nil|]. intros [r|[sl cd2]] H1; [subst r; cbn; lia|].
  destruct cd2 as [|m cd3]; [exact I|]. cbn [pop0 bind].
  destruct (m >? 15) eqn:Em; [cbn; lia|].
  eapply okidx_of_bind; [apply blocks_annot, H1|]. intros [r|[[sl' bl] cd4]] H2; [cbn [okidx_of]; lia|].
  destruct H2 as (bl' & -> & Ha & Hl). cbn [bind].
  pose proof (read_loop_spec bl' 0 sl' [] Ha) as H3.
  destruct (read_loop svcs rdf bl' 0 sl' []) as [[r|data]|e|c|]; cbn [bind]; try (exfalso; exact H3).
  { cbn [okidx_of]. lia. }
  rewrite (@len_nil Z) in H3. pose proof (len_nonneg data).
  assert (len data <= 240) by lia.
  rewrite ba2_ok by lia. cbn [okidx_of]. rewrite !len_cons. lia.
Qed.

Lemma write_spec cd : okidx_of (fun rsp => len rsp <= 2) (write_without_encryption svcs wrf cd).
Proof.
  unfold write_without_encryption. destruct cd as [|n cd1]; [exact I|]. cbn [pop0 bind].
  eapply okidx_of_bind; [apply parse_services_spec, Forall_nil|]. intros [r|[sl cd2]] H1; [subst r; cbn; lia|].
  destruct cd2 as [|m cd3]; [exact I|]. cbn [pop0 bind].
  eapply okidx_of_bind; [apply blocks_annot, H1|]. intros [r|[[sl' bl] cd4]] H2; [cbn [okidx_of]; lia|].
  destruct H2 as (bl' & -> & Ha & Hl). cbn [bind].
  destruct (negb _); [cbn; lia|].
  destruct (write_loop_spec cd4 bl' 0 sl' Ha) as (r & -> & Hr). cbn [okidx_of]. lia.
Qed.

Lemma inner_spec cmd : okidx (process_inner idm pmm sys svcs rdf wrf cmd).
Proof.
  change (okidx_of (fun _ => True) (process_inner idm pmm sys svcs rdf wrf cmd)).
  unfold process_inner. pose proof (len_nonneg idm).
  (* a response of at most 243 bytes behind the 10-byte header fits the length byte *)
  assert (Hout : forall code rsp, len rsp <= 243 -> okidx_of (fun _ : option (list Z) => True)
            (do out <- ba2 (10 + len rsp) code (idm ++ rsp); Ok (Some out))).
  { intros code rsp Hr. pose proof (len_nonneg rsp). rewrite ba2_ok by lia. exact I. }
  destruct (is_polling sys cmd).
  { unfold polling. pose proof (okidx_idx (drop 2 cmd) 2) as H2.
    destruct (idx (drop 2 cmd) 2) as [rc| |c|]; cbn [okidx_of bind] in *; try tauto.
    destruct (rc =? 1); rewrite ba2_ok by (rewrite ?len_app; lia); exact I. }
  destruct (list_eqb (slice cmd 2 10) idm); [|exact I].
  eapply okidx_of_bind; [apply okidx_idx|]. intros c1 _.
  destruct (c1 =? 4). { rewrite ba2_ok by lia. exact I. }
  destruct (c1 =? 6). { eapply okidx_of_bind; [apply read_spec|]. intros rsp Hr. apply Hout, Hr. }
  destruct (c1 =? 8). { eapply okidx_of_bind; [apply write_spec|]. intros rsp Hr. cbv beta in Hr. apply Hout. lia. }
  destruct (c1 =? 12). { apply Hout. rewrite len_cons. lia. }
  exact I.
Qed.

Theorem tt3emu_total cmd :
  process_command idm pmm sys svcs rdf wrf cmd = Ok None \/
  exists rsp, process_command idm pmm sys svcs rdf wrf cmd = Ok (Some rsp).
Proof.
  unfold process_command. destruct cmd as [|c0 t]; [left; reflexivity|].
  destruct (negb (len (c0 :: t) =? c0)); [left; reflexivity|].
  pose proof (inner_spec (c0 :: t)) as H.
  destruct (process_inner idm pmm sys svcs rdf wrf (c0 :: t)) as [[rsp|]| |c|]; cbn [okidx] in H.
  - right. eexists. reflexivity.
  - left. reflexivity.
  - tauto.
  - destruct c; try tauto; left; reflexivity.
  - tauto.
Qed.

Theorem tt3emu_length_rule c0 t : c0 <> 1 + len t -> process_command idm pmm sys svcs rdf wrf (c0 :: t) = Ok None.
Proof. intro H. unfold process_command. rewrite len_cons. replace (1 + len t =? c0) with false by lia. reflexivity. Qed.

End Emu.

(* the code as it was: the empty command and the 10-byte read command of the check's corpus raise IndexError *)
Lemma orig_empty_command : ex_process [2;254;1;2;3;4;5;6] [255;255;255;255;255;255;255;255] [18;252] 12 true [] = Crash IndexErr.
Proof. reflexivity. Qed.
Lemma orig_short_read : ex_process [2;254;1;2;3;4;5;6] [255;255;255;255;255;255;255;255] [18;252] 12 true
                          [10;6;2;254;1;2;3;4;5;6] = Crash IndexErr.
Proof. vm_compute. reflexivity. Qed.
Lemma fixed_short_read : ex_process [2;254;1;2;3;4;5;6] [255;255;255;255;255;255;255;255] [18;252] 12 false
                          [10;6;2;254;1;2;3;4;5;6] = Ok None.
Proof. vm_compute. reflexivity. Qed.
Lemma ex_rdf_16 nb sc bn rb re d : ex_rdf nb sc bn rb re = Some d -> len d <= 16.
Proof. unfold ex_rdf. destruct ((sc =? 11) && (bn <? nb)); [|discriminate]. intro H. inversion H. cbn. lia. Qed.
