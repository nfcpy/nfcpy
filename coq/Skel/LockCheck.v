(* Skel/LockCheck.v - the verified lock-discipline analysis for C15.

   chk E n h k s      : checks statement s, entered with the lock held (h) or not and with the
                        knowledge k "this thread has seen self.device to be non-None during the
                        present hold of the lock".  Result None = rejected.  Some (nrm, abr):
                        nrm = knowledge after normal completion (None: never completes normally),
                        abr = knowledge that survives every abrupt exit.
   chk_sound          : every execution (normal, abrupt or partial, hence every prefix of every
                        run, also non-terminating ones) of an accepted statement passes the
                        per-thread monitor `run`: device calls only while holding the lock and
                        after a positive device test in the same hold; device writes and
                        device.connect only while holding the lock; no acquire while holding
                        (the lock is not re-entrant), no outside code while holding.
   threads_safe       : any number of threads, any interleaving that a non-re-entrant mutex and a
                        shared attribute allow (mutex_ok, dev_ok): if every thread's projection
                        passes the monitor, then (excl) every driver call is made by the lock
                        owner on an open device, no driver call / device write / connect happens
                        while another driver call is in progress.
   frontend_safe      : the two combined for threads that use the frontend only through its
                        entry points.  *)
From Coq Require Import List String Bool Arith Lia.
From NV Require Import Skel.LockSyntax.
Import ListNotations.

Inductive lst := Out | Hold (k : bool) | Busy.

Definition step (s : lst) (e : ev) : option lst :=
  match s with
  | Out => match e with
           | Acq => Some (Hold false)
           | ExtCall _ => Some Out
           | EvTest _ => Some Out
           | _ => None
           end
  | Hold k => match e with
            | Rel => Some Out
            | EvTest b => Some (Hold (b || k))
            | EvSet b => Some (Hold b)
            | ConnectCall => Some (Hold k)
            | DevBegin _ => if k then Some Busy else None
            | _ => None
            end
  | Busy => match e with
            | DevEnd _ => Some (Hold true)
            | _ => None
            end
  end.

Fixpoint run (s : lst) (t : list ev) : option lst :=
  match t with
  | [] => Some s
  | e :: r => match step s e with Some s' => run s' r | None => None end
  end.

Lemma run_app s t1 t2 :
  run s (t1 ++ t2) = match run s t1 with Some s' => run s' t2 | None => None end.
Proof.
  revert s; induction t1 as [|e t1 IH]; intro s; cbn; [reflexivity|].
  destruct (step s e); [apply IH|reflexivity].
Qed.

(* abstract state (h,k) is a lower bound of the concrete monitor state *)
Definition able (h k : bool) (st : lst) : bool :=
  match h, st with
  | false, Out => true
  | true, Hold k' => implb k k'
  | _, _ => false
  end.

Lemma able_mono h k k' st : able h k st = true -> implb k' k = true -> able h k' st = true.
Proof. destruct h, st as [|x|], k, k'; try destruct x; cbn; congruence. Qed.

Definition res := (option bool * bool)%type.
Definition joinn (a b : option bool) : option bool :=
  match a, b with
  | None, x => x
  | x, None => x
  | Some x, Some y => Some (x && y)
  end.
Definition nle (k : bool) (n : option bool) : bool :=
  match n with Some x => implb k x | None => true end.

Fixpoint chk (E : env) (n : nat) (h k : bool) (s : stmt) : option res :=
  match n with
  | O => None
  | S n' =>
    match s with
    | Skip => Some (Some k, k)
    | Ret => Some (None, k)
    | Dev _ => if h && k then Some (Some true, true) else None
    | Connect => if h then Some (Some k, k) else None
    | DevSet b => if h then Some (Some b, k && b) else None
    | IfDev a b =>
        match chk E n' h h a, chk E n' h k b with
        | Some (na, qa), Some (nb, qb) => Some (joinn na nb, k && qa && qb)
        | _, _ => None
        end
    | Ext _ => if h then None else Some (Some false, false)
    | Seq a b =>
        match chk E n' h k a with
        | Some (Some ka, qa) =>
            match chk E n' h ka b with
            | Some (nb, qb) => Some (nb, qa && qb)
            | None => None
            end
        | Some (None, qa) => Some (None, qa)
        | None => None
        end
    | Choice a b =>
        match chk E n' h k a, chk E n' h k b with
        | Some (na, qa), Some (nb, qb) => Some (joinn na nb, qa && qb)
        | _, _ => None
        end
    | Loop a =>
        match chk E n' h k a with
        | Some (n1, q1) =>
            let k0 := k && q1 && match n1 with Some x => x | None => true end in
            if Bool.eqb k0 k then Some (Some k0, k0)
            else match chk E n' h false a with
                 | Some _ => Some (Some false, false)
                 | None => None
                 end
        | None => None
        end
    | Try a hd =>
        match chk E n' h k a with
        | Some (na, qa) =>
            match chk E n' h qa hd with
            | Some (nh, qh) => Some (joinn na nh, qa && qh)
            | None => None
            end
        | None => None
        end
    | WithLock a =>
        if h then None
        else match chk E n' true false a with
             | Some _ => Some (Some false, false)
             | None => None
             end
    | Call f =>
        match E f with
        | Some s' =>
            match chk E n' h k s' with
            | Some (nb, qb) => Some (joinn nb (Some qb), qb)
            | None => None
            end
        | None => None
        end
    end
  end.

Definition post_ok (h : bool) (r : res) (o : out) (st' : lst) : Prop :=
  match o with
  | Norm => exists kn, fst r = Some kn /\ able h kn st' = true
  | Abr => able h (snd r) st' = true
  | Part => True
  end.

(* r' promises no more than r, for every way of leaving the statement *)
Definition res_le (r r' : res) : Prop :=
  (forall kn, fst r = Some kn -> exists x, fst r' = Some x /\ implb x kn = true) /\ implb (snd r') (snd r) = true.

Lemma post_ok_weaken h r r' o st : post_ok h r o st -> res_le r r' -> post_ok h r' o st.
Proof.
  intros Hp [Hn Ha]. destruct o; cbn in *; [|eapply able_mono; eauto|exact I].
  destruct Hp as (kn & Hk & Hab). destruct (Hn _ Hk) as (x & Hx & Hi).
  exists x. split; [exact Hx|]. eapply able_mono; eauto.
Qed.

Lemma res_le_join_l na nb qa q : implb q qa = true -> res_le (na, qa) (joinn na nb, q).
Proof.
  intro H. split; [|exact H]. cbn. intros kn ->.
  destruct nb as [y|]; cbn; eexists; (split; [reflexivity|]); [destruct kn, y|destruct kn]; reflexivity.
Qed.
Lemma res_le_join_r na nb qb q : implb q qb = true -> res_le (nb, qb) (joinn na nb, q).
Proof.
  intro H. split; [|exact H]. cbn. intros kn ->.
  destruct na as [y|]; cbn; eexists; (split; [reflexivity|]); [destruct kn, y|destruct kn]; reflexivity.
Qed.
Lemma res_le_abr n q q' : implb q' q = true -> res_le (n, q) (n, q').
Proof. intro H. split; [|exact H]. cbn. intros kn ->. exists kn. split; [reflexivity|destruct kn; reflexivity]. Qed.

Lemma chk_loop_inv E n h k a r :
  chk E (S n) h k (Loop a) = Some r ->
  exists k0 n1 q1, r = (Some k0, k0) /\ implb k0 k = true /\
    chk E n h k0 a = Some (n1, q1) /\ implb k0 q1 = true /\ nle k0 n1 = true /\
    chk E (S n) h k0 (Loop a) = Some (Some k0, k0).
Proof.
  intro H. pose proof H as H'. cbn [chk] in H.
  destruct (chk E n h k a) as [[n1 q1]|] eqn:Ea; [|discriminate].
  remember (k && q1 && match n1 with Some x => x | None => true end) as k0 eqn:Hk0.
  destruct (Bool.eqb k0 k) eqn:Ek.
  - apply Bool.eqb_prop in Ek. inversion H; subst r. rewrite Ek in H'. rewrite Ek.
    exists k, n1, q1.
    split; [reflexivity|]. split; [destruct k; reflexivity|]. split; [exact Ea|].
    split; [destruct k, q1, n1 as [[|]|]; cbn in *; congruence|].
    split; [destruct k, q1, n1 as [[|]|]; cbn in *; congruence|exact H'].
  - destruct (chk E n h false a) as [[n2 q2]|] eqn:Ef; [|discriminate].
    inversion H; subst r. exists false, n2, q2.
    split; [reflexivity|]. split; [reflexivity|]. split; [exact Ef|].
    split; [reflexivity|]. split; [destruct n2; reflexivity|].
    cbn [chk]. rewrite Ef. cbn [andb Bool.eqb]. reflexivity.
Qed.

Ltac inv_some :=
  repeat match goal with
  | H : Some _ = Some _ |- _ => inversion H; clear H; subst
  | H : None = Some _ |- _ => discriminate H
  | H : (if ?b then _ else _) = Some _ |- _ => destruct b eqn:?; [|try discriminate H]; try discriminate H
  end.

(* the knowledge surviving abrupt exits never exceeds the entry knowledge (an exception can
   happen before the first event) *)
Lemma chk_abr_le E n : forall s h k r, chk E n h k s = Some r -> implb (snd r) k = true.
Proof.
  induction n as [|n IHn]; intros s h k r Hc; [discriminate|].
  destruct s; cbn [chk] in Hc.
  - inv_some. cbn. destruct k; reflexivity.
  - inv_some. cbn. destruct k; reflexivity.
  - inv_some. cbn. apply andb_true_iff in Heqb. destruct Heqb; subst. reflexivity.
  - inv_some. cbn. destruct k; reflexivity.
  - inv_some. cbn. destruct k, b; reflexivity.
  - destruct (chk E n h h s1) as [[na qa]|]; [|discriminate].
    destruct (chk E n h k s2) as [[nb qb]|]; [|discriminate]. inv_some. cbn.
    destruct k, qa, qb; reflexivity.
  - inv_some. reflexivity.
  - destruct (chk E n h k s1) as [[[ka|] qa]|] eqn:E1; [| |discriminate].
    + destruct (chk E n h ka s2) as [[nb qb]|] eqn:E2; [|discriminate]. inv_some. cbn.
      apply IHn in E1. cbn in E1. destruct qa, qb, k; cbn in *; congruence.
    + inv_some. apply IHn in E1. exact E1.
  - destruct (chk E n h k s1) as [[na qa]|] eqn:E1; [|discriminate].
    destruct (chk E n h k s2) as [[nb qb]|] eqn:E2; [|discriminate]. inv_some. cbn.
    apply IHn in E1. apply IHn in E2. cbn in *. destruct qa, qb, k; cbn in *; congruence.
  - apply chk_loop_inv in Hc. destruct Hc as (k0 & n1 & q1 & -> & Hk & _). exact Hk.
  - destruct (chk E n h k s1) as [[na qa]|] eqn:E1; [|discriminate].
    destruct (chk E n h qa s2) as [[nh qh]|] eqn:E2; [|discriminate]. inv_some. cbn.
    apply IHn in E1. cbn in E1. destruct qa, qh, k; cbn in *; congruence.
  - destruct h; [discriminate|]. destruct (chk E n true false s); [|discriminate]. inv_some. reflexivity.
  - destruct (E f) as [s'|]; [|discriminate].
    destruct (chk E n h k s') as [[nb qb]|] eqn:E1; [|discriminate]. inv_some. cbn.
    apply IHn in E1. exact E1.
Qed.

Section Sound.
  Variable E : env.
  Variable entry : stmt.
  Variable n0 : nat.
  Variable r0 : res.
  Hypothesis Hentry : chk E n0 false false entry = Some r0.

  Lemma chk_loop_entry : chk E (S n0) false false (Loop entry) = Some (Some false, false).
  Proof. cbn [chk]. rewrite Hentry. destruct r0 as [n1 q1]. reflexivity. Qed.

  Theorem chk_sound s t o : exec E entry s t o ->
    forall n h k r st, chk E n h k s = Some r -> able h k st = true ->
    exists st', run st t = Some st' /\ post_ok h r o st'.
  Proof.
    induction 1; intros n h k r st Hc Ha; (destruct n as [|n]; [discriminate|]).
    - (* XPart *) exists st. split; [reflexivity|exact I].
    - (* XAbr: the abrupt knowledge never exceeds the entry knowledge *)
      exists st. split; [reflexivity|]. cbn.
      apply able_mono with (k := k); [exact Ha|]. eapply chk_abr_le; eauto.
    - (* XSkip *) cbn in Hc. inv_some. exists st. split; [reflexivity|]. cbn. eauto.
    - (* XDev *) cbn in Hc. inv_some. apply andb_true_iff in Heqb as [-> ->].
      destruct st as [|[|]|]; try discriminate. cbn. exists (Hold true). split; [reflexivity|].
      exists true. split; reflexivity.
    - (* XDevExn *) cbn in Hc. inv_some. apply andb_true_iff in Heqb as [-> ->].
      destruct st as [|[|]|]; try discriminate. cbn. exists (Hold true). split; reflexivity.
    - (* XDevIn *) cbn in Hc. inv_some. apply andb_true_iff in Heqb as [-> ->].
      destruct st as [|[|]|]; try discriminate. cbn. exists Busy. split; [reflexivity|exact I].
    - (* XConnect *) cbn in Hc. inv_some.
      destruct st as [|k'|]; try discriminate. exists (Hold k'). split; [destruct k'; reflexivity|].
      exists k. split; [reflexivity|exact Ha].
    - (* XConnectExn *) cbn in Hc. inv_some.
      destruct st as [|k'|]; try discriminate. exists (Hold k'). split; [destruct k'; reflexivity|exact Ha].
    - (* XSet *) cbn in Hc. inv_some.
      destruct st as [|k'|]; try discriminate. exists (Hold b). split; [destruct k'; reflexivity|].
      exists b. split; [reflexivity|]. destruct b; reflexivity.
    - (* XIfT *) cbn [chk] in Hc.
      destruct (chk E n h h a) as [[na qa]|] eqn:E1; [|discriminate].
      destruct (chk E n h k b) as [[nb qb]|] eqn:E2; [|discriminate]. inv_some.
      assert (Hst : exists st1, step st (EvTest true) = Some st1 /\ able h h st1 = true).
      { destruct h, st as [|[|]|]; try discriminate; cbn; eauto. }
      destruct Hst as (st1 & Hs & Ha1). destruct (IHexec _ _ _ _ _ E1 Ha1) as (st' & Hr & Hp).
      exists st'. cbn [run]. rewrite Hs. split; [exact Hr|].
      eapply post_ok_weaken; [exact Hp|]. apply res_le_join_l. destruct k, qa, qb; reflexivity.
    - (* XIfF *) cbn [chk] in Hc.
      destruct (chk E n h h a) as [[na qa]|] eqn:E1; [|discriminate].
      destruct (chk E n h k b) as [[nb qb]|] eqn:E2; [|discriminate]. inv_some.
      assert (Hs : step st (EvTest false) = Some st).
      { destruct h, st as [|[|]|]; try discriminate; cbn; eauto. }
      destruct (IHexec _ _ _ _ _ E2 Ha) as (st' & Hr & Hp).
      exists st'. cbn [run]. rewrite Hs. split; [exact Hr|].
      eapply post_ok_weaken; [exact Hp|]. apply res_le_join_r. destruct k, qa, qb; reflexivity.
    - (* XExt *) cbn in Hc. inv_some.
      destruct st; try discriminate. cbn [run step].
      destruct (IHexec _ _ _ _ Out chk_loop_entry eq_refl) as (st' & Hr & Hp).
      exists st'. split; [exact Hr|]. destruct o; cbn in *; auto.
    - (* XSeq *) cbn [chk] in Hc.
      destruct (chk E n h k a) as [[[ka|] qa]|] eqn:E1; [| |discriminate].
      + destruct (chk E n h ka b) as [[nb qb]|] eqn:E2; [|discriminate]. inv_some.
        destruct (IHexec1 _ _ _ _ _ E1 Ha) as (st1 & Hr1 & (kn & Hn & Hk)). cbn in Hn. inv_some.
        destruct (IHexec2 _ _ _ _ _ E2 Hk) as (st' & Hr2 & Hp).
        exists st'. rewrite run_app, Hr1. split; [exact Hr2|].
        eapply post_ok_weaken; [exact Hp|]. apply res_le_abr. destruct qa, qb; reflexivity.
      + inv_some. destruct (IHexec1 _ _ _ _ _ E1 Ha) as (st1 & Hr1 & (kn & Hn & Hk)). discriminate.
    - (* XSeqStop *) cbn [chk] in Hc.
      destruct (chk E n h k a) as [[[ka|] qa]|] eqn:E1; [| |discriminate].
      + destruct (chk E n h ka b) as [[nb qb]|] eqn:E2; [|discriminate]. inv_some.
        destruct (IHexec _ _ _ _ _ E1 Ha) as (st1 & Hr1 & Hp).
        exists st1. split; [exact Hr1|]. destruct o; cbn in *; auto; [congruence|].
        eapply able_mono; [exact Hp|]. destruct qa, qb; reflexivity.
      + inv_some. destruct (IHexec _ _ _ _ _ E1 Ha) as (st1 & Hr1 & Hp).
        exists st1. split; [exact Hr1|]. destruct o; cbn in *; auto; congruence.
    - (* XChL *) cbn [chk] in Hc.
      destruct (chk E n h k a) as [[na qa]|] eqn:E1; [|discriminate].
      destruct (chk E n h k b) as [[nb qb]|] eqn:E2; [|discriminate]. inv_some.
      destruct (IHexec _ _ _ _ _ E1 Ha) as (st' & Hr & Hp). exists st'. split; [exact Hr|].
      eapply post_ok_weaken; [exact Hp|]. apply res_le_join_l. destruct qa, qb; reflexivity.
    - (* XChR *) cbn [chk] in Hc.
      destruct (chk E n h k a) as [[na qa]|] eqn:E1; [|discriminate].
      destruct (chk E n h k b) as [[nb qb]|] eqn:E2; [|discriminate]. inv_some.
      destruct (IHexec _ _ _ _ _ E2 Ha) as (st' & Hr & Hp). exists st'. split; [exact Hr|].
      eapply post_ok_weaken; [exact Hp|]. apply res_le_join_r. destruct qa, qb; reflexivity.
    - (* XLoop0 *)
      apply chk_loop_inv in Hc. destruct Hc as (k0 & n1 & q1 & -> & Hk & _).
      exists st. split; [reflexivity|]. exists k0. split; [reflexivity|].
      eapply able_mono; eauto.
    - (* XLoopS *)
      apply chk_loop_inv in Hc. destruct Hc as (k0 & n1 & q1 & -> & Hk & Ea & Hq & Hn & Hl).
      assert (Ha0 : able h k0 st = true) by (eapply able_mono; eauto).
      destruct (IHexec1 _ _ _ _ _ Ea Ha0) as (st1 & Hr1 & Hp1).
      assert (Ha1 : able h k0 st1 = true).
      { destruct o1; cbn in Hp1.
        - destruct Hp1 as (kn & Hkn & Hab). cbn in Hkn. subst n1. eapply able_mono; [exact Hab|exact Hn].
        - eapply able_mono; [exact Hp1|exact Hq].
        - congruence. }
      destruct (IHexec2 _ _ _ _ _ Hl Ha1) as (st' & Hr2 & Hp2).
      exists st'. rewrite run_app, Hr1. split; [exact Hr2|exact Hp2].
    - (* XLoopStop *)
      apply chk_loop_inv in Hc. destruct Hc as (k0 & n1 & q1 & -> & Hk & Ea & Hq & Hn & Hl).
      assert (Ha0 : able h k0 st = true) by (eapply able_mono; eauto).
      destruct (IHexec _ _ _ _ _ Ea Ha0) as (st1 & Hr1 & Hp1).
      exists st1. split; [exact Hr1|exact I].
    - (* XTry *) cbn [chk] in Hc.
      destruct (chk E n h k a) as [[na qa]|] eqn:E1; [|discriminate].
      destruct (chk E n h qa hd) as [[nh qh]|] eqn:E2; [|discriminate]. inv_some.
      destruct (IHexec _ _ _ _ _ E1 Ha) as (st' & Hr & Hp). exists st'. split; [exact Hr|].
      eapply post_ok_weaken; [exact Hp|]. apply res_le_join_l. destruct qa, qh; reflexivity.
    - (* XTryH *) cbn [chk] in Hc.
      destruct (chk E n h k a) as [[na qa]|] eqn:E1; [|discriminate].
      destruct (chk E n h qa hd) as [[nh qh]|] eqn:E2; [|discriminate]. inv_some.
      destruct (IHexec1 _ _ _ _ _ E1 Ha) as (st1 & Hr1 & Hp1). cbn in Hp1.
      destruct (IHexec2 _ _ _ _ _ E2 Hp1) as (st' & Hr2 & Hp).
      exists st'. rewrite run_app, Hr1. split; [exact Hr2|].
      eapply post_ok_weaken; [exact Hp|]. apply res_le_join_r. destruct qa, qh; reflexivity.
    - (* XWith *) cbn [chk] in Hc.
      destruct h; [discriminate|]. destruct (chk E n true false a) as [ra|] eqn:E1; [|discriminate]. inv_some.
      destruct st; try discriminate.
      destruct (IHexec _ _ _ _ (Hold false) E1 eq_refl) as (st1 & Hr1 & Hp1).
      assert (Hin : exists k1, st1 = Hold k1).
      { destruct o; cbn in Hp1.
        - destruct Hp1 as (kn & _ & Hab). destruct st1; try discriminate. eauto.
        - destruct st1; try discriminate. eauto.
        - congruence. }
      destruct Hin as (k1 & ->).
      exists Out. cbn [run step]. rewrite run_app, Hr1. split; [destruct k1; reflexivity|].
      destruct o; cbn; auto. exists false. split; reflexivity.
    - (* XWithIn *) cbn [chk] in Hc.
      destruct h; [discriminate|]. destruct (chk E n true false a) as [ra|] eqn:E1; [|discriminate]. inv_some.
      destruct st; try discriminate.
      destruct (IHexec _ _ _ _ (Hold false) E1 eq_refl) as (st1 & Hr1 & Hp1).
      exists st1. cbn [run step]. split; [exact Hr1|exact I].
    - (* XCall *) cbn [chk] in Hc. rewrite H in Hc.
      destruct (chk E n h k s) as [[nb qb]|] eqn:E1; [|discriminate]. inv_some.
      destruct (IHexec _ _ _ _ _ E1 Ha) as (st' & Hr & Hp). exists st'. split; [exact Hr|].
      eapply post_ok_weaken; [exact Hp|]. apply res_le_join_l. destruct qb; reflexivity.
    - (* XCallRet *) cbn [chk] in Hc. rewrite H in Hc.
      destruct (chk E n h k s) as [[nb qb]|] eqn:E1; [|discriminate]. inv_some.
      destruct (IHexec _ _ _ _ _ E1 Ha) as (st' & Hr & Hp). exists st'. split; [exact Hr|].
      cbn in *. destruct nb as [x|]; cbn.
      + exists (x && qb). split; [reflexivity|]. eapply able_mono; [exact Hp|]. destruct x, qb; reflexivity.
      + exists qb. split; [reflexivity|exact Hp].
  Qed.

  (* a thread that uses the frontend only through its entry points passes the monitor *)
  Corollary thread_monitored t : thread_trace E entry t -> run Out t <> None.
  Proof.
    intros (o & Hx). destruct (chk_sound _ _ _ Hx _ _ _ _ Out chk_loop_entry eq_refl) as (st' & Hr & _).
    congruence.
  Qed.
End Sound.

Definition tid := nat.
Definition owner := option tid.
Definition held_by (o : owner) (t : tid) : bool :=
  match o with Some t' => Nat.eqb t t' | None => false end.

(* what a non-re-entrant mutex allows *)
Fixpoint mutex_ok (o : owner) (g : list (tid * ev)) : bool :=
  match g with
  | [] => true
  | (t, Acq) :: r => match o with None => mutex_ok (Some t) r | Some _ => false end
  | (t, Rel) :: r => held_by o t && mutex_ok None r
  | _ :: r => mutex_ok o r
  end.

(* what a shared attribute allows: a test sees the last value written *)
Fixpoint dev_ok (d : bool) (g : list (tid * ev)) : bool :=
  match g with
  | [] => true
  | (_, EvTest b) :: r => Bool.eqb b d && dev_ok d r
  | (_, EvSet b) :: r => dev_ok b r
  | _ :: r => dev_ok d r
  end.

Definition proj (t : tid) (g : list (tid * ev)) : list ev :=
  map snd (filter (fun p => Nat.eqb (fst p) t) g).

(* the safety property: o = lock owner, bz = a driver call is in progress, d = device open *)
Fixpoint excl (o : owner) (bz d : bool) (g : list (tid * ev)) : bool :=
  match g with
  | [] => true
  | (t, e) :: r =>
    match e with
    | Acq => negb bz && excl (Some t) bz d r
    | Rel => negb bz && excl None bz d r
    | DevBegin _ => held_by o t && negb bz && d && excl o true d r
    | DevEnd _ => held_by o t && bz && excl o false d r
    | ConnectCall => held_by o t && negb bz && excl o bz d r
    | EvSet b => held_by o t && negb bz && excl o bz b r
    | EvTest _ | ExtCall _ => excl o bz d r
    end
  end.

Definition lst_of (o : owner) (bz kn : bool) (t : tid) : lst :=
  if held_by o t then (if bz then Busy else Hold kn) else Out.

Lemma proj_self t e r : proj t ((t, e) :: r) = e :: proj t r.
Proof. unfold proj. cbn. rewrite Nat.eqb_refl. reflexivity. Qed.
Lemma proj_other t u e r : Nat.eqb t u = false -> proj u ((t, e) :: r) = proj u r.
Proof. intro H. unfold proj. cbn. rewrite H. reflexivity. Qed.

(* a thread that does not hold the lock is outside *)
Lemma lst_of_not_owner o t u bz kn :
  o = None \/ held_by o t = true -> Nat.eqb t u = false -> lst_of o bz kn u = Out.
Proof.
  intros [->|Ho] Hu; [reflexivity|]. unfold lst_of. destruct o as [t'|]; [|discriminate]. cbn in *.
  apply Nat.eqb_eq in Ho. subst t'. rewrite Nat.eqb_sym, Hu. reflexivity.
Qed.

Theorem threads_safe g : forall o bz kn d,
  mutex_ok o g = true -> dev_ok d g = true ->
  (kn = true -> d = true) -> (bz = true -> kn = true /\ o <> None) ->
  (forall t, run (lst_of o bz kn t) (proj t g) <> None) ->
  excl o bz d g = true.
Proof.
  induction g as [|[t e] r IH]; intros o bz kn d Hm Hd Hk Hb Hw; [reflexivity|].
  pose proof (Hw t) as Ht. rewrite proj_self in Ht. cbn [run] in Ht.
  destruct (step (lst_of o bz kn t) e) as [s'|] eqn:Hs; [|congruence].
  (* what the induction hypothesis asks of the threads after the event: t is in s', the others keep
     their projection, and their state if it is the same under the new (o', bz', kn') *)
  assert (Hnext : forall o' bz' kn', lst_of o' bz' kn' t = s' ->
            (forall u, Nat.eqb t u = false -> lst_of o' bz' kn' u = lst_of o bz kn u) ->
            forall u, run (lst_of o' bz' kn' u) (proj u r) <> None).
  { intros o' bz' kn' Et Eo u. destruct (Nat.eqb t u) eqn:Hu.
    - apply Nat.eqb_eq in Hu. subst u. rewrite Et. exact Ht.
    - rewrite (Eo u Hu). specialize (Hw u). rewrite proj_other in Hw by exact Hu. exact Hw. }
  (* it is the same (Out) whenever the lock is free or with t, before and after *)
  assert (Hout : forall o' bz' kn', o = None \/ held_by o t = true -> o' = None \/ held_by o' t = true ->
            forall u, Nat.eqb t u = false -> lst_of o' bz' kn' u = lst_of o bz kn u).
  { intros o' bz' kn' H H' u Hu. rewrite !(lst_of_not_owner _ t u) by assumption. reflexivity. }
  unfold lst_of in Hs.
  destruct e; cbn [mutex_ok dev_ok excl] in *.
  - (* Acq *) destruct o as [t'|]; [discriminate|]. cbn in Hs. injection Hs as <-.
    assert (bz = false) as -> by (destruct bz; [destruct (Hb eq_refl) as [_ Hn]; congruence|reflexivity]).
    cbn. apply (IH (Some t) false false d Hm Hd); [discriminate|discriminate|].
    apply Hnext; [unfold lst_of; cbn; rewrite Nat.eqb_refl; reflexivity|].
    apply Hout; [auto|right; cbn; apply Nat.eqb_refl].
  - (* Rel *) apply andb_true_iff in Hm as [Ho Hm]. rewrite Ho in Hs.
    destruct bz; [discriminate|]. injection Hs as <-. cbn.
    apply (IH None false false d Hm Hd); [discriminate|discriminate|].
    apply Hnext; [reflexivity|]. apply Hout; auto.
  - (* DevBegin *) destruct (held_by o t) eqn:Ho; [|discriminate]. destruct bz; [discriminate|].
    destruct kn; [|discriminate]. injection Hs as <-. rewrite (Hk eq_refl) in *. cbn.
    apply (IH o true true true Hm Hd); [auto|split; [reflexivity|destruct o; discriminate]|].
    apply Hnext; [unfold lst_of; rewrite Ho; reflexivity|]. apply Hout; auto.
  - (* DevEnd *) destruct (held_by o t) eqn:Ho; [|discriminate]. destruct bz; [|discriminate].
    injection Hs as <-. cbn. destruct (Hb eq_refl) as [-> _].
    apply (IH o false true d Hm Hd); [auto|discriminate|].
    apply Hnext; [unfold lst_of; rewrite Ho; reflexivity|]. apply Hout; auto.
  - (* ConnectCall *) destruct (held_by o t) eqn:Ho; [|discriminate]. destruct bz; [discriminate|].
    injection Hs as <-. cbn. apply (IH o false kn d Hm Hd Hk Hb).
    apply Hnext; [unfold lst_of; rewrite Ho; reflexivity|reflexivity].
  - (* EvSet *) destruct (held_by o t) eqn:Ho; [|discriminate]. destruct bz; [discriminate|].
    injection Hs as <-. cbn. apply (IH o false b b Hm Hd); [auto|discriminate|].
    apply Hnext; [unfold lst_of; rewrite Ho; reflexivity|]. apply Hout; auto.
  - (* EvTest *) apply andb_true_iff in Hd as [Eb Hd]. apply Bool.eqb_prop in Eb. subst b.
    destruct (held_by o t) eqn:Ho.
    + destruct bz; [discriminate|]. injection Hs as <-.
      apply (IH o false (d || kn) d Hm Hd); [destruct d; auto|discriminate|].
      apply Hnext; [unfold lst_of; rewrite Ho; reflexivity|]. apply Hout; auto.
    + injection Hs as <-. apply (IH o bz kn d Hm Hd Hk Hb).
      apply Hnext; [unfold lst_of; rewrite Ho; reflexivity|reflexivity].
  - (* ExtCall *) destruct (held_by o t) eqn:Ho; [destruct bz; discriminate|].
    injection Hs as <-. apply (IH o bz kn d Hm Hd Hk Hb).
    apply Hnext; [unfold lst_of; rewrite Ho; reflexivity|reflexivity].
Qed.

(* events that need the device for themselves *)
Definition exclusive_ev (e : ev) : bool :=
  match e with DevBegin _ | EvSet _ | ConnectCall => true | _ => false end.

Lemma excl_busy_until_end g2 : forall o d t' e g3 u,
  excl o true d (g2 ++ (t', e) :: g3) = true -> exclusive_ev e = true -> o = Some u ->
  exists m, In (u, DevEnd m) g2.
Proof.
  induction g2 as [|[v a] g2 IH]; intros o d t' e g3 u Hx He Ho.
  - (* e itself is refused while a driver call is under way: each exclusive event asks for negb bz *)
    cbn [app excl] in Hx. destruct e; try discriminate He;
      cbn [negb] in Hx; rewrite ?andb_false_r, ?andb_false_l in Hx; discriminate Hx.
  - (* so are Acq, Rel, DevBegin, ConnectCall and EvSet at the head; EvTest and ExtCall do not change the state *)
    cbn [app excl] in Hx.
    destruct a as [| |m|m| |b|b|x]; cbn [negb] in Hx; rewrite ?andb_false_r, ?andb_false_l in Hx; try discriminate Hx.
    + (* DevEnd m, made by the owner u *)
      apply andb_true_iff in Hx. destruct Hx as [Hh _]. apply andb_true_iff in Hh. destruct Hh as [Hh _].
      subst o. cbn in Hh. apply Nat.eqb_eq in Hh. subst v. exists m. left. reflexivity.
    + (* EvTest *) destruct (IH _ _ _ _ _ _ Hx He Ho) as (m & Hin). exists m. right. exact Hin.
    + (* ExtCall *) destruct (IH _ _ _ _ _ _ Hx He Ho) as (m & Hin). exists m. right. exact Hin.
Qed.

Lemma excl_suffix g1 : forall o bz d g2, excl o bz d (g1 ++ g2) = true ->
  exists o' bz' d', excl o' bz' d' g2 = true.
Proof.
  induction g1 as [|[t e] g1 IH]; intros o bz d g2 H; [eauto|].
  cbn [app excl] in H. destruct e; repeat (apply andb_true_iff in H; destruct H as [? H]); eauto.
Qed.

(* no driver call, device write or device.connect of any thread falls between the begin and the
   end of a driver call *)
Theorem excl_no_overlap g o bz d : excl o bz d g = true ->
  forall g1 t m g2 t' e g3, g = g1 ++ (t, DevBegin m) :: g2 ++ (t', e) :: g3 ->
  exclusive_ev e = true -> exists m', In (t, DevEnd m') g2.
Proof.
  intros H g1 t m g2 t' e g3 -> He.
  destruct (excl_suffix _ _ _ _ _ H) as (o' & bz' & d' & H'). cbn [excl] in H'.
  apply andb_true_iff in H'. destruct H' as [H1 H2].
  apply andb_true_iff in H1. destruct H1 as [H1 _]. apply andb_true_iff in H1. destruct H1 as [Ho _].
  destruct o' as [u|]; [|discriminate]. cbn in Ho. apply Nat.eqb_eq in Ho. subst u.
  eapply excl_busy_until_end; eauto.
Qed.

(* the value of self.device ("not None") after a schedule prefix *)
Fixpoint dev_after (d : bool) (g : list (tid * ev)) : bool :=
  match g with
  | [] => d
  | (_, EvSet b) :: r => dev_after b r
  | _ :: r => dev_after d r
  end.
Fixpoint owner_after (o : owner) (g : list (tid * ev)) : owner :=
  match g with
  | [] => o
  | (t, Acq) :: r => owner_after (Some t) r
  | (_, Rel) :: r => owner_after None r
  | _ :: r => owner_after o r
  end.

(* every driver call is made by the thread that owns the lock, on an open device *)
Theorem excl_owner_open g1 : forall o bz d t m g3, excl o bz d (g1 ++ (t, DevBegin m) :: g3) = true ->
  owner_after o g1 = Some t /\ dev_after d g1 = true.
Proof.
  induction g1 as [|[u e] g1 IH]; intros o bz d t m g3 H.
  - cbn in H. repeat (apply andb_true_iff in H; destruct H as [H ?]).
    cbn. split; [|assumption]. destruct o as [t'|]; [|discriminate]. cbn in H. apply Nat.eqb_eq in H. congruence.
  - cbn [app excl] in H. destruct e; cbn [owner_after dev_after];
      repeat (apply andb_true_iff in H; destruct H as [? H]); eauto.
Qed.

Section Frontend.
  Variable E : env.
  Variable entry : stmt.
  Variable n0 : nat.
  Variable r0 : res.
  Hypothesis Hentry : chk E n0 false false entry = Some r0.

  Theorem frontend_safe g :
    mutex_ok None g = true -> dev_ok false g = true ->
    (forall t, thread_trace E entry (proj t g)) ->
    excl None false false g = true.
  Proof.
    intros Hm Hd Ht. apply (threads_safe g None false false false Hm Hd); [discriminate|discriminate|].
    intro t. unfold lst_of. cbn. eapply thread_monitored; eauto.
  Qed.
End Frontend.
