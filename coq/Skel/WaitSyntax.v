(* Skel/WaitSyntax.v - control skeletons for the wait/notify discipline of the LLCP sockets (C09).

   A skeleton is what is left of a method of nfc.llcp.tco (or of ServiceDiscovery in nfc.llcp.llc)
   after everything that does not touch the object's lock, its condition variables or its
   "closed" state (state.SHUTDOWN / snl is None) has been erased; super() calls and calls of other
   methods of the same object are inlined.  translate/skel_c09.py produces Gen/TcoSkel.v in this
   language from the source on every run (fail closed).

   Semantics: one thread executes one method on one object.  The object's lock is re-entrant; only
   the outermost `with` acquires and releases it.  wait() releases it completely and ends the
   current HOLD; the code after the wake-up is the next hold.  While the thread does not hold the
   lock other threads may change the object arbitrarily: on every outermost acquire and on every
   wake-up the flag `shut` takes an arbitrary value.  An execution yields the list of its holds
   ([hold]: closed on entry, closed on exit, did it write the closed state, which conditions did
   it notify_all, did it end in wait(c) or in a release).  Every statement can exit abruptly where
   Python can raise or return ([Exit], [May]); `with` releases on abrupt exit; [Blk] is a thread that
   is never resumed after a wait (the run may stop there). *)
From Coq Require Import List Bool Arith.
From NV Require Import Model.LlcLife.
Import ListNotations.

Inductive guard :=
| GShut                      (* self.state.SHUTDOWN / self.snl is None: true iff the object is closed *)
| GOpen                      (* a test that is false when the object is closed: state.ESTABLISHED,
                                LISTEN, CLOSED, CONNECT, CLOSE_WAIT, DISCONNECT, snl is not None *)
| GAny                       (* anything else *)
| GNot (g : guard) | GAnd (a b : guard) | GOr (a b : guard).

Inductive stmt :=
| Skip
| Seq (a b : stmt)
| If (g : guard) (a b : stmt)
| While (g : guard) (a : stmt)
| With (a : stmt)            (* with self.lock / with self.<condition>: *)
| Wait (c : cond) | NotifyAll (c : cond) | Notify (c : cond)
| Shut                       (* self.state.SHUTDOWN = True / self.snl = None *)
| SetOpen                    (* self.state.<any other> = True *)
| Exit                       (* return / raise *)
| May                        (* an operation that may raise (popleft -> IndexError, ...) *)
| Try (a h : stmt).          (* try: a  except ...: h *)

Record hold := mkHold { h_in : bool; h_out : bool; h_wrote : bool; h_nall : list cond; h_end : option cond }.
Inductive out := Norm | Abr | Blk.

(* depth: nesting of `with` on the object's lock; shut: the object is closed (meaningful while the
   lock is held); sin / wrote / nall: the current hold so far *)
Record cst := mkC { depth : nat; shut : bool; sin : bool; wrote : bool; nall : list cond }.

Fixpoint geval (c : cst) (g : guard) (v : bool) : Prop :=
  match g with
  | GShut => depth c = 0 \/ v = shut c
  | GOpen => depth c = 0 \/ shut c = false \/ v = false
  | GAny => True
  | GNot a => geval c a (negb v)
  | GAnd a b => exists va vb, geval c a va /\ geval c b vb /\ v = va && vb
  | GOr a b => exists va vb, geval c a va /\ geval c b vb /\ v = va || vb
  end.

Definition cur_hold (c : cst) (e : option cond) : hold := mkHold (sin c) (shut c) (wrote c) (nall c) e.
Definition set_depth (c : cst) (d : nat) : cst := mkC d (shut c) (sin c) (wrote c) (nall c).

Inductive exec : stmt -> cst -> list hold -> out -> cst -> Prop :=
| XSkip c : exec Skip c [] Norm c
| XSeqN a b c h1 c1 h2 o c2 : exec a c h1 Norm c1 -> exec b c1 h2 o c2 -> exec (Seq a b) c (h1 ++ h2) o c2
| XSeqA a b c h1 o c1 : exec a c h1 o c1 -> o <> Norm -> exec (Seq a b) c h1 o c1
| XIfT g a b c h o c1 : geval c g true -> exec a c h o c1 -> exec (If g a b) c h o c1
| XIfF g a b c h o c1 : geval c g false -> exec b c h o c1 -> exec (If g a b) c h o c1
| XWhileF g a c : geval c g false -> exec (While g a) c [] Norm c
| XWhileT g a c h1 c1 h2 o c2 : geval c g true -> exec a c h1 Norm c1 -> exec (While g a) c1 h2 o c2 ->
    exec (While g a) c (h1 ++ h2) o c2
| XWhileA g a c h1 o c1 : geval c g true -> exec a c h1 o c1 -> o <> Norm -> exec (While g a) c h1 o c1
| XWithOuter a c b h o c1 : depth c = 0 -> exec a (mkC 1 b b false []) h o c1 -> o <> Blk ->
    exec (With a) c (h ++ [cur_hold c1 None]) o (mkC 0 (shut c1) (shut c1) false [])
| XWithOuterBlk a c b h c1 : depth c = 0 -> exec a (mkC 1 b b false []) h Blk c1 -> exec (With a) c h Blk c1
| XWithInner a c d h o c1 : depth c = S d -> exec a (set_depth c (S (S d))) h o c1 ->
    exec (With a) c h o (set_depth c1 (S d))
| XWait cd c b : depth c <> 0 -> exec (Wait cd) c [cur_hold c (Some cd)] Norm (mkC (depth c) b b false [])
| XWaitBlk cd c : depth c <> 0 -> exec (Wait cd) c [cur_hold c (Some cd)] Blk c
| XWaitUnlocked cd c : depth c = 0 -> exec (Wait cd) c [] Abr c          (* RuntimeError: un-acquired lock *)
| XNotifyAll cd c : exec (NotifyAll cd) c [] Norm (mkC (depth c) (shut c) (sin c) (wrote c) (cd :: nall c))
| XNotify cd c : exec (Notify cd) c [] Norm c
| XShut c : exec Shut c [] Norm (mkC (depth c) true (sin c) true (nall c))
| XSetOpen c : exec SetOpen c [] Norm (mkC (depth c) false (sin c) (wrote c) (nall c))
| XExit c : exec Exit c [] Abr c
| XMayN c : exec May c [] Norm c
| XMayA c : exec May c [] Abr c
| XTryN a hd c h o c1 : exec a c h o c1 -> o <> Abr -> exec (Try a hd) c h o c1
| XTryA a hd c h1 c1 h2 o c2 : exec a c h1 Abr c1 -> exec hd c1 h2 o c2 -> exec (Try a hd) c (h1 ++ h2) o c2.

Lemma existsb_cond c cs : existsb (cond_eqb c) cs = true <-> In c cs.
Proof. rewrite existsb_exists. split.
  - intros (x & Hx & E). destruct c, x; cbn in E; try discriminate; exact Hx.
  - intro H. exists c. split; [exact H|destruct c; reflexivity]. Qed.

(* what WaitCheck guarantees for every hold (all: the condition variables of the object) *)
Definition hold_ok (all : list cond) (h : hold) : Prop :=
  (forall c, h_end h = Some c -> h_out h = false /\ In c all)       (* (i) wait only on an open object *)
  /\ (h_wrote h = true -> incl all (h_nall h)).                      (* (ii) closing notifies everything *)

(* the closed flag only changes by a write (a fact of the semantics, not of the check) *)
Definition hold_coh (h : hold) : Prop := h_in h = false -> h_out h = true -> h_wrote h = true.
Definition coh (c : cst) : Prop := sin c = false -> shut c = true -> wrote c = true.

(* two executions in a row *)
Lemma coherent_app h1 o1 c1 h2 o c2 :
  Forall hold_coh h1 /\ (o1 <> Blk -> coh c1) -> o1 <> Blk -> (coh c1 -> Forall hold_coh h2 /\ (o <> Blk -> coh c2)) ->
  Forall hold_coh (h1 ++ h2) /\ (o <> Blk -> coh c2).
Proof. intros (F1 & C1) Ho H2. destruct (H2 (C1 Ho)) as (F2 & C2). split; [apply Forall_app; auto|exact C2]. Qed.

Lemma exec_coherent s c hs o c' : exec s c hs o c' -> coh c -> Forall hold_coh hs /\ (o <> Blk -> coh c').
Proof.
  assert (C0 : forall d b, coh (mkC d b b false [])) by (unfold coh; cbn; congruence).
  induction 1; intro Hc; auto; try solve [split; [constructor|auto]].
  - (* Seq *) exact (coherent_app _ _ _ _ _ _ (IHexec1 Hc) ltac:(discriminate) IHexec2).
  - (* While *) exact (coherent_app _ _ _ _ _ _ (IHexec1 Hc) ltac:(discriminate) IHexec2).
  - (* With, outermost: the release ends a hold *) destruct (IHexec (C0 _ _)) as (F & C1).
    split; [apply Forall_app; split; [exact F|constructor; [exact (C1 H1)|constructor]]|auto].
  - (* Shut *) split; [constructor|]. intros _ _ _. reflexivity.
  - (* SetOpen *) split; [constructor|]. intros _ _. discriminate.
  - (* Try *) exact (coherent_app _ _ _ _ _ _ (IHexec1 Hc) ltac:(discriminate) IHexec2).
Qed.
