(* Skel/WaitCheck.v - the syntactic WaitCheck analysis (DESIGN.md 6.2) and its soundness.

   chk all s a: abstract interpretation of the skeleton s from the abstract state a.
     a_know = KOpen : the lock is held and a guard evaluated in THIS hold found the object open
              KShut : ... found it closed (or closed it)
     a_w = Some l   : on every path that has written the closed state in this hold, at least the
                      conditions l have been notify_all'ed in this hold (None: no such path)
     a_n = Some l   : the same for the paths that have not written it (None: no such path)
   The check fails (None) when
     (i)   a Wait is reached without KOpen (the state test was made before the lock was taken, or
           before an earlier wait of the same call), or on a condition that is not the object's,
     (ii)  a hold that may have written the closed state ends (wait / release) without having
           notified every condition of the object, or the closed state is written without the lock,
     (iii) is (i) for the code after a wake-up: a wait resets the knowledge to KUnk, so a second
           wait needs a new guard; paths that end in return / raise need nothing.
   Soundness (chk_sound): every hold of every execution satisfies hold_ok. *)
From Coq Require Import List Bool Arith Lia.
From NV Require Import Model.LlcLife Skel.WaitSyntax.
Import ListNotations.

Inductive know := KOpen | KShut | KUnk.
Record ast := mkA { a_depth : nat; a_know : know; a_w : option (list cond); a_n : option (list cond) }.

Definition mem (c : cond) (l : list cond) : bool := existsb (cond_eqb c) l.
Definition incl_b (l m : list cond) : bool := forallb (fun c => mem c m) l.
Definition know_eqb (a b : know) : bool := match a, b with KOpen, KOpen | KShut, KShut | KUnk, KUnk => true | _, _ => false end.
Definition join_set (x y : option (list cond)) : option (list cond) :=
  match x, y with
  | None, z | z, None => z
  | Some l, Some m => Some (filter (fun c => mem c m) l)
  end.
Definition set_eqb (x y : option (list cond)) : bool :=
  match x, y with
  | None, None => true
  | Some l, Some m => incl_b l m && incl_b m l
  | _, _ => false
  end.
Definition join_know (a b : know) : know := if know_eqb a b then a else KUnk.

Definition join (a b : ast) : option ast :=
  if Nat.eqb (a_depth a) (a_depth b) then
    Some (mkA (a_depth a) (join_know (a_know a) (a_know b)) (join_set (a_w a) (a_w b)) (join_set (a_n a) (a_n b)))
  else None.

(* join on "maybe unreachable" states; the outer option is failure *)
Definition join_opt (x y : option ast) : option (option ast) :=
  match x, y with
  | None, _ => Some y
  | _, None => Some x
  | Some a, Some b => match join a b with Some j => Some (Some j) | None => None end
  end.

Definition ast_eqb (a b : ast) : bool :=
  Nat.eqb (a_depth a) (a_depth b) && know_eqb (a_know a) (a_know b) && set_eqb (a_w a) (a_w b) && set_eqb (a_n a) (a_n b).

Definition set_know (a : ast) (k : know) : ast := mkA (a_depth a) k (a_w a) (a_n a).
Definition held (a : ast) : bool := negb (Nat.eqb (a_depth a) 0).

(* refine the abstract state by the outcome of a guard; inner None: infeasible; outer None: failure *)
Fixpoint assume (g : guard) (v : bool) (a : ast) : option (option ast) :=
  match g with
  | GShut => if v then (if held a then (if know_eqb (a_know a) KOpen then Some None else Some (Some (set_know a KShut)))
                        else Some (Some a))
             else (if held a then (if know_eqb (a_know a) KShut then Some None else Some (Some (set_know a KOpen)))
                   else Some (Some a))
  | GOpen => if v then (if held a then (if know_eqb (a_know a) KShut then Some None else Some (Some (set_know a KOpen)))
                        else Some (Some a))
             else Some (Some a)
  | GAny => Some (Some a)
  | GNot x => assume x (negb v) a
  | GAnd x y =>
      if v then match assume x true a with
                | Some (Some a1) => assume y true a1
                | r => r
                end
      else match assume x false a, assume y false a with
           | Some r1, Some r2 => join_opt r1 r2
           | _, _ => None
           end
  | GOr x y =>
      if v then match assume x true a, assume y true a with
                | Some r1, Some r2 => join_opt r1 r2
                | _, _ => None
                end
      else match assume x false a with
           | Some (Some a1) => assume y false a1
           | r => r
           end
  end.

Definition hold_check (all : list cond) (a : ast) : bool :=
  match a_w a with None => true | Some l => incl_b all l end.
Definition fresh_hold (d : nat) : ast := mkA d KUnk None (Some []).
Definition hold_check_opt (all : list cond) (x : option ast) : bool :=
  match x with None => true | Some a => hold_check all a end.

Definition res := option (option ast * option ast).     (* failure | (normal exit, abrupt exit) *)

(* loop invariant by iteration from the entry state; `chk` allows 12 rounds and fails (None) when they reach
   no fixed point *)
Fixpoint iter (k : nat) (body : ast -> res) (g : guard) (inv : ast) : option (ast * option ast) :=
  match k with
  | 0 => None
  | S k' =>
      match assume g true inv with
      | None => None
      | Some None => Some (inv, None)
      | Some (Some bi) =>
          match body bi with
          | None => None
          | Some (None, b) => Some (inv, b)
          | Some (Some an, b) =>
              match join inv an with
              | None => None
              | Some inv' => if ast_eqb inv' inv then Some (inv, b) else iter k' body g inv'
              end
          end
      end
  end.

Fixpoint chk (all : list cond) (s : stmt) (a : ast) : res :=
  match s with
  | Skip => Some (Some a, None)
  | Seq x y =>
      match chk all x a with
      | None => None
      | Some (None, b1) => Some (None, b1)
      | Some (Some a1, b1) =>
          match chk all y a1 with
          | None => None
          | Some (n2, b2) => match join_opt b1 b2 with Some b => Some (n2, b) | None => None end
          end
      end
  | If g x y =>
      let branch (r : option (option ast)) (z : stmt) : res :=
        match r with
        | None => None
        | Some None => Some (None, None)
        | Some (Some a1) => chk all z a1
        end in
      match branch (assume g true a) x, branch (assume g false a) y with
      | Some (n1, b1), Some (n2, b2) =>
          match join_opt n1 n2, join_opt b1 b2 with
          | Some n, Some b => Some (n, b)
          | _, _ => None
          end
      | _, _ => None
      end
  | While g x =>
      match iter 12 (chk all x) g a with
      | None => None
      | Some (inv, b) =>
          match assume g false inv with
          | None => None
          | Some n => Some (n, b)
          end
      end
  | With x =>
      match a_depth a with
      | 0 =>
          match chk all x (fresh_hold 1) with
          | None => None
          | Some (n, b) =>
              if hold_check_opt all n && hold_check_opt all b then
                Some (match n with None => None | Some _ => Some (fresh_hold 0) end,
                      match b with None => None | Some _ => Some (fresh_hold 0) end)
              else None
          end
      | S d =>
          match chk all x (mkA (S (S d)) (a_know a) (a_w a) (a_n a)) with
          | None => None
          | Some (n, b) =>
              let back (r : option ast) :=
                match r with None => None | Some r' => Some (mkA (S d) (a_know r') (a_w r') (a_n r')) end in
              Some (back n, back b)
          end
      end
  | Wait c =>
      if held a && know_eqb (a_know a) KOpen && hold_check all a && mem c all
      then Some (Some (fresh_hold (a_depth a)), None) else None
  | NotifyAll c => Some (Some (mkA (a_depth a) (a_know a) (option_map (cons c) (a_w a)) (option_map (cons c) (a_n a))), None)
  | Notify _ => Some (Some a, None)
  | Shut => if held a then Some (Some (mkA (a_depth a) KShut (join_set (a_w a) (a_n a)) None), None) else None
  | SetOpen => Some (Some (if held a then set_know a KOpen else a), None)
  | Exit => Some (None, Some a)
  | May => Some (Some a, Some a)
  | Try x h =>
      match chk all x a with
      | None => None
      | Some (n1, None) => Some (n1, None)
      | Some (n1, Some ab) =>
          match chk all h ab with
          | None => None
          | Some (n2, b2) => match join_opt n1 n2 with Some n => Some (n, b2) | None => None end
          end
      end
  end.

Definition waitcheck (all : list cond) (s : stmt) : bool :=
  match chk all s (fresh_hold 0) with Some _ => true | None => false end.

Definition covers (x : option (list cond)) (l : list cond) : Prop :=
  match x with Some m => incl m l | None => False end.
Definition knows (k : know) (closed : bool) : Prop :=
  match k with KOpen => closed = false | KShut => closed = true | KUnk => True end.
Definition gam (a : ast) (c : cst) : Prop :=
  depth c = a_depth a
  /\ (a_depth a <> 0 -> knows (a_know a) (shut c))
  /\ covers (if wrote c then a_w a else a_n a) (nall c).
Definition gam_opt (x : option ast) (c : cst) : Prop := match x with Some a => gam a c | None => False end.

Lemma mem_In c l : mem c l = true <-> In c l.
Proof. apply existsb_cond. Qed.
Lemma incl_b_incl l m : incl_b l m = true <-> incl l m.
Proof. unfold incl_b, incl. rewrite forallb_forall. split; intros H x Hx; apply mem_In; auto. Qed.

Lemma held_true a : held a = true <-> a_depth a <> 0.
Proof. unfold held. rewrite negb_true_iff. apply Nat.eqb_neq. Qed.

Lemma know_eqb_eq a b : know_eqb a b = true <-> a = b.
Proof. destruct a, b; cbn; split; intro; try reflexivity; discriminate. Qed.

Lemma covers_join_l x y l : covers x l -> covers (join_set x y) l.
Proof. destruct x as [m|], y as [m'|]; cbn; try tauto. intros H z Hz. apply filter_In in Hz. apply H, Hz. Qed.
Lemma covers_join_r x y l : covers y l -> covers (join_set x y) l.
Proof. destruct x as [m|], y as [m'|]; cbn; try tauto. intros H z Hz. apply filter_In in Hz. apply H, mem_In, Hz. Qed.
Lemma covers_eqb x y l : set_eqb x y = true -> covers x l -> covers y l.
Proof. destruct x as [m|], y as [m'|]; cbn; try discriminate; auto.
  intros E H z Hz. apply andb_true_iff in E. apply H. apply (proj1 (incl_b_incl _ _) (proj2 E)), Hz. Qed.

Lemma knows_join_l a b s : knows a s -> knows (join_know a b) s.
Proof. destruct a, b; cbn; auto. Qed.
Lemma knows_join_r a b s : knows b s -> knows (join_know a b) s.
Proof. destruct a, b; cbn; auto. Qed.

Lemma gam_join_l a b j c : join a b = Some j -> gam a c -> gam j c.
Proof. unfold join. destruct (Nat.eqb (a_depth a) (a_depth b)); [|discriminate]. intros [= <-] (D & K & N).
  repeat split; cbn; [exact D|auto using knows_join_l|].
  destruct (wrote c); apply covers_join_l; exact N. Qed.
Lemma gam_join_r a b j c : join a b = Some j -> gam b c -> gam j c.
Proof. unfold join. destruct (Nat.eqb_spec (a_depth a) (a_depth b)) as [E|]; [|discriminate]. intros [= <-] (D & K & N).
  rewrite <- E in K, D. repeat split; cbn; [exact D|auto using knows_join_r|].
  destruct (wrote c); apply covers_join_r; exact N. Qed.

Lemma gam_join_opt_l x y r c : join_opt x y = Some r -> gam_opt x c -> gam_opt r c.
Proof. destruct x as [a|], y as [b|]; cbn; try contradiction; [|intros [= <-]; auto].
  destruct (join a b) eqn:E; [|discriminate]. intros [= <-]. eapply gam_join_l; eauto. Qed.
Lemma gam_join_opt_r x y r c : join_opt x y = Some r -> gam_opt y c -> gam_opt r c.
Proof. destruct x as [a|], y as [b|]; cbn; try contradiction; [|intros [= <-]; auto].
  destruct (join a b) eqn:E; [|discriminate]. intros [= <-]. eapply gam_join_r; eauto. Qed.

Lemma gam_eqb a b c : ast_eqb a b = true -> gam a c -> gam b c.
Proof. unfold ast_eqb. intros H (D & K & N). repeat (apply andb_true_iff in H; destruct H as (H & ?)).
  apply Nat.eqb_eq in H. apply know_eqb_eq in H2. rewrite H in *. rewrite H2 in *.
  repeat split; auto. destruct (wrote c); eapply covers_eqb; eauto. Qed.

Lemma gam_set_know a c k : gam a c -> knows k (shut c) -> gam (set_know a k) c.
Proof. intros (D & K & N) H. repeat split; cbn; auto. Qed.

(* what assume promises unless it fails: the refined state still describes c (and is not "infeasible") *)
Definition sound_opt (c : cst) (x : option (option ast)) : Prop :=
  match x with Some r => gam_opt r c | None => True end.

Section assume.
  Variable c : cst.
  Lemma ok_then r1 (f : ast -> option (option ast)) :
    sound_opt c r1 -> (forall a1, gam a1 c -> sound_opt c (f a1)) -> sound_opt c (match r1 with Some (Some a1) => f a1 | Some None => Some None | None => None end).
  Proof. destruct r1 as [[a1|]|]; cbn; auto. Qed.
  Lemma ok_join_l r1 r2 : sound_opt c r1 -> sound_opt c (match r1, r2 with Some x, Some y => join_opt x y | _, _ => None end).
  Proof. destruct r1 as [x|], r2 as [y|]; cbn; auto. intro H.
    destruct (join_opt x y) eqn:E; cbn; [eapply gam_join_opt_l; eauto|exact I]. Qed.
  Lemma ok_join_r r1 r2 : sound_opt c r2 -> sound_opt c (match r1, r2 with Some x, Some y => join_opt x y | _, _ => None end).
  Proof. destruct r1 as [x|], r2 as [y|]; cbn; auto. intro H.
    destruct (join_opt x y) eqn:E; cbn; [eapply gam_join_opt_r; eauto|exact I]. Qed.

  Lemma assume_sound g : forall v a, geval c g v -> gam a c -> sound_opt c (assume g v a).
  Proof.
    induction g as [| | |x IH|x IHx y IHy|x IHx y IHy]; intros v a Hg G; cbn in Hg |- *.
    - destruct (held a) eqn:Eh; [|destruct v; exact G].
      apply held_true in Eh. pose proof G as (D & K & _). specialize (K Eh).
      destruct Hg as [Hg|Hg]; [congruence|].
      destruct v, (a_know a); cbn in K |- *; try congruence; apply gam_set_know; cbn; auto.
    - destruct v; [|exact G]. destruct (held a) eqn:Eh; [|exact G].
      apply held_true in Eh. pose proof G as (D & K & _). specialize (K Eh).
      destruct Hg as [Hg|[Hg|Hg]]; [congruence| |discriminate].
      destruct (a_know a); cbn in K |- *; try congruence; apply gam_set_know; cbn; auto.
    - exact G.
    - apply IH; assumption.
    - destruct Hg as (va & vb & Ga & Gb & ->). destruct va, vb; cbn [andb].
      + apply ok_then; auto.
      + apply ok_join_r; auto.
      + apply ok_join_l; auto.
      + apply ok_join_l; auto.
    - destruct Hg as (va & vb & Ga & Gb & ->). destruct va, vb; cbn [orb].
      + apply ok_join_l; auto.
      + apply ok_join_l; auto.
      + apply ok_join_r; auto.
      + apply ok_then; auto.
  Qed.
End assume.

Definition post (r : option ast * option ast) (o : out) (c : cst) : Prop :=
  match o with Norm => gam_opt (fst r) c | Abr => gam_opt (snd r) c | Blk => True end.

Lemma gam_fresh d b : gam (fresh_hold d) (mkC d b b false []).
Proof. repeat split; cbn; auto. intros z []. Qed.

(* (ii) at the end of a hold *)
Lemma hold_check_ok all a c e :
  hold_check all a = true -> gam a c ->
  (forall cd, e = Some cd -> shut c = false /\ In cd all) -> hold_ok all (cur_hold c e).
Proof. intros H (D & K & N) He. split; [exact He|]. cbn. intro Hw. rewrite Hw in N.
  unfold hold_check in H. destruct (a_w a); [|contradiction].
  apply incl_b_incl in H. intros x Hx. apply N, H, Hx. Qed.

(* (i) and (ii) at a Wait *)
Lemma wait_sound all cd a r c :
  chk all (Wait cd) a = Some r -> gam a c ->
  depth c <> 0 /\ hold_ok all (cur_hold c (Some cd)) /\ r = (Some (fresh_hold (depth c)), None).
Proof. cbn. intros Hc G.
  destruct (held a) eqn:Hheld, (know_eqb (a_know a) KOpen) eqn:Hk, (hold_check all a) eqn:Hh, (mem cd all) eqn:Hm;
    try discriminate.
  apply held_true in Hheld. apply know_eqb_eq in Hk. apply mem_In in Hm. pose proof G as (D & K & _).
  rewrite D. split; [exact Hheld|]. split; [|inversion Hc; reflexivity].
  apply (hold_check_ok _ a); auto. intros ? [= <-]. specialize (K Hheld). rewrite Hk in K. auto. Qed.

(* inner `with`: the depth moves between non-zero values *)
Lemma gam_set_depth a c d : gam a c -> a_depth a <> 0 ->
  gam (mkA d (a_know a) (a_w a) (a_n a)) (set_depth c d).
Proof. intros (D & K & N) Ha. repeat split; cbn; auto. Qed.

Lemma exec_depth s c hs o c' : exec s c hs o c' -> o <> Blk -> depth c' = depth c.
Proof. induction 1; intro Hb; cbn; auto; try congruence.
  all: rewrite IHexec2 by assumption; apply IHexec1; discriminate.
Qed.

(* the invariant the iteration stops at: it covers the entry state, it is a fixed point (iterating from it
   stops at once with the same result), and one turn of the loop from it leads back into it *)
Lemma iter_spec k body g : forall a inv b, iter k body g a = Some (inv, b) ->
  (forall c, gam a c -> gam inv c) /\
  (forall k', iter (S k') body g inv = Some (inv, b)) /\
  (forall c, gam inv c -> geval c g true ->
     exists bi n, gam bi c /\ body bi = Some (n, b) /\ forall c1, gam_opt n c1 -> gam inv c1).
Proof.
  induction k as [|k IH]; intros a inv b H; cbn in H; [discriminate|].
  assert (Hg : forall c, gam a c -> geval c g true -> sound_opt c (assume g true a))
    by (intros; apply assume_sound; assumption).
  destruct (assume g true a) as [[bi|]|] eqn:Ea; [| |discriminate].
  - destruct (body bi) as [[[an|] bb]|] eqn:Eb; [| |discriminate].
    + destruct (join a an) as [inv'|] eqn:Ej; [|discriminate].
      destruct (ast_eqb inv' a) eqn:Ee.
      * inversion H; subst. split; [auto|]. split; [intro; cbn; rewrite Ea, Eb, Ej, Ee; reflexivity|].
        intros c G Hgt. exists bi, (Some an). split; [exact (Hg c G Hgt)|]. split; [exact Eb|].
        intros c1 G1. eapply gam_eqb; eauto. eapply gam_join_r; eauto.
      * destruct (IH _ _ _ H) as (A & B). split; [|exact B].
        intros c G. apply A. eapply gam_join_l; eauto.
    + inversion H; subst. split; [auto|]. split; [intro; cbn; rewrite Ea, Eb; reflexivity|].
      intros c G Hgt. exists bi, None. split; [exact (Hg c G Hgt)|]. split; [exact Eb|]. intros c1 [].
  - inversion H; subst. split; [auto|]. split; [intro; cbn; rewrite Ea; reflexivity|].
    intros c G Hgt. destruct (Hg c G Hgt).
Qed.

Section sound.
  Variable all : list cond.

  Lemma while_spec g x a r : chk all (While g x) a = Some r -> exists inv,
    (forall c, gam a c -> gam inv c) /\ chk all (While g x) inv = Some r /\ assume g false inv = Some (fst r) /\
    (forall c, gam inv c -> geval c g true ->
       exists bi n, gam bi c /\ chk all x bi = Some (n, snd r) /\ forall c1, gam_opt n c1 -> gam inv c1).
  Proof. cbn [chk]. intro Hc.
    destruct (iter 12 (chk all x) g a) as [[inv b]|] eqn:Ei; [|discriminate].
    destruct (iter_spec _ _ _ _ _ _ Ei) as (A & B & C). exists inv. rewrite B.
    destruct (assume g false inv) as [n|]; [|discriminate]. inversion Hc; subst. auto. Qed.

  Theorem chk_sound s c hs o c' : exec s c hs o c' ->
    forall a r, chk all s a = Some r -> gam a c -> Forall (hold_ok all) hs /\ post r o c'.
  Proof.
    induction 1; intros a0 r Hc G;
      try solve [injection Hc as <-; split; [constructor|exact G]].   (* Skip, Notify, Exit, May hand the state on *)
    - (* Seq, both run *) cbn in Hc.
      destruct (chk all a a0) as [[[a1|] b1]|] eqn:E1; [| |discriminate].
      + destruct (chk all b a1) as [[n2 b2]|] eqn:E2; [|discriminate].
        destruct (join_opt b1 b2) as [bj|] eqn:Ej; inversion Hc; subst.
        destruct (IHexec1 _ _ E1 G) as (F1 & G1). destruct (IHexec2 _ _ E2 G1) as (F2 & P2).
        split; [apply Forall_app; auto|]. destruct o; cbn in *; auto. eapply gam_join_opt_r; eauto.
      + destruct (IHexec1 _ _ E1 G) as (_ & []).
    - (* Seq, the first part exits *) cbn in Hc.
      destruct (chk all a a0) as [[[a1|] b1]|] eqn:E1; [| |discriminate].
      + destruct (chk all b a1) as [[n2 b2]|] eqn:E2; [|discriminate].
        destruct (join_opt b1 b2) as [bj|] eqn:Ej; inversion Hc; subst.
        destruct (IHexec _ _ E1 G) as (F1 & P1). split; [exact F1|].
        destruct o; try contradiction; cbn in *; auto. eapply gam_join_opt_l; eauto.
      + inversion Hc; subst. destruct (IHexec _ _ E1 G) as (F1 & P1). split; [exact F1|].
        destruct o; try contradiction; auto.
    - (* If, true *) cbn in Hc. pose proof (assume_sound c g true a0 H G) as S.
      destruct (assume g true a0) as [[a1|]|]; [|destruct S|discriminate].
      destruct (chk all a a1) as [[n1 b1]|] eqn:E1; [|discriminate].
      destruct (match assume g false a0 with None => None | Some None => Some (None, None) | Some (Some a2) => chk all b a2 end)
        as [[n2 b2]|]; [|discriminate].
      destruct (join_opt n1 n2) as [n|] eqn:Ejn; [|discriminate].
      destruct (join_opt b1 b2) as [bj|] eqn:Ejb; inversion Hc; subst.
      destruct (IHexec _ _ E1 S) as (F & P). split; [exact F|].
      destruct o; cbn in *; auto; eapply gam_join_opt_l; eauto.
    - (* If, false *) cbn in Hc. pose proof (assume_sound c g false a0 H G) as S.
      destruct (match assume g true a0 with None => None | Some None => Some (None, None) | Some (Some a1) => chk all a a1 end)
        as [[n1 b1]|]; [|discriminate].
      destruct (assume g false a0) as [[a2|]|]; [|destruct S|discriminate].
      destruct (chk all b a2) as [[n2 b2]|] eqn:E2; [|discriminate].
      destruct (join_opt n1 n2) as [n|] eqn:Ejn; [|discriminate].
      destruct (join_opt b1 b2) as [bj|] eqn:Ejb; inversion Hc; subst.
      destruct (IHexec _ _ E2 S) as (F & P). split; [exact F|].
      destruct o; cbn in *; auto; eapply gam_join_opt_r; eauto.
    - (* While, the guard fails *)
      destruct (while_spec _ _ _ _ Hc) as (inv & Hin & _ & Ef & _). split; [constructor|].
      pose proof (assume_sound c g false inv H (Hin _ G)) as S. rewrite Ef in S. exact S.
    - (* While, one turn and the rest *)
      destruct (while_spec _ _ _ _ Hc) as (inv & Hin & Hc' & _ & Hturn).
      destruct (Hturn c (Hin _ G) H) as (bi & n & Gb & Ex & Hback).
      destruct (IHexec1 _ _ Ex Gb) as (F1 & P1). destruct (IHexec2 _ _ Hc' (Hback _ P1)) as (F2 & P2).
      split; [apply Forall_app; auto|exact P2].
    - (* While, the body exits *)
      destruct (while_spec _ _ _ _ Hc) as (inv & Hin & _ & _ & Hturn).
      destruct (Hturn c (Hin _ G) H) as (bi & n & Gb & Ex & _).
      destruct (IHexec _ _ Ex Gb) as (F1 & P1). split; [exact F1|].
      destruct o; try contradiction; auto.
    - (* With, outermost *) cbn in Hc. rewrite <- (proj1 G), H in Hc.
      destruct (chk all a (fresh_hold 1)) as [[n bb]|] eqn:E1; [|discriminate].
      destruct (hold_check_opt all n) eqn:Hn, (hold_check_opt all bb) eqn:Hb; inversion Hc; subst.
      destruct (IHexec _ _ E1 (gam_fresh 1 b)) as (F & P).
      assert (L : forall x, hold_check_opt all x = true -> gam_opt x c1 ->
                hold_ok all (cur_hold c1 None) /\
                gam_opt (match x with None => None | Some _ => Some (fresh_hold 0) end) (mkC 0 (shut c1) (shut c1) false [])).
      { intros [ax|] Hx Gx; [|destruct Gx]. split; [|apply gam_fresh].
        eapply hold_check_ok; eauto. intros; discriminate. }
      destruct o; try contradiction; cbn in P; [destruct (L _ Hn P) as (L1 & L2)|destruct (L _ Hb P) as (L1 & L2)];
        (split; [apply Forall_app; split; [exact F|constructor; [exact L1|constructor]]|exact L2]).
    - (* With, outermost, never resumed *) cbn in Hc. rewrite <- (proj1 G), H in Hc.
      destruct (chk all a (fresh_hold 1)) as [[n bb]|] eqn:E1; [|discriminate].
      destruct (IHexec _ _ E1 (gam_fresh 1 b)) as (F & _). split; [exact F|exact I].
    - (* With, inner *) cbn in Hc. pose proof G as (D & _). rewrite <- D, H in Hc.
      assert (Ha : a_depth a0 <> 0) by congruence.
      destruct (chk all a (mkA (S (S d)) (a_know a0) (a_w a0) (a_n a0))) as [[n bb]|] eqn:E1; inversion Hc; subst.
      destruct (IHexec _ _ E1 (gam_set_depth _ _ (S (S d)) G Ha)) as (F & P). split; [exact F|].
      pose proof (exec_depth _ _ _ _ _ H0) as Hdep. cbn in Hdep.
      assert (L : forall x, gam_opt x c1 -> depth c1 = S (S d) ->
                gam_opt (match x with None => None | Some r' => Some (mkA (S d) (a_know r') (a_w r') (a_n r')) end)
                        (set_depth c1 (S d))).
      { intros [ax|] Gx Hd; [|destruct Gx]. apply gam_set_depth; [exact Gx|].
        destruct Gx as (Dx & _). congruence. }
      destruct o; cbn in *; auto; apply L; auto; apply Hdep; discriminate.
    - (* Wait *) destruct (wait_sound _ _ _ _ _ Hc G) as (_ & Hh & ->).
      split; [constructor; [exact Hh|constructor]|apply gam_fresh].
    - (* Wait, never resumed *) destruct (wait_sound _ _ _ _ _ Hc G) as (_ & Hh & ->).
      split; [constructor; [exact Hh|constructor]|exact I].
    - (* Wait without the lock *) destruct (wait_sound _ _ _ _ _ Hc G) as (Hd & _). contradiction.
    - (* NotifyAll *) inversion Hc; subst. split; [constructor|]. destruct G as (D & K & N).
      repeat split; cbn; auto.
      destruct (wrote c), (a_w a0), (a_n a0); cbn in *; try contradiction; auto using incl_cons, in_eq, incl_tl.
    - (* Shut *) cbn in Hc. destruct (held a0); inversion Hc; subst. split; [constructor|].
      destruct G as (D & K & N). repeat split; cbn; auto.
      destruct (wrote c); [apply covers_join_l|apply covers_join_r]; exact N.
    - (* SetOpen *) inversion Hc; subst. split; [constructor|]. destruct G as (D & K & N). cbn.
      destruct (held a0) eqn:E; repeat split; cbn; auto.
      intro X. apply held_true in X. congruence.
    - (* Try, no exception *) cbn in Hc.
      destruct (chk all a a0) as [[n1 [ab|]]|] eqn:E1; [| |discriminate].
      + destruct (chk all hd ab) as [[n2 b2]|] eqn:E2; [|discriminate].
        destruct (join_opt n1 n2) as [n|] eqn:Ej; inversion Hc; subst.
        destruct (IHexec _ _ E1 G) as (F & P). split; [exact F|].
        destruct o; try contradiction; cbn in *; auto. eapply gam_join_opt_l; eauto.
      + inversion Hc; subst. destruct (IHexec _ _ E1 G) as (F & P). split; [exact F|].
        destruct o; try contradiction; auto.
    - (* Try, the handler runs *) cbn in Hc.
      destruct (chk all a a0) as [[n1 [ab|]]|] eqn:E1; [| |discriminate].
      + destruct (chk all hd ab) as [[n2 b2]|] eqn:E2; [|discriminate].
        destruct (join_opt n1 n2) as [n|] eqn:Ej; inversion Hc; subst.
        destruct (IHexec1 _ _ E1 G) as (F1 & G1). destruct (IHexec2 _ _ E2 G1) as (F2 & P2).
        split; [apply Forall_app; auto|]. destruct o; cbn in *; auto. eapply gam_join_opt_r; eauto.
      + destruct (IHexec1 _ _ E1 G) as (_ & []).
  Qed.
End sound.

(* waitcheck_sound: a method that passes the check, started without the lock, only produces holds
   that (i) wait on an open object and on its own conditions, (ii) notify everything when closing *)
Theorem waitcheck_sound all s :
  waitcheck all s = true ->
  forall b hs o c', exec s (mkC 0 b b false []) hs o c' -> Forall (hold_ok all) hs.
Proof.
  unfold waitcheck. intro H. destruct (chk all s (fresh_hold 0)) as [r|] eqn:E; [|discriminate].
  intros b hs o c' He. exact (proj1 (chk_sound all _ _ _ _ _ He _ _ E (gam_fresh 0 b))).
Qed.
