(* Skel/WaitSys.v - any number of threads executing checked methods on any number of objects.

   A step of the system is one HOLD of one thread on one object (the unit that runs atomically
   because all conditions of an object are built on its single lock): the hold starts from the
   object's current closed flag, satisfies hold_ok (what WaitCheck guarantees), notifies the
   conditions in h_nall, leaves the closed flag h_out and ends in wait(c) - the thread is then
   blocked on (o, c) - or in a release.  A blocked thread can only take a step after it has been
   notified (by notify_all of a hold, or by a single notify / time-out: SNotify).

   wait_sys_invariant: "blocked and not notified => the object is not closed" holds in every
   reachable state, for all schedules.  Hence: once an object is closed no thread stays blocked on
   it without a pending notification, and no thread can newly block on it. *)
From Coq Require Import List Bool Arith Lia.
From NV Require Import Model.LlcLife Skel.WaitSyntax.
Import ListNotations.

Record sys := mkSys {
  oshut : nat -> bool;                              (* object -> closed *)
  tblk : nat -> option (nat * cond * bool)          (* thread -> blocked on (object, condition, notified) *)
}.

Section Sys.
  Variable conds : nat -> list cond.                (* the condition variables of each object *)

  Definition wake (f : nat -> option (nat * cond * bool)) (o : nat) (cs : list cond) : nat -> option (nat * cond * bool) :=
    fun t => match f t with
             | Some (o', c, false) => if Nat.eqb o' o && existsb (cond_eqb c) cs then Some (o', c, true) else f t
             | x => x
             end.

  Inductive sstep : sys -> sys -> Prop :=
  | SHold s t o h :
      (tblk s t = None \/ exists c, tblk s t = Some (o, c, true)) ->
      h_in h = oshut s o -> hold_ok (conds o) h -> hold_coh h ->
      sstep s (mkSys (upd (oshut s) o (h_out h))
                     (upd (wake (tblk s) o (h_nall h)) t
                          (match h_end h with Some c => Some (o, c, false) | None => None end)))
  | SNotify s t o c :
      tblk s t = Some (o, c, false) ->
      sstep s (mkSys (oshut s) (upd (tblk s) t (Some (o, c, true)))).

  Definition sinv (s : sys) : Prop :=
    forall t o c b, tblk s t = Some (o, c, b) -> In c (conds o) /\ (b = false -> oshut s o = false).

  (* a thread that wake leaves blocked and un-notified was so before, and the notification was not for it *)
  Lemma wake_inv f o cs t o' c b : wake f o cs t = Some (o', c, b) ->
    exists b0, f t = Some (o', c, b0) /\ (b = false -> b0 = false /\ (o' = o -> ~ In c cs)).
  Proof.
    unfold wake. destruct (f t) as [[[o2 c2] [|]]|]; [| |discriminate].
    - intros [= -> -> <-]. exists true. split; [reflexivity|discriminate].
    - destruct (Nat.eqb_spec o2 o) as [->|N], (existsb (cond_eqb c2) cs) eqn:E; cbn; intros [= -> -> <-];
        exists false; (split; [reflexivity|]); try discriminate; intros _; (split; [reflexivity|]); try contradiction.
      intros _ Hin. apply existsb_cond in Hin. congruence.
  Qed.

  Lemma sstep_inv s s' : sinv s -> sstep s s' -> sinv s'.
  Proof.
    intros HI Hs. destruct Hs as [s t o h Hrun Hin Hok Hcoh|s t o c Hb]; intros t' o' c' b' E; cbn in E |- *; unfold upd in E.
    - destruct (Nat.eqb_spec t' t) as [->|Nt].
      + (* the thread that ran the hold: it waits on an open object *)
        destruct (h_end h) as [ce|] eqn:Ee; [|discriminate]. inversion E; subst.
        destruct (proj1 Hok _ Ee) as (Ho & Hc). split; [exact Hc|]. intros _. unfold upd. rewrite Nat.eqb_refl. exact Ho.
      + (* another thread, still un-notified: on the object of this hold only if the hold does not close it *)
        destruct (wake_inv _ _ _ _ _ _ _ E) as (b0 & Et & Hb). destruct (HI _ _ _ _ Et) as (Hc & Hopen).
        split; [exact Hc|]. intro Eb. destruct (Hb Eb) as (-> & Hnot). specialize (Hopen eq_refl).
        unfold upd. destruct (Nat.eqb_spec o' o) as [->|No]; [|exact Hopen].
        destruct (h_out h) eqn:Eo; [|reflexivity]. rewrite <- Hin in Hopen.
        (* the hold closes an open object: it wrote the flag (hold_coh), so it notified everything (hold_ok) *)
        destruct (Hnot eq_refl (proj2 Hok (Hcoh Hopen Eo) _ Hc)).
    - destruct (Nat.eqb_spec t' t) as [->|Nt]; [|exact (HI _ _ _ _ E)].
      inversion E; subst. split; [exact (proj1 (HI _ _ _ _ Hb))|discriminate].
  Qed.
End Sys.

(* reachability and the theorem over all schedules *)
Inductive sreach (conds : nat -> list cond) (s0 : sys) : sys -> Prop :=
| SR0 : sreach conds s0 s0
| SRS s s' : sreach conds s0 s -> sstep conds s s' -> sreach conds s0 s'.

Theorem wait_sys_invariant conds s0 s :
  (forall t, tblk s0 t = None) -> sreach conds s0 s ->
  forall t o c, tblk s t = Some (o, c, false) -> oshut s o = false.
Proof.
  intros H0 Hr. assert (HI : sinv conds s).
  { induction Hr; [|eapply sstep_inv; eauto]. intros t o c b E. rewrite H0 in E. discriminate. }
  intros t o c E. destruct (HI _ _ _ _ E) as (_ & X). apply X. reflexivity.
Qed.
