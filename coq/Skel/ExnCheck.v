(* ExnCheck (C13): a finite-set analysis of the exception classes that can leave a statement,
   proved sound once against the semantics of Skel/ExnSyntax.v. *)
From Coq Require Import ZArith List Bool String Lia.
From NV Require Import Skel.ExnSyntax.
Import ListNotations.
Open Scope Z_scope.

Lemma mem_In c l : mem c l = true <-> In c l.
Proof. unfold mem. rewrite existsb_exists. split.
  - intros [x [Hx E]]. apply Z.eqb_eq in E. subst. exact Hx.
  - intro H. exists c. split; [exact H|apply Z.eqb_refl]. Qed.

Section Esc.
  Variable S : string -> list cls.            (* summary: classes that can escape from each function *)

  Fixpoint esc (cur : list cls) (s : stmt) : list cls :=
    match s with
    | Skip | Return | Break => []
    | Seq a b | Choice a b => esc cur a ++ esc cur b
    | Loop b => esc cur b
    | Prim _ r => r
    | Raise c _ => [c]
    | Reraise => cur
    | IfErrno _ a b => esc cur a ++ esc cur b
    | Try b hs => esc_h (esc cur b) hs
    | Finally b f => esc cur b ++ esc cur f
    | Call f => S f
    end
  with esc_h (pending : list cls) (hs : handlers) : list cls :=
    match hs with
    | HNil => pending
    | HCons pat h tl =>
        let caught := filter (fun c => mem c pat) pending in
        let rest := filter (fun c => negb (mem c pat)) pending in
        (match caught with [] => [] | _ => esc caught h end) ++ esc_h rest tl
    end.

  Lemma esc_h_caught : forall hs pending c h, In c pending -> find_handler hs c = Some h ->
    exists caught, In c caught /\ incl (esc caught h) (esc_h pending hs).
  Proof.
    induction hs as [|pat h0 tl IH]; intros pending c h Hin Hf; cbn in Hf; [discriminate|].
    cbn [esc_h]. destruct (mem c pat) eqn:M.
    - inversion Hf; subst h0. exists (filter (fun c => mem c pat) pending).
      assert (Hc : In c (filter (fun c => mem c pat) pending)) by (apply filter_In; split; assumption).
      split; [exact Hc|].
      destruct (filter (fun c => mem c pat) pending) eqn:F; [destruct Hc|].
      apply incl_appl, incl_refl.
    - assert (Hr : In c (filter (fun c => negb (mem c pat)) pending)).
      { apply filter_In. split; [assumption|]. rewrite M. reflexivity. }
      destruct (IH _ c h Hr Hf) as [caught [H1 H2]]. exists caught. split; [exact H1|].
      apply incl_appr, H2.
  Qed.

  Lemma esc_h_uncaught : forall hs pending c, In c pending -> find_handler hs c = None ->
    In c (esc_h pending hs).
  Proof.
    induction hs as [|pat h0 tl IH]; intros pending c Hin Hf; cbn in *; [exact Hin|].
    destruct (mem c pat) eqn:M; [discriminate|].
    apply in_or_app. right. apply IH; [|exact Hf].
    apply filter_In. split; [assumption|]. rewrite M. reflexivity.
  Qed.

  Definition ok_summary (P : program) : Prop :=
    forall f body, lookup P f = Some body -> incl (esc [] body) (S f).

  Theorem esc_sound P (HS : ok_summary P) : forall cur s o, exec P cur s o ->
    forall e, o = OExc e -> forall curset, (forall c, cur = Some c -> In (ecls c) curset) ->
    In (ecls e) (esc curset s).
  Proof.
    induction 1; intros ex Ho curset Hcur; cbn [esc]; try discriminate;
      try solve [rewrite ?in_app_iff; eauto].   (* the rules that pass on what a sub-statement raised *)
    - (* PrimExc *) inversion Ho; subst. cbn. assumption.
    - inversion Ho; subst. cbn. left. reflexivity.
    - inversion Ho; subst. cbn. left. reflexivity.
    - (* Reraise *) inversion Ho; subst. apply Hcur. reflexivity.
    - (* TryPass *) subst o. exfalso. eapply H0. reflexivity.
    - (* TryCaught *)
      assert (Hb : In (ecls e) (esc curset b)) by (eapply IHexec1; eauto).
      destruct (esc_h_caught hs _ _ _ Hb H0) as [caught [Hc Hincl]].
      apply Hincl. eapply IHexec2; [exact Ho|]. intros c Ec. inversion Ec; subst. exact Hc.
    - (* TryUncaught *) inversion Ho; subst.
      apply esc_h_uncaught; [|assumption]. eapply IHexec; eauto.
    - (* Call *) destruct o; cbn in Ho; try discriminate. inversion Ho; subst.
      apply (HS _ _ H). eapply IHexec; [reflexivity|]. intros c Ec. discriminate.
  Qed.
End Esc.

Theorem ok_summary_sound S P : ok_summary S P -> forall f c, can_escape P f c -> In c (S f).
Proof.
  intros OK f c [body [e [L [X E]]]]. apply (OK _ _ L). subst c.
  eapply esc_sound; [exact OK|exact X|reflexivity|]. intros c0 Ec. discriminate.
Qed.

Definition summary := list (string * list cls).
Definition slookup (S : summary) (f : string) : list cls :=
  match find (fun p => String.eqb (fst p) f) S with Some p => snd p | None => [] end.
Definition subsetb (a b : list cls) : bool := forallb (fun x => mem x b) a.

Lemma subsetb_incl a b : subsetb a b = true -> incl a b.
Proof. unfold subsetb. rewrite forallb_forall. intros H x Hx. apply mem_In, H, Hx. Qed.

Definition summary_okb (P : program) (S : summary) : bool :=
  forallb (fun p => subsetb (esc (slookup S) [] (snd p)) (slookup S (fst p))) P.

Lemma lookup_In P : forall f body, lookup P f = Some body -> In (f, body) P.
Proof. induction P as [|[g b] t IH]; intros f body H; cbn in H; [discriminate|].
  destruct (String.eqb_spec g f) as [->|_]; [injection H as ->; left; reflexivity|right; exact (IH _ _ H)]. Qed.

Lemma summary_okb_sound P S : summary_okb P S = true -> ok_summary (slookup S) P.
Proof. unfold summary_okb, ok_summary. rewrite forallb_forall. intros H f body L.
  apply subsetb_incl. exact (H _ (lookup_In _ _ _ L)). Qed.

Fixpoint dedup (l : list cls) : list cls :=
  match l with [] => [] | x :: t => if mem x t then dedup t else x :: dedup t end.

Definition step (P : program) (S : summary) : summary :=
  map (fun p => (fst p, dedup (slookup S (fst p) ++ esc (slookup S) [] (snd p)))) P.
Fixpoint solve (fuel : nat) (P : program) (S : summary) : summary :=
  match fuel with
  | O => S
  | Datatypes.S n => if summary_okb P S then S else solve n P (step P S)
  end.
Definition init (P : program) : summary := map (fun p => (fst p, [])) P.
(* 64 rounds of fuel: were they too few, `solution P` would fail `summary_okb` and `closedb` below answer false *)
Definition solution (P : program) : summary := solve 64 P (init P).

(* the set of classes that can escape from function f *)
Definition escapes (P : program) (f : string) : list cls := slookup (solution P) f.
(* ... is a subset of `allowed`, and the summary it comes from is inductive *)
Definition closedb (P : program) (f : string) (allowed : list cls) : bool :=
  summary_okb P (solution P) && subsetb (escapes P f) allowed.

Theorem exncheck_sound : forall P f allowed, closedb P f allowed = true ->
  forall c, can_escape P f c -> In c allowed.
Proof.
  intros P f allowed H c Hc. unfold closedb in H. apply andb_true_iff in H as [H1 H2].
  apply (subsetb_incl _ _ H2). exact (ok_summary_sound _ _ (summary_okb_sound _ _ H1) f c Hc).
Qed.

(* every escaping exception is in the computed set (no reference to an allowed set) *)
Theorem escapes_sound : forall P f, summary_okb P (solution P) = true ->
  forall c, can_escape P f c -> In c (escapes P f).
Proof. intros P f H. exact (ok_summary_sound _ _ (summary_okb_sound _ _ H) f). Qed.

(* `solution` looks every callee up by name at every call site in every round, and evaluation in the kernel
   compares names character by character: below the names are resolved to positions once, and compared
   from their last character, since the names of one program share long prefixes. *)
Fixpoint srev (s acc : string) : string :=
  match s with EmptyString => acc | String c t => srev t (String c acc) end.
Definition key (f : string) : string := srev f EmptyString.

Lemma srev_srev s : forall acc, srev (srev s acc) EmptyString = srev acc s.
Proof. induction s as [|c s IH]; intro acc; [reflexivity|apply IH]. Qed.

Lemma key_eqb a b : String.eqb (key a) (key b) = String.eqb a b.
Proof.
  destruct (String.eqb_spec a b) as [->|N]; [apply String.eqb_refl|].
  apply String.eqb_neq. intro E. apply N.
  rewrite <- (srev_srev a EmptyString : key (key a) = a), E. apply srev_srev.
Qed.

Fixpoint index (k : string) (ks : list string) : nat :=
  match ks with [] => O | g :: t => if String.eqb g k then O else S (index k t) end.
Definition keys {A} (l : list (string * A)) : list string := map (fun p => key (fst p)) l.

Lemma lookup_index P f : lookup P f = nth_error (map snd P) (index (key f) (keys P)).
Proof.
  induction P as [|[g b] P IH]; cbn -[key]; [reflexivity|].
  rewrite key_eqb. destruct (String.eqb g f); [reflexivity|exact IH].
Qed.

Inductive istmt :=
| IPrim (r : list cls) | ISeq (a b : istmt) | IReraise | ITry (b : istmt) (hs : ihandlers) | ICall (i : nat)
with ihandlers := IHNil | IHCons (pat : list cls) (h : istmt) (tl : ihandlers).

Section Resolve.
  Variable ks : list string.
  Fixpoint resolve (s : stmt) : istmt :=
    match s with
    | Skip | Return | Break => IPrim []
    | Seq a b | Choice a b | IfErrno _ a b | Finally a b => ISeq (resolve a) (resolve b)
    | Loop b => resolve b
    | Prim _ r => IPrim r
    | Raise c _ => IPrim [c]
    | Reraise => IReraise
    | Try b hs => ITry (resolve b) (resolve_h hs)
    | Call f => ICall (index (key f) ks)
    end
  with resolve_h (hs : handlers) : ihandlers :=
    match hs with HNil => IHNil | HCons pat h tl => IHCons pat (resolve h) (resolve_h tl) end.
End Resolve.

Section IEsc.
  Variable T : list (list cls).
  Fixpoint iesc (cur : list cls) (s : istmt) : list cls :=
    match s with
    | IPrim r => r
    | ISeq a b => iesc cur a ++ iesc cur b
    | IReraise => cur
    | ITry b hs => iesc_h (iesc cur b) hs
    | ICall i => nth i T []
    end
  with iesc_h (pending : list cls) (hs : ihandlers) : list cls :=
    match hs with
    | IHNil => pending
    | IHCons pat h tl =>
        let caught := filter (fun c => mem c pat) pending in
        let rest := filter (fun c => negb (mem c pat)) pending in
        (match caught with [] => [] | _ => iesc caught h end) ++ iesc_h rest tl
    end.
End IEsc.

Fixpoint esc_resolved S ks T (H : forall f, S f = nth (index (key f) ks) T []) s :
  forall cur, esc S cur s = iesc T cur (resolve ks s)
with esc_h_resolved S ks T (H : forall f, S f = nth (index (key f) ks) T []) hs :
  forall pending, esc_h S pending hs = iesc_h T pending (resolve_h ks hs).
Proof.
  - destruct s; intro cur; cbn; rewrite ?(esc_resolved S ks T H), ?(esc_h_resolved S ks T H); try reflexivity. apply H.
  - destruct hs; intro pending; cbn; rewrite ?(esc_resolved S ks T H), ?(esc_h_resolved S ks T H); reflexivity.
Qed.

Fixpoint forallb2 {A B} (f : A -> B -> bool) (l : list A) (l' : list B) : bool :=
  match l, l' with
  | [], [] => true
  | a :: l, b :: l' => f a b && forallb2 f l l'
  | _, _ => false
  end.

Lemma forallb2_nth_error {A B} (f : A -> B -> bool) d : forall l l' i a,
  forallb2 f l l' = true -> nth_error l i = Some a -> f a (nth i l' d) = true.
Proof.
  induction l as [|x l IH]; intros [|y l'] [|i] a H E; try discriminate; cbn in *;
    apply andb_true_iff in H as [H1 H2]; [injection E as <-; exact H1|exact (IH _ _ _ H2 E)].
Qed.

(* A table that one round leaves stable bounds what can escape, however it was found.  T holds one set
   for each function of P, in the order of P; each body is checked against the set at its own position
   (for a name defined twice, lookup and index both mean the first definition). *)
Definition stableb (P : program) (T : list (list cls)) : bool :=
  let ks := keys P in
  forallb2 (fun body t => subsetb (iesc T [] (resolve ks body)) t) (map snd P) T.

Theorem stable_sound P T : stableb P T = true ->
  forall f c, can_escape P f c -> In c (nth (index (key f) (keys P)) T []).
Proof.
  intro H. apply (ok_summary_sound (fun f => nth (index (key f) (keys P)) T [])).
  intros f body L. rewrite lookup_index in L.
  rewrite (esc_resolved _ (keys P) T (fun _ => eq_refl)). apply subsetb_incl.
  exact (forallb2_nth_error _ [] _ _ _ _ H L).
Qed.

Corollary stable_closed T P f allowed :
  stableb P T && subsetb (nth (index (key f) (keys P)) T []) allowed = true ->
  forall c, can_escape P f c -> In c allowed.
Proof.
  intros H c Hc. apply andb_true_iff in H as [H1 H2].
  apply (subsetb_incl _ _ H2). exact (stable_sound _ _ H1 f c Hc).
Qed.

(* proves "what escapes from f in P is in allowed": the solution is computed by the tactic, the kernel
   is left with checking that it is stable (one round) and within the allowed set *)
Ltac closed_by_table P :=
  let T := eval vm_compute in (map snd (solution P)) in refine (stable_closed T _ _ _ _); vm_compute; reflexivity.
