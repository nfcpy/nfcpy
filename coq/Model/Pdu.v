(* LLCP protocol data units: executable, crash-explicit model of nfcpy src/nfc/llcp/pdu.py
   (the tree with the C11 repairs fixes/c11-1..4 applied).

   Self-contained (only Base.Result / Base.Bytes).  Reused by C07 (robustness) and C10 (pdu_len).

   What is modelled, function by function:
     Parameter.decode(data, offset, size)          param_decode      (TLV, per-type length rules, masking)
     Parameter.encode(T, V)                        param_encode
     ProtocolDataUnit.decode_header / encode_header        decode_header / encode_header
     NumberedProtocolDataUnit.decode_header / encode_header  decode_nheader / encode_nheader
     <Class>.decode(data, offset, size)            dec_symm dec_pax dec_agf dec_ui dec_connect dec_disc dec_cc dec_dm
                                                   dec_frmr dec_snl dec_dps dec_info dec_rr dec_rnr dec_unknown
     <Class>.encode / __len__                      encode / pdu_len
     decode(data, offset, size) (module level)     decode
   Conventions:
     * data is a list Z of bytes; every read goes through [rd] (absolute index into [data], as in the code).
       A struct.unpack_from / data[i] that is NOT inside a try block of the source is [rdc c]: reading out of
       range is [Crash c] (struct.error = StructErr, IndexError = IndexErr); inside `try: .. except struct.error:
       raise DecodeError` it is [Err DecodeError].
     * x >> k, x & m, x << k | y are Z.shiftr / Z.land / Z.shiftl / Z.lor as in the source.
     * `while` loops carry fuel (number of bytes still to be consumed, every iteration consumes >= 2); [Hang] on
       exhaustion is proved unreachable (Proofs/PduTotal.v, decode_total).
     * offset >= 0 is a precondition of all theorems (a negative offset makes struct.unpack_from index from the end;
       no caller in nfcpy does that).
     * Python recursion: after fix c11-4 an AGF inside an AGF is rejected before the recursive call, the call depth of
       decode is therefore bounded by 2 frames and no depth counter is needed (on the unrepaired tree nesting
       depth 498 = 1994 bytes raised RecursionError; this is finding agf-nesting, repaired by c11-4).
       encode / __len__ recurse over hand-built nested AggregatedFrame objects; these are modelled by structural
       recursion (RecursionError for objects nested deeper than CPython's limit is outside the model; a valid PDU
       has nesting depth <= 1).
     * nfc.llcp.pdu.EncodeError is not one of Base.Result.err, encode therefore has its own result type [eres].
   For users of this model (C07, C10):
     Proofs/PduWin.v    decode_char  : decode data off size = DecodeError if off+size > len data or size < 2, else
                                       decode_w (slice data off (off+size))   (decode_w = decoder on the PDU's own bytes)
                        decode_local : decode (pre ++ w ++ post) (len pre) (len w) = decode w 0 (len w)
     Proofs/PduTotal.v  decode_total : for offset >= 0 and bytes_ok data, decode returns Ok _ or Err DecodeError
                        decode_valid : decode .. = Ok p -> valid (norm p)      (field ranges of everything decode returns)
     Proofs/PduLen.v    len_encode   : encode p = EOk b -> pdu_len p = len b
     Bridge/Pdu.v       bridge_len   : the __len__ methods regenerated from the source are pdu_len
     Model/PduSpec.v    denotes      : independent reading of the frame formats; Proofs/PduSound.v decode_sound *)
From Coq Require Import ZArith List Bool.
From NV Require Import Base.Result Base.Bytes.
Import ListNotations.
Open Scope Z_scope.

(* ------------------------------------------------------------------ PDUs *)
Inductive pdu :=
| Symm (dsap ssap : Z)
| Pax (dsap ssap : Z) (version miux wks lto opt : option Z)          (* _version _miux _wks _lto _opt *)
| Agf (dsap ssap : Z) (aggregate : list pdu)
| UI (dsap ssap : Z) (data : list Z)
| Connect (dsap ssap : Z) (miu rw : Z) (sn : option (list Z))
| Disc (dsap ssap : Z)
| CC (dsap ssap : Z) (miu rw : Z)
| DM (dsap ssap : Z) (reason : Z)
| Frmr (dsap ssap : Z) (flags ptype ns nr vs vr vsa vra : Z)
| Snl (dsap ssap : Z) (sdreq : list (Z * list Z)) (sdres : list (Z * Z))
| Dps (dsap ssap : Z) (ecpk rn : option (list Z))
| Info (dsap ssap : Z) (ns nr : Z) (data : list Z)
| RR (dsap ssap : Z) (nr : Z)
| RNR (dsap ssap : Z) (nr : Z)
| Unknown (ptype dsap ssap : Z) (payload : list Z).

(* decoded parameter (the V of Parameter.decode together with its T) *)
Inductive tlv :=
| TVersion (v : Z) | TMiux (v : Z) | TWks (v : Z) | TLto (v : Z) | TRw (v : Z) | TSn (b : list Z) | TOpt (v : Z)
| TSdreq (tid : Z) (sn : list Z) | TSdres (tid sap : Z) | TEcpk (b : list Z) | TRn (b : list Z)
| TOther (T : Z) (b : list Z).

(* ------------------------------------------------------------------ reading *)
Definition rd (d : list Z) (i : Z) : option Z := if i <? 0 then None else nth_error d (Z.to_nat i).
Definition rdc (c : crash) (d : list Z) (i : Z) : res Z := match rd d i with Some x => Ok x | None => Crash c end.

(* ------------------------------------------------------------------ Parameter.decode *)
(* interpretation of (T, L, V); V has been unpacked with '%ds' % L, so len V = L *)
Definition tlv_interp (T L : Z) (V : list Z) : res tlv :=
  if T =? 1 then if negb (L =? 1) then Err DecodeError else match V with [v] => Ok (TVersion v) | _ => Crash StructErr end
  else if T =? 2 then if negb (L =? 2) then Err DecodeError else
       match V with [a; b] => Ok (TMiux (Z.land (a * 256 + b) 2047)) | _ => Crash StructErr end
  else if T =? 3 then if negb (L =? 2) then Err DecodeError else
       match V with [a; b] => Ok (TWks (a * 256 + b)) | _ => Crash StructErr end
  else if T =? 4 then if negb (L =? 1) then Err DecodeError else match V with [v] => Ok (TLto v) | _ => Crash StructErr end
  else if T =? 5 then if negb (L =? 1) then Err DecodeError else
       match V with [v] => Ok (TRw (Z.land v 15)) | _ => Crash StructErr end
  else if T =? 6 then Ok (TSn V)
  else if T =? 7 then if negb (L =? 1) then Err DecodeError else
       match V with [v] => Ok (TOpt (Z.land v 7)) | _ => Crash StructErr end
  else if T =? 8 then if L =? 0 then Err DecodeError else
       match V with tid :: sn => Ok (TSdreq tid sn) | [] => Crash StructErr end
  else if T =? 9 then if negb (L =? 2) then Err DecodeError else
       match V with [a; b] => Ok (TSdres a b) | _ => Crash StructErr end
  else if T =? 10 then Ok (TEcpk V)
  else if T =? 11 then Ok (TRn V)
  else Ok (TOther T V).

(* returns (L, value).  [size] is the number of bytes left in the PDU (fix c11-2). *)
Definition param_decode (data : list Z) (offset size : Z) : res (Z * tlv) :=
  match rd data offset, rd data (offset + 1) with
  | Some T, Some L =>
      if offset + 2 + L >? len data then Err DecodeError            (* struct.error -> DecodeError *)
      else if 2 + L >? size then Err DecodeError                    (* TLV exceeds the PDU *)
      else do t <- tlv_interp T L (slice data (offset + 2) (offset + 2 + L)); Ok (L, t)
  | _, _ => Err DecodeError
  end.

(* `while size >= 2: T, L, V = Parameter.decode(data, offset, size); <step>; offset, size = offset+2+L, size-2-L` *)
Fixpoint tlv_loop (fuel : nat) (step : pdu -> tlv -> pdu) (data : list Z) (offset size : Z) (st : pdu) : res pdu :=
  if size <? 2 then Ok st else
  match fuel with
  | O => Hang
  | S f => do (L, t) <- param_decode data offset size;
           tlv_loop f step data (offset + 2 + L) (size - 2 - L) (step st t)
  end.

(* ------------------------------------------------------------------ headers *)
Definition decode_header (data : list Z) (offset size : Z) : res (Z * Z) :=
  if size <? 2 then Err DecodeError else
  do d <- rdc StructErr data offset; do s <- rdc StructErr data (offset + 1);
  Ok (Z.shiftr d 2, Z.land s 63).
Definition decode_nheader (data : list Z) (offset size : Z) : res (Z * Z * Z * Z) :=
  if size <? 3 then Err DecodeError else
  do d <- rdc StructErr data offset; do s <- rdc StructErr data (offset + 1); do q <- rdc StructErr data (offset + 2);
  Ok (Z.shiftr d 2, Z.land s 63, Z.shiftr q 4, Z.land q 15).

(* ------------------------------------------------------------------ per-class decode *)
Definition dec_symm data offset size : res pdu :=
  do (dsap, ssap) <- decode_header data offset size;
  if negb (dsap =? 0) || negb (ssap =? 0) then Err DecodeError else
  if size >=? 3 then Err DecodeError else Ok (Symm dsap ssap).

Definition pax_step (p : pdu) (t : tlv) : pdu :=
  match p with
  | Pax d s v m w l o =>
      match t with
      | TVersion x => Pax d s (Some x) m w l o | TMiux x => Pax d s v (Some x) w l o
      | TWks x => Pax d s v m (Some x) l o | TLto x => Pax d s v m w (Some x) o
      | TOpt x => Pax d s v m w l (Some x) | _ => p
      end
  | _ => p
  end.
Definition dec_pax data offset size : res pdu :=
  do (dsap, ssap) <- decode_header data offset size;
  if negb (dsap =? 0) || negb (ssap =? 0) then Err DecodeError else
  tlv_loop (Z.to_nat (size - 2)) pax_step data (offset + 2) (size - 2) (Pax dsap ssap None None None None None).

Definition dec_ui data offset size : res pdu :=
  do (dsap, ssap) <- decode_header data offset size;
  Ok (UI dsap ssap (slice data (offset + 2) (offset + size))).

Definition connect_step (p : pdu) (t : tlv) : pdu :=
  match p with
  | Connect d s miu rw sn =>
      match t with
      | TMiux x => Connect d s (128 + x) rw sn | TRw x => Connect d s miu x sn | TSn b => Connect d s miu rw (Some b)
      | _ => p
      end
  | _ => p
  end.
Definition dec_connect data offset size : res pdu :=
  do (dsap, ssap) <- decode_header data offset size;
  tlv_loop (Z.to_nat (size - 2)) connect_step data (offset + 2) (size - 2) (Connect dsap ssap 128 1 None).

Definition dec_disc data offset size : res pdu :=
  do (dsap, ssap) <- decode_header data offset size; Ok (Disc dsap ssap).

Definition cc_step (p : pdu) (t : tlv) : pdu :=
  match p with
  | CC d s miu rw => match t with TMiux x => CC d s (128 + x) rw | TRw x => CC d s miu x | _ => p end
  | _ => p
  end.
Definition dec_cc data offset size : res pdu :=
  do (dsap, ssap) <- decode_header data offset size;
  tlv_loop (Z.to_nat (size - 2)) cc_step data (offset + 2) (size - 2) (CC dsap ssap 128 1).

Definition dec_dm data offset size : res pdu :=
  if negb (size =? 3) then Err DecodeError else
  do (dsap, ssap) <- decode_header data offset size;
  do r <- rdc StructErr data (offset + 2); Ok (DM dsap ssap r).

Definition dec_frmr data offset size : res pdu :=
  if negb (size =? 6) then Err DecodeError else
  do (dsap, ssap) <- decode_header data offset size;
  do b0 <- rdc StructErr data (offset + 2); do b1 <- rdc StructErr data (offset + 3);
  do b2 <- rdc StructErr data (offset + 4); do b3 <- rdc StructErr data (offset + 5);
  Ok (Frmr dsap ssap (Z.shiftr b0 4) (Z.land b0 15) (Z.shiftr b1 4) (Z.land b1 15)
           (Z.shiftr b2 4) (Z.land b2 15) (Z.shiftr b3 4) (Z.land b3 15)).

Definition snl_step (p : pdu) (t : tlv) : pdu :=
  match p with
  | Snl d s rq rs =>
      match t with
      | TSdreq tid sn => Snl d s (rq ++ [(tid, sn)]) rs | TSdres tid sap => Snl d s rq (rs ++ [(tid, sap)]) | _ => p
      end
  | _ => p
  end.
Definition dec_snl data offset size : res pdu :=
  do (dsap, ssap) <- decode_header data offset size;
  if negb (dsap =? 1) || negb (ssap =? 1) then Err DecodeError else
  tlv_loop (Z.to_nat (size - 2)) snl_step data (offset + 2) (size - 2) (Snl dsap ssap [] []).

Definition dps_step (p : pdu) (t : tlv) : pdu :=
  match p with
  | Dps d s e r => match t with TEcpk b => Dps d s (Some b) r | TRn b => Dps d s e (Some b) | _ => p end
  | _ => p
  end.
Definition dec_dps data offset size : res pdu :=
  do (dsap, ssap) <- decode_header data offset size;
  if negb (dsap =? 0) || negb (ssap =? 0) then Err DecodeError else
  tlv_loop (Z.to_nat (size - 2)) dps_step data (offset + 2) (size - 2) (Dps dsap ssap None None).

Definition dec_info data offset size : res pdu :=
  do (dsap, ssap, ns, nr) <- decode_nheader data offset size;
  Ok (Info dsap ssap ns nr (slice data (offset + 3) (offset + size))).
Definition dec_rr data offset size : res pdu :=
  do (dsap, ssap, ns, nr) <- decode_nheader data offset size; Ok (RR dsap ssap nr).
Definition dec_rnr data offset size : res pdu :=
  do (dsap, ssap, ns, nr) <- decode_nheader data offset size; Ok (RNR dsap ssap nr).

Definition dec_unknown data offset size : res pdu :=
  do (dsap, ssap) <- decode_header data offset size;
  do a <- rdc IndexErr data offset; do b <- rdc IndexErr data (offset + 1);
  Ok (Unknown (Z.land (Z.lor (Z.shiftl a 2) (Z.shiftr b 6)) 15) dsap ssap (slice data (offset + 2) (offset + size))).

(* ------------------------------------------------------------------ decode() and AggregatedFrame.decode *)
(* module-level decode, with the decoder used for ptype 0010 as a parameter *)
Definition decode_gen (agf : list Z -> Z -> Z -> res pdu) (data : list Z) (offset size : Z) : res pdu :=
  if offset + size >? len data then Err DecodeError else
  if size <? 2 then Err DecodeError else
  do a <- rdc StructErr data offset; do b <- rdc StructErr data (offset + 1);
  let ptype := Z.land (Z.shiftr (a * 256 + b) 6) 15 in
  if ptype =? 0 then dec_symm data offset size
  else if ptype =? 1 then dec_pax data offset size
  else if ptype =? 2 then agf data offset size
  else if ptype =? 3 then dec_ui data offset size
  else if ptype =? 4 then dec_connect data offset size
  else if ptype =? 5 then dec_disc data offset size
  else if ptype =? 6 then dec_cc data offset size
  else if ptype =? 7 then dec_dm data offset size
  else if ptype =? 8 then dec_frmr data offset size
  else if ptype =? 9 then dec_snl data offset size
  else if ptype =? 10 then dec_dps data offset size
  else if ptype =? 12 then dec_info data offset size
  else if ptype =? 13 then dec_rr data offset size
  else if ptype =? 14 then dec_rnr data offset size
  else dec_unknown data offset size.

(* decode(data, offset+2, pdu_size) as called from AggregatedFrame.decode: the header peek of fix c11-4 raises
   DecodeError for ptype 0010 before the call; every check of decode() that precedes the dispatch raises
   DecodeError as well, so peek + call is decode_gen with DecodeError in the AGF slot *)
Definition decode_sub : list Z -> Z -> Z -> res pdu := decode_gen (fun _ _ _ => Err DecodeError).

Fixpoint agf_loop (fuel : nat) (data : list Z) (offset size : Z) (acc : list pdu) : res (list pdu) :=
  if size <=? 0 then Ok acc else
  match fuel with
  | O => Hang
  | S f =>
      if size <? 2 then Err DecodeError else                          (* fix c11-3 *)
      match rd data offset, rd data (offset + 1) with
      | Some h, Some l =>
          let n := h * 256 + l in
          if n >? size - 2 then Err DecodeError else                  (* fix c11-3 *)
          do p <- decode_sub data (offset + 2) n;
          agf_loop f data (offset + 2 + n) (size - 2 - n) (acc ++ [p])
      | _, _ => Err DecodeError
      end
  end.
Definition dec_agf data offset size : res pdu :=
  do (dsap, ssap) <- decode_header data offset size;
  if negb (dsap =? 0) || negb (ssap =? 0) then Err DecodeError else
  do l <- agf_loop (Z.to_nat (size - 2)) data (offset + 2) (size - 2) [];
  Ok (Agf dsap ssap l).

Definition decode : list Z -> Z -> Z -> res pdu := decode_gen dec_agf.

(* ------------------------------------------------------------------ encode *)
Inductive eres (A : Type) := EOk (a : A) | EEncodeError | ECrash (c : crash).
Arguments EOk {A} a. Arguments EEncodeError {A}. Arguments ECrash {A} c.
Definition ebind {A B} (r : eres A) (f : A -> eres B) : eres B :=
  match r with EOk a => f a | EEncodeError => EEncodeError | ECrash c => ECrash c end.
Notation "'edo' x <- r ; k" := (ebind r (fun x => k)) (at level 200, x pattern, r at level 100, k at level 200).

Definition in_range (lo hi x : Z) : bool := (lo <=? x) && (x <=? hi).
(* struct.pack('B', v) inside Parameter.encode's try block *)
Definition packB (v : Z) : eres (list Z) := if in_range 0 255 v then EOk [v] else EEncodeError.
Definition packH (v : Z) : eres (list Z) := if in_range 0 65535 v then EOk [v / 256; v mod 256] else EEncodeError.

Definition param_encode (t : tlv) : eres (list Z) :=
  match t with
  | TVersion v => edo b <- packB v; EOk ([1; 1] ++ b)
  | TMiux v => edo b <- packH v; EOk ([2; 2] ++ b)
  | TWks v => edo b <- packH v; EOk ([3; 2] ++ b)
  | TLto v => edo b <- packB v; EOk ([4; 1] ++ b)
  | TRw v => edo b <- packB v; EOk ([5; 1] ++ b)
  | TSn b => if len b >? 255 then EEncodeError else EOk ([6; len b] ++ b)
  | TOpt v => edo b <- packB v; EOk ([7; 1] ++ b)
  | TSdreq tid sn => if len sn >? 254 then EEncodeError else edo b <- packB tid; EOk ([8; 1 + len sn] ++ b ++ sn)
  | TSdres tid sap => edo a <- packB tid; edo b <- packB sap; EOk ([9; 2] ++ a ++ b)
  | TEcpk b => if len b >? 255 then EEncodeError else EOk ([10; len b] ++ b)
  | TRn b => if len b >? 255 then EEncodeError else EOk ([11; len b] ++ b)
  | TOther _ _ => EEncodeError
  end.

Definition encode_header (ptype dsap ssap : Z) : eres (list Z) :=
  if (dsap <? 0) || (ssap <? 0) then EEncodeError else
  if (dsap >? 63) || (ssap >? 63) then EEncodeError else
  let v := Z.lor (Z.lor (Z.shiftl dsap 10) (Z.shiftl ptype 6)) ssap in
  if in_range 0 65535 v then EOk [v / 256; v mod 256] else ECrash StructErr.
Definition encode_nheader (ptype dsap ssap ns nr : Z) : eres (list Z) :=
  edo h <- encode_header ptype dsap ssap;
  if (ns <? 0) || (nr <? 0) then EEncodeError else
  if (ns >? 15) || (nr >? 15) then EEncodeError else
  EOk (h ++ [Z.lor (Z.shiftl ns 4) nr]).

(* struct.pack('!B', v) outside any try block: struct.error escapes *)
Definition rawB (v : Z) : eres (list Z) := if in_range 0 255 v then EOk [v] else ECrash StructErr.

Definition opt_tlv (o : option Z) (mk : Z -> tlv) : eres (list Z) :=
  match o with Some v => param_encode (mk v) | None => EOk [] end.
(* `if self.sn:` - None and the empty string are both skipped *)
Definition optb_tlv (o : option (list Z)) (mk : list Z -> tlv) : eres (list Z) :=
  match o with Some (x :: b) => param_encode (mk (x :: b)) | _ => EOk [] end.

Definition emapM {A B} (f : A -> eres B) : list A -> eres (list B) :=
  fix go (l : list A) : eres (list B) :=
  match l with
  | [] => EOk []
  | x :: r => edo y <- f x; edo ys <- go r; EOk (y :: ys)
  end.
Definition econcat (l : eres (list (list Z))) : eres (list Z) := edo x <- l; EOk (concat x).

(* data += struct.pack('!H', len(encoded_pdu)) + encoded_pdu, for the already encoded members *)
Fixpoint agf_body (encs : list (list Z)) : eres (list Z) :=
  match encs with
  | [] => EOk []
  | e :: r => if in_range 0 65535 (len e) then edo t <- agf_body r; EOk ([len e / 256; len e mod 256] ++ e ++ t)
              else ECrash StructErr
  end.

Fixpoint encode (p : pdu) : eres (list Z) :=
  match p with
  | Symm d s => if negb (d =? 0) || negb (s =? 0) then EEncodeError else encode_header 0 d s
  | Pax d s v m w l o =>
      if negb (d =? 0) || negb (s =? 0) then EEncodeError else
      edo h <- encode_header 1 d s;
      edo a <- opt_tlv v TVersion; edo b <- opt_tlv m TMiux; edo c <- opt_tlv w TWks;
      edo e <- opt_tlv l TLto; edo f <- opt_tlv o TOpt;
      EOk (h ++ a ++ b ++ c ++ e ++ f)
  | Agf d s ps =>
      if negb (d =? 0) || negb (s =? 0) then EEncodeError else
      edo h <- encode_header 2 d s;
      edo encs <- emapM encode ps;
      edo body <- agf_body encs;
      EOk (h ++ body)
  | UI d s data => edo h <- encode_header 3 d s; EOk (h ++ data)
  | Connect d s miu rw sn =>
      edo h <- encode_header 4 d s;
      edo a <- (if miu >? 128 then param_encode (TMiux (miu - 128)) else EOk []);
      edo b <- (if negb (rw =? 1) then param_encode (TRw rw) else EOk []);            (* fix c11-1 *)
      edo c <- optb_tlv sn TSn;
      EOk (h ++ a ++ b ++ c)
  | Disc d s => encode_header 5 d s
  | CC d s miu rw =>
      edo h <- encode_header 6 d s;
      edo a <- (if miu >? 128 then param_encode (TMiux (miu - 128)) else EOk []);
      edo b <- (if negb (rw =? 1) then param_encode (TRw rw) else EOk []);            (* fix c11-1 *)
      EOk (h ++ a ++ b)
  | DM d s r => edo h <- encode_header 7 d s; edo b <- rawB r; EOk (h ++ b)
  | Frmr d s fl pt ns nr vs vr vsa vra =>
      edo h <- encode_header 8 d s;
      edo b0 <- rawB (Z.lor (Z.shiftl fl 4) pt); edo b1 <- rawB (Z.lor (Z.shiftl ns 4) nr);
      edo b2 <- rawB (Z.lor (Z.shiftl vs 4) vr); edo b3 <- rawB (Z.lor (Z.shiftl vsa 4) vra);
      EOk (h ++ b0 ++ b1 ++ b2 ++ b3)
  | Snl d s rq rs =>
      edo h <- encode_header 9 d s;
      edo a <- econcat (emapM (fun x => param_encode (TSdreq (fst x) (snd x))) rq);
      edo b <- econcat (emapM (fun x => param_encode (TSdres (fst x) (snd x))) rs);
      EOk (h ++ a ++ b)
  | Dps d s e r =>
      if negb (d =? 0) || negb (s =? 0) then EEncodeError else
      edo h <- encode_header 10 d s;
      edo a <- optb_tlv e TEcpk; edo b <- optb_tlv r TRn;
      EOk (h ++ a ++ b)
  | Info d s ns nr data => edo h <- encode_nheader 12 d s ns nr; EOk (h ++ data)
  | RR d s nr => encode_nheader 13 d s 0 nr
  | RNR d s nr => encode_nheader 14 d s 0 nr
  | Unknown pt d s payload => edo h <- encode_header pt d s; EOk (h ++ payload)
  end.

(* ------------------------------------------------------------------ __len__ *)
Definition some1 {A} (o : option A) (n : Z) : Z := match o with Some _ => n | None => 0 end.
Definition optb_len (o : option (list Z)) : Z := match o with Some (x :: b) => 2 + len (x :: b) | _ => 0 end.
Definition zsum (l : list Z) : Z := fold_right Z.add 0 l.

Fixpoint pdu_len (p : pdu) : Z :=
  match p with
  | Symm _ _ => 2
  | Pax _ _ v m w l o => 2 + some1 v 3 + some1 m 4 + some1 w 4 + some1 l 3 + some1 o 3
  | Agf _ _ ps => 2 + zsum (map (fun q => 2 + pdu_len q) ps)
  | UI _ _ data => 2 + len data
  | Connect _ _ miu rw sn => 2 + (if miu >? 128 then 4 else 0) + (if negb (rw =? 1) then 3 else 0) + optb_len sn
  | Disc _ _ => 2
  | CC _ _ miu rw => 2 + (if miu >? 128 then 4 else 0) + (if negb (rw =? 1) then 3 else 0)
  | DM _ _ _ => 3
  | Frmr _ _ _ _ _ _ _ _ _ _ => 6
  | Snl _ _ rq rs => 2 + len rs * 4 + zsum (map (fun x => 3 + len (snd x)) rq)
  | Dps _ _ e r => 2 + optb_len e + optb_len r
  | Info _ _ _ _ data => 3 + len data
  | RR _ _ _ => 3
  | RNR _ _ _ => 3
  | Unknown _ _ _ payload => 2 + len payload
  end.

(* ------------------------------------------------------------------ valid field values *)
Definition optZ_ok (lo hi : Z) (o : option Z) : bool := match o with Some v => in_range lo hi v | None => true end.
(* a service name / key / nonce that is present is not empty (`if self.sn:` does not encode an empty one) *)
Definition optb_ok (o : option (list Z)) : bool :=
  match o with Some b => bytes_okb b && in_range 1 255 (len b) | None => true end.
Definition sap_ok (x : Z) : bool := in_range 0 63 x.
Definition is_agf (p : pdu) : bool := match p with Agf _ _ _ => true | _ => false end.

Fixpoint validb (p : pdu) : bool :=
  match p with
  | Symm d s => (d =? 0) && (s =? 0)
  | Pax d s v m w l o => (d =? 0) && (s =? 0) && optZ_ok 0 255 v && optZ_ok 0 2047 m && optZ_ok 0 65535 w &&
                         optZ_ok 0 255 l && optZ_ok 0 7 o
  | Agf d s ps => (d =? 0) && (s =? 0) &&
                  forallb (fun q => validb q && negb (is_agf q) && (pdu_len q <=? 65535)) ps
  | UI d s data => sap_ok d && sap_ok s && bytes_okb data
  | Connect d s miu rw sn => sap_ok d && sap_ok s && in_range 128 (128 + 2047) miu && in_range 0 15 rw && optb_ok sn
  | Disc d s => sap_ok d && sap_ok s
  | CC d s miu rw => sap_ok d && sap_ok s && in_range 128 (128 + 2047) miu && in_range 0 15 rw
  | DM d s r => sap_ok d && sap_ok s && in_range 0 255 r
  | Frmr d s fl pt ns nr vs vr vsa vra =>
      sap_ok d && sap_ok s && in_range 0 15 fl && in_range 0 15 pt && in_range 0 15 ns && in_range 0 15 nr &&
      in_range 0 15 vs && in_range 0 15 vr && in_range 0 15 vsa && in_range 0 15 vra
  | Snl d s rq rs =>
      (d =? 1) && (s =? 1) &&
      forallb (fun x => in_range 0 255 (fst x) && bytes_okb (snd x) && (len (snd x) <=? 254)) rq &&
      forallb (fun x => in_range 0 255 (fst x) && in_range 0 255 (snd x)) rs
  | Dps d s e r => (d =? 0) && (s =? 0) && optb_ok e && optb_ok r
  | Info d s ns nr data => sap_ok d && sap_ok s && in_range 0 15 ns && in_range 0 15 nr && bytes_okb data
  | RR d s nr => sap_ok d && sap_ok s && in_range 0 15 nr
  | RNR d s nr => sap_ok d && sap_ok s && in_range 0 15 nr
  | Unknown pt d s payload => ((pt =? 11) || (pt =? 15)) && sap_ok d && sap_ok s && bytes_okb payload
  end.
Definition valid (p : pdu) : Prop := validb p = true.

(* the PDU a decoder can produce from the same encoding: an empty service name / key / nonce is not encoded
   (`if self.sn:`) and is therefore read back as None *)
Definition norm_optb (o : option (list Z)) : option (list Z) := match o with Some [] => None | _ => o end.
Fixpoint norm (p : pdu) : pdu :=
  match p with
  | Connect d s miu rw sn => Connect d s miu rw (norm_optb sn)
  | Dps d s e r => Dps d s (norm_optb e) (norm_optb r)
  | Agf d s ps => Agf d s (map norm ps)
  | _ => p
  end.
