(* Bridge: the response validation of pn53x.Chipset.command (everything after the ACK wait loop), translated
   statement by statement on this run, equals the model function pn53x_parse the C14 theorems are about. *)
From Coq Require Import ZArith List Bool Lia ZifyBool.
From NV Require Import Base.Result Base.Bytes Base.PyPrims Model.Frames Proofs.Frames Gen.FramesK.
Import ListNotations.
Open Scope Z_scope.

Lemma pyslice_nonneg {A} (l : list A) a b : 0 <= a -> 0 <= b ->
  pyslice l a b = firstn (Z.to_nat (b - a)) (skipn (Z.to_nat a) l).
Proof.
  intros Ha Hb. rewrite pyslice_slice by assumption. unfold slice. rewrite (Z.max_r 0 a) by assumption.
  f_equal. lia.
Qed.

Lemma pyslice_to_end {A} (l : list A) n : 0 <= n -> pyslice l n (len l) = skipn (Z.to_nat n) l.
Proof. apply pyslice_drop. Qed.

Lemma pyidx_nonneg l k : 0 <= k -> pyidx l k = nth (Z.to_nat k) l 0.
Proof. intro H. unfold pyidx. replace (k <? 0) with false by lia. cbv iota. replace (k <? 0) with false by lia. reflexivity. Qed.


Lemma pyslice_but_last (l : list Z) : pyslice l 0 (-1) = but_last l.
Proof.
  unfold but_last. rewrite removelast_firstn_len.
  unfold pyslice, norm_idx. pose proof (len_nonneg l) as Hn.
  change (0 <? 0) with false. change (-1 <? 0) with true. cbv iota.
  rewrite Z.min_l by lia. cbn [Z.to_nat skipn]. f_equal. unfold len in *. lia.
Qed.

Lemma pyslice_strip2 (l : list Z) : pyslice l 2 (-2) = strip2 l.
Proof.
  unfold strip2. rewrite !removelast_firstn_len.
  unfold pyslice, norm_idx. pose proof (len_nonneg l) as Hn.
  change (2 <? 0) with false. change (-2 <? 0) with true. cbv iota.
  destruct l as [|a [|b l]].
  - reflexivity.
  - reflexivity.
  - cbn [tl]. rewrite Z.min_l by (unfold len; cbn [length]; lia).
    change (Z.to_nat 2) with 2%nat. cbn [skipn].
    rewrite firstn_firstn. f_equal. rewrite firstn_length. unfold len. cbn [length]. lia.
Qed.


(* the common tail, in generated form *)
Definition gen_tail (cmd : Z) (frame : list Z) : res (list Z) :=
  if negb (Z.land (sum (pyslice frame 0 (-1))) 255 =? 0) then Err IOErr else
  if pyidx frame 0 =? 127 then Err (ChipsetError 127) else
  if negb (pyidx frame 0 =? 213) then Err IOErr else
  if negb (pyidx frame 1 =? cmd + 1) then Err IOErr else
  Ok (pyslice frame 2 (-2)).

Lemma gen_tail_eq cmd body : 2 <= len body -> gen_tail cmd body = tail_parse cmd body.
Proof.
  intro H. unfold gen_tail, tail_parse. rewrite pyslice_but_last, pyslice_strip2.
  rewrite (idx_nth body 0), (idx_nth body 1) by lia. rewrite !pyidx_nonneg by lia.
  cbn [bind Z.to_nat Pos.to_nat Pos.iter_op Nat.add]. reflexivity.
Qed.

(* the generated function has the shape of pn53x_parse_unfold; only the in-range facts for pyslice / pyidx
   are needed here *)
Lemma gen_pn53x_parse_unfold cmd frame :
  gen_pn53x_parse cmd frame =
  if len frame <? 7 then Err IOErr else do body <- frame_body frame; gen_tail cmd body.
Proof.
  unfold gen_pn53x_parse, frame_body.
  destruct (len frame <? 7) eqn:E7; [reflexivity|].
  change (py_startswith frame ([0; 0; 255] ++ [255; 255])) with (starts_with (SOF ++ [255; 255]) frame).
  change (py_startswith frame [0; 0; 255]) with (starts_with SOF frame).
  pose proof (len_nonneg frame) as Hn.
  destruct (starts_with (SOF ++ [255; 255]) frame) eqn:Ex.
  - rewrite !pyslice_nonneg by lia. change (Z.to_nat (8 - 5)) with 3%nat. change (Z.to_nat 5) with 5%nat.
    destruct (negb (Z.land (sum (firstn 3 (skipn 5 frame))) 255 =? 0)); [reflexivity|].
    assert (Hu : unpack_be16 (firstn (Z.to_nat (7 - 5)) (skipn 5 frame)) = byt frame 5 * 256 + byt frame 6).
    { unfold unpack_be16, byt. rewrite !pyidx_nonneg by lia. change (Z.to_nat (7 - 5)) with 2%nat.
      apply starts_with_inv in Ex. destruct Ex as [r ->]. cbn [SOF app] in *.
      destruct r as [|x [|y r]]; try (rewrite !len_cons in E7; cbn in E7; lia). reflexivity. }
    rewrite Hu. change (Z.sub (len frame) 10) with (len frame - 10).
    destruct (negb (byt frame 5 * 256 + byt frame 6 =? len frame - 10)); [reflexivity|].
    rewrite pyslice_to_end by lia. reflexivity.
  - destruct (starts_with SOF frame); [|reflexivity].
    rewrite !pyslice_nonneg by lia. change (Z.to_nat (5 - 3)) with 2%nat. change (Z.to_nat 3) with 3%nat.
    destruct (negb (Z.land (sum (firstn 2 (skipn 3 frame))) 255 =? 0)); [reflexivity|].
    rewrite pyidx_nonneg by lia. change (nth (Z.to_nat 3) frame 0) with (byt frame 3).
    destruct (negb (byt frame 3 =? len frame - 7)); [reflexivity|].
    rewrite pyslice_to_end by lia. reflexivity.
Qed.

Theorem bridge_pn53x_parse cmd frame : bytes_ok frame ->
  gen_pn53x_parse cmd frame = pn53x_parse cmd frame.
Proof.
  intro Hb. rewrite gen_pn53x_parse_unfold, pn53x_parse_unfold.
  destruct (len frame <? 7) eqn:E7; [reflexivity|].
  destruct (frame_body frame) as [body| | |] eqn:Eb; try reflexivity.
  apply gen_tail_eq, (frame_body_ok frame body Hb ltac:(lia) Eb).
Qed.
