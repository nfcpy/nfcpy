(* Bridge, whole functions: the decode / encode functions translated statement by statement from src/nfc/llcp/pdu.py on this
   run (Gen/PduF.v) ARE the functions of Model/Pdu.v that the C11 theorems are about. *)
From Coq Require Import ZArith List Bool Lia ZifyBool.
Ltac Zify.zify_post_hook ::= Z.to_euclidean_division_equations.
From NV Require Import Base.Result Base.Bytes Base.PyPrims Model.Pdu Gen.PduF
  Proofs.PduBase Proofs.PduWin Proofs.PduLen Proofs.PduRt Proofs.PduTotal.
Import ListNotations.
Open Scope Z_scope.

Theorem bridge_decode_header_f data off size : gen_decode_header data off size = decode_header data off size.
Proof. reflexivity. Qed.
Theorem bridge_decode_nheader_f data off size : gen_decode_nheader data off size = decode_nheader data off size.
Proof. reflexivity. Qed.
Theorem bridge_encode_header_f pt d s : gen_encode_header pt d s = encode_header pt d s.
Proof.
  unfold gen_encode_header, encode_header, g_pack_raw. cbn [orb g_packs Z.eqb Pos.eqb].
  destruct ((d <? 0) || (s <? 0)); [reflexivity|]. destruct ((d >? 63) || (s >? 63)); [reflexivity|].
  destruct (in_range 0 65535 _); reflexivity.
Qed.
Theorem bridge_encode_nheader_f pt d s ns nr : gen_encode_nheader pt d s ns nr = encode_nheader pt d s ns nr.
Proof.
  unfold gen_encode_nheader, encode_nheader. rewrite bridge_encode_header_f. destruct (encode_header pt d s); cbn [ebind]; try reflexivity.
  cbn [orb]. destruct ((ns <? 0) || (nr <? 0)) eqn:E0; [reflexivity|]. destruct ((ns >? 15) || (nr >? 15)) eqn:E; [reflexivity|].
  unfold g_pack_raw. cbn [g_packs Z.eqb Pos.eqb].
  assert (H : in_range 0 255 (Z.lor (Z.shiftl ns 4) nr) = true).
  { rewrite lor_nibbles by lia. unfold in_range. lia. }
  rewrite H. reflexivity.
Qed.

Theorem bridge_param_encode_f t : gen_param_encode t = param_encode t.
Proof.
  destruct t; cbn [gen_param_encode param_encode]; unfold g_pack_try, packB, packH; cbn [g_packs Z.eqb Pos.eqb];
    try (destruct (in_range _ _ v); reflexivity); try reflexivity.
  all: try (pose proof (len_nonneg b); destruct (len b >? 255) eqn:E; [reflexivity|];
            replace (in_range 0 255 (len b)) with true by (unfold in_range; lia); reflexivity).
  - pose proof (len_nonneg sn). destruct (len sn >? 254) eqn:E; [reflexivity|].
    replace (in_range 0 255 (1 + len sn)) with true by (unfold in_range; lia).
    destruct (in_range 0 255 tid); reflexivity.
  - destruct (in_range 0 255 tid); destruct (in_range 0 255 sap); reflexivity.
Qed.

Definition rd0 (data : list Z) (off : Z) : Z := match rd data off with Some T => T | None => 0 end.

Theorem bridge_param_decode_f data off size : bytes_ok data ->
  gen_param_decode data off size = do (L, t) <- param_decode data off size; Ok (rd0 data off, L, t).
Proof.
  intro Hd. unfold gen_param_decode, param_decode, g_rd_err, rd0.
  destruct (rd data off) as [T|]; [|reflexivity]. cbn [bind].
  destruct (rd data (off + 1)) as [L|]; [|reflexivity]. cbn [bind].
  destruct (off + 2 + L >? len data); [reflexivity|]. cbv zeta. cbn [andb].
  destruct (2 + L >? size); [reflexivity|].
  (* from here on the value is any byte string V; the reserved-bit tests of MIUX, RW, OPT go by mask_clear *)
  pose proof (bytes_ok_slice data (off + 2) (off + 2 + L) Hd) as HV.
  revert HV. generalize (slice data (off + 2) (off + 2 + L)). intros V HV. unfold tlv_interp, g_tlv_raw.
  destruct (T =? 1). { destruct (negb (L =? 1)); [reflexivity|]. destruct V as [|a [|b V]]; reflexivity. }
  destruct (T =? 2).
  { destruct (negb (L =? 2)); [reflexivity|]. destruct V as [|a [|b [|c V]]]; try reflexivity.
    pose proof (byte_of _ _ HV). pose proof (byte_of _ _ (bytes_tl _ _ HV)).
    rewrite (mask_clear 16) by first [reflexivity | lia]. reflexivity. }
  destruct (T =? 3). { destruct (negb (L =? 2)); [reflexivity|]. destruct V as [|a [|b [|c V]]]; reflexivity. }
  destruct (T =? 4). { destruct (negb (L =? 1)); [reflexivity|]. destruct V as [|a [|b V]]; reflexivity. }
  destruct (T =? 5).
  { destruct (negb (L =? 1)); [reflexivity|]. destruct V as [|a [|b V]]; try reflexivity.
    pose proof (byte_of _ _ HV). rewrite (mask_clear 8) by first [reflexivity | lia]. reflexivity. }
  destruct (T =? 6) eqn:E6. { apply Z.eqb_eq in E6. subst T. reflexivity. }
  destruct (T =? 7).
  { destruct (negb (L =? 1)); [reflexivity|]. destruct V as [|a [|b V]]; try reflexivity.
    pose proof (byte_of _ _ HV). rewrite (mask_clear 8) by first [reflexivity | lia]. reflexivity. }
  destruct (T =? 8). { destruct (L =? 0); [reflexivity|]. destruct V; reflexivity. }
  destruct (T =? 9). { destruct (negb (L =? 2)); [reflexivity|]. destruct V as [|a [|b [|c V]]]; reflexivity. }
  destruct (T =? 10); [reflexivity|]. destruct (T =? 11); reflexivity.
Qed.

(* the T returned next to a decoded parameter is the tag of its constructor; an uninterpreted one has no known tag *)
Definition tag_ok (t : tlv) : Prop :=
  match t with TOther T _ => (T =? 1) || (T =? 2) || (T =? 3) || (T =? 4) || (T =? 5) || (T =? 6) || (T =? 7) || (T =? 8) || (T =? 9) ||
                             (T =? 10) || (T =? 11) = false | _ => True end.
Lemma tlv_interp_tag T L V t : tlv_interp T L V = Ok t -> tlv_T t = T /\ tag_ok t.
Proof.
  revert T L V t. apply (tlv_interp_inv (fun T _ _ t => tlv_T t = T /\ tag_ok t)); intros; split; try exact I; try reflexivity.
  cbn [tag_ok]. lia.
Qed.
Lemma param_decode_tag data off size L t : param_decode data off size = Ok (L, t) -> tlv_T t = rd0 data off /\ tag_ok t.
Proof.
  unfold param_decode, rd0. destruct (rd data off) as [T|]; [|discriminate]. destruct (rd data (off + 1)) as [L'|]; [|discriminate].
  destruct (off + 2 + L' >? len data); [discriminate|]. destruct (2 + L' >? size); [discriminate|].
  destruct (tlv_interp T L' _) as [t'| | |] eqn:E; cbn [bind]; try discriminate. intro H. injection H as _ <-.
  eapply tlv_interp_tag, E.
Qed.

Lemma tag_other T b : tag_ok (TOther T b) -> forall k, 1 <= k <= 11 -> (T =? k) = false.
Proof. cbn [tag_ok]. lia. Qed.

Lemma bind_ok_id {A} (r : res A) : (do x <- r; Ok x) = r.
Proof. destruct r; reflexivity. Qed.

(* The generated decoders of PAX, CONNECT, CC, SNL, DPS are one scheme: header, an address test, and a
   `while size >= 2` loop that differs only in the statement [gstep] updating the PDU from (T, V). *)
Section TlvClass.
Variables (gloop : nat -> list Z -> Z -> Z -> pdu -> res pdu) (gstep : Z -> tlv -> pdu -> pdu) (step : pdu -> tlv -> pdu).
Hypothesis Hloop : forall fuel data off size st,
  gloop fuel data off size st =
  if negb (size >=? 2) then Ok st else
  match fuel with
  | O => Hang
  | S f => do (T, L, V) <- gen_param_decode data off size; gloop f data (off + 2 + L) (size - 2 - L) (gstep T V st)
  end.
Hypothesis Hstep : forall t st, tag_ok t -> gstep (tlv_T t) t st = step st t.

Lemma loop_f fuel : forall data off size st, bytes_ok data ->
  gloop fuel data off size st = tlv_loop fuel step data off size st.
Proof.
  induction fuel as [|f IH]; intros data off size st Hd; rewrite Hloop, tlv_loop_eq;
    replace (negb (size >=? 2)) with (size <? 2) by lia; [reflexivity|].
  destruct (size <? 2); [reflexivity|]. rewrite bridge_param_decode_f by assumption.
  destruct (param_decode data off size) as [[L t]| | |] eqn:E; cbn [bind]; try reflexivity.
  destruct (param_decode_tag _ _ _ _ _ E) as [<- Hok]. rewrite Hstep by exact Hok. apply IH, Hd.
Qed.

Lemma tlv_class_f (guard : Z -> Z -> bool) (init : Z -> Z -> pdu) data off size : bytes_ok data ->
  (do (d, s) <- gen_decode_header data off size;
   if guard d s then Err DecodeError else
   do p <- gloop (Z.to_nat (size - 2)) data (off + 2) (size - 2) (init d s); Ok p) =
  (do (d, s) <- decode_header data off size;
   if guard d s then Err DecodeError else tlv_loop (Z.to_nat (size - 2)) step data (off + 2) (size - 2) (init d s)).
Proof.
  intro Hd. change gen_decode_header with decode_header.
  destruct (decode_header data off size) as [[d s]| | |]; cbn [bind]; try reflexivity.
  destruct (guard d s); [reflexivity|]. rewrite loop_f by assumption. apply bind_ok_id.
Qed.
End TlvClass.

(* the update statement of a class is the model's step: by cases on the parameter; a PDU of another class is left alone *)
Ltac step_cases t st Hok :=
  destruct t; cbn [tlv_T]; [.. | rewrite !(tag_other _ _ Hok) by lia]; try reflexivity; destruct st; reflexivity.

Theorem bridge_decode_Symmetry data off size : gen_decode_Symmetry data off size = dec_symm data off size.
Proof. reflexivity. Qed.
Theorem bridge_decode_ParameterExchange data off size : bytes_ok data ->
  gen_decode_ParameterExchange data off size = dec_pax data off size.
Proof.
  refine (tlv_class_f gen_loop_pax _ pax_step _ _ (fun d s => negb (d =? 0) || negb (s =? 0))
            (fun d s => Pax d s None None None None None) data off size).
  - intros [|f] *; reflexivity.
  - intros t st Hok. step_cases t st Hok.
Qed.
Theorem bridge_decode_Connect data off size : bytes_ok data -> gen_decode_Connect data off size = dec_connect data off size.
Proof.
  refine (tlv_class_f gen_loop_connect _ connect_step _ _ (fun _ _ => false) (fun d s => Connect d s 128 1 None) data off size).
  - intros [|f] *; reflexivity.
  - intros t st Hok. step_cases t st Hok.
Qed.
Theorem bridge_decode_ConnectionComplete data off size : bytes_ok data ->
  gen_decode_ConnectionComplete data off size = dec_cc data off size.
Proof.
  refine (tlv_class_f gen_loop_cc _ cc_step _ _ (fun _ _ => false) (fun d s => CC d s 128 1) data off size).
  - intros [|f] *; reflexivity.
  - intros t st Hok. step_cases t st Hok.
Qed.
Theorem bridge_decode_ServiceNameLookup data off size : bytes_ok data ->
  gen_decode_ServiceNameLookup data off size = dec_snl data off size.
Proof.
  refine (tlv_class_f gen_loop_snl _ snl_step _ _ (fun d s => negb (d =? 1) || negb (s =? 1)) (fun d s => Snl d s [] []) data off size).
  - intros [|f] *; reflexivity.
  - intros t st Hok. step_cases t st Hok.
Qed.
Theorem bridge_decode_DataProtectionSetup data off size : bytes_ok data ->
  gen_decode_DataProtectionSetup data off size = dec_dps data off size.
Proof.
  refine (tlv_class_f gen_loop_dps _ dps_step _ _ (fun d s => negb (d =? 0) || negb (s =? 0)) (fun d s => Dps d s None None) data off size).
  - intros [|f] *; reflexivity.
  - intros t st Hok. step_cases t st Hok.
Qed.
Theorem bridge_decode_UnnumberedInformation data off size : 0 <= off -> 0 <= off + size ->
  gen_decode_UnnumberedInformation data off size = dec_ui data off size.
Proof. intros. unfold gen_decode_UnnumberedInformation, dec_ui. rewrite pyslice_slice by lia. reflexivity. Qed.
Theorem bridge_decode_Disconnect data off size : gen_decode_Disconnect data off size = dec_disc data off size.
Proof. reflexivity. Qed.
Theorem bridge_decode_DisconnectedMode data off size : gen_decode_DisconnectedMode data off size = dec_dm data off size.
Proof. reflexivity. Qed.
Theorem bridge_decode_FrameReject data off size : gen_decode_FrameReject data off size = dec_frmr data off size.
Proof.
  unfold gen_decode_FrameReject, dec_frmr. replace (off + 2 + 1) with (off + 3) by lia.
  replace (off + 2 + 2) with (off + 4) by lia. replace (off + 2 + 3) with (off + 5) by lia. reflexivity.
Qed.
Theorem bridge_decode_Information data off size : 0 <= off -> 0 <= off + size ->
  gen_decode_Information data off size = dec_info data off size.
Proof. intros. unfold gen_decode_Information, dec_info. rewrite pyslice_slice by lia. reflexivity. Qed.
Theorem bridge_decode_ReceiveReady data off size : gen_decode_ReceiveReady data off size = dec_rr data off size.
Proof. reflexivity. Qed.
Theorem bridge_decode_ReceiveNotReady data off size : gen_decode_ReceiveNotReady data off size = dec_rnr data off size.
Proof. reflexivity. Qed.
Theorem bridge_decode_UnknownProtocolDataUnit data off size : 0 <= off -> 0 <= off + size ->
  gen_decode_UnknownProtocolDataUnit data off size = dec_unknown data off size.
Proof. intros. unfold gen_decode_UnknownProtocolDataUnit, dec_unknown. rewrite pyslice_slice by lia. reflexivity. Qed.

Lemma decode_with_f agf agf' data off size : 0 <= off -> bytes_ok data ->
  (off + size <= len data -> 2 <= size -> agf data off size = agf' data off size) ->
  gen_decode_with agf data off size = decode_gen agf' data off size.
Proof.
  intros Ho Hd Hagf. unfold gen_decode_with, decode_gen.
  destruct (off + size >? len data) eqn:E1; [reflexivity|]. destruct (size <? 2) eqn:E2; [reflexivity|].
  destruct (rdc StructErr data off) as [a| | |]; cbn [bind]; [|reflexivity..].
  destruct (rdc StructErr data (off + 1)) as [b| | |]; cbn [bind]; [|reflexivity..]. cbv zeta.
  set (pt := Z.land (Z.shiftr (a * 256 + b) 6) 15).
  destruct (pt =? 0); [apply bridge_decode_Symmetry|].
  destruct (pt =? 1); [apply bridge_decode_ParameterExchange, Hd|].
  destruct (pt =? 2); [apply Hagf; lia|].
  destruct (pt =? 3); [apply bridge_decode_UnnumberedInformation; lia|].
  destruct (pt =? 4); [apply bridge_decode_Connect, Hd|].
  destruct (pt =? 5); [apply bridge_decode_Disconnect|].
  destruct (pt =? 6); [apply bridge_decode_ConnectionComplete, Hd|].
  destruct (pt =? 7); [apply bridge_decode_DisconnectedMode|].
  destruct (pt =? 8); [apply bridge_decode_FrameReject|].
  destruct (pt =? 9); [apply bridge_decode_ServiceNameLookup, Hd|].
  destruct (pt =? 10); [apply bridge_decode_DataProtectionSetup, Hd|].
  destruct (pt =? 12); [apply bridge_decode_Information; lia|].
  destruct (pt =? 13); [apply bridge_decode_ReceiveReady|].
  destruct (pt =? 14); [apply bridge_decode_ReceiveNotReady|].
  apply bridge_decode_UnknownProtocolDataUnit; lia.
Qed.

Lemma decode_sub_agf_hdr data moff n a b : moff + n <= len data -> 2 <= n ->
  rd data moff = Some a -> rd data (moff + 1) = Some b -> Z.land (Z.shiftr (a * 256 + b) 6) 15 = 2 ->
  decode_sub data moff n = Err DecodeError.
Proof.
  intros Hl Hn Ha Hb Hp. unfold decode_sub, decode_gen, rdc.
  replace (moff + n >? len data) with false by lia. replace (n <? 2) with false by lia.
  rewrite Ha, Hb. cbn [bind]. cbv zeta. rewrite Hp. reflexivity.
Qed.

(* [dec] is the decoder used for the members; it has to agree with decode_sub wherever the nested-AGF guard lets it be called *)
Definition member_dec_ok (dec : list Z -> Z -> Z -> res pdu) (data : list Z) : Prop :=
  forall moff n, 0 <= moff ->
    (n < 2 \/ exists a b, rd data moff = Some a /\ rd data (moff + 1) = Some b /\ Z.land (Z.shiftr (a * 256 + b) 6) 15 <> 2) ->
    dec data moff n = decode_sub data moff n.

(* the nested-AGF test in front of a member: where it rejects, so does decode_sub; where it passes, [dec] is decode_sub *)
Lemma member_guard_f dec data moff n : member_dec_ok dec data -> 0 <= moff -> moff + n <= len data ->
  (do _ <- (if n >=? 2
            then do m0_ <- rdc StructErr data moff; do m1_ <- rdc StructErr data (moff + 1);
                 (if Z.land (Z.shiftr (m0_ * 256 + m1_) 6) 15 =? 2 then Err DecodeError else Ok tt)
            else Ok tt); dec data moff n) = decode_sub data moff n.
Proof.
  intros Hdec Ho Hl. destruct (n >=? 2) eqn:E4.
  - unfold rdc. rewrite (rd_spec data moff), (rd_spec data (moff + 1)) by lia. cbn [bind].
    set (a := nth (Z.to_nat moff) data 0). set (b := nth (Z.to_nat (moff + 1)) data 0).
    destruct (Z.land (Z.shiftr (a * 256 + b) 6) 15 =? 2) eqn:E5; cbn [bind].
    + symmetry. apply (decode_sub_agf_hdr data moff n a b); try lia; apply rd_spec; lia.
    + apply Hdec; [lia|]. right. exists a, b. repeat split; [apply rd_spec; lia | apply rd_spec; lia | lia].
  - cbn [bind]. apply Hdec; [lia|]. left. lia.
Qed.

Lemma loop_agf_f dec data : bytes_ok data -> member_dec_ok dec data ->
  forall fuel off size d s acc, 0 <= off -> off + size <= len data ->
  gen_loop_agf dec fuel data off size (Agf d s acc) = do l <- agf_loop fuel data off size acc; Ok (Agf d s l).
Proof.
  intros Hd Hdec. induction fuel as [|f IH]; intros off size d s acc Ho Hl; rewrite agf_loop_eq; cbn [gen_loop_agf];
    replace (negb (size >? 0)) with (size <=? 0) by lia; destruct (size <=? 0) eqn:E0; try reflexivity.
  destruct (size <? 2) eqn:E2; [reflexivity|]. unfold g_rd_err.
  destruct (rd data off) as [h|] eqn:Eh; [|reflexivity]. cbn [bind].
  destruct (rd data (off + 1)) as [l|] eqn:El; [|reflexivity]. cbn [bind]. cbv zeta.
  pose proof (rd_byte _ _ _ Hd Eh) as Bh. pose proof (rd_byte _ _ _ Hd El) as Bl. unfold byte_ok in Bh, Bl.
  set (n := h * 256 + l). assert (Hn : 0 <= n) by (unfold n; lia).
  destruct (n >? size - 2) eqn:E3; [reflexivity|].
  rewrite <- (member_guard_f dec data (off + 2) n Hdec) by lia.
  match goal with |- context [bind ?g0 (fun _ => dec data (off + 2) n)] => set (g := g0) end.
  destruct g as [[]| | |]; cbn [bind]; try reflexivity.
  destruct (dec data (off + 2) n) as [p| | |]; cbn [bind]; try reflexivity.
  apply IH; lia.
Qed.

Theorem bridge_decode_AggregatedFrame_with dec data off size : 0 <= off -> bytes_ok data -> off + size <= len data ->
  member_dec_ok dec data -> gen_decode_AggregatedFrame_with dec data off size = dec_agf data off size.
Proof.
  intros Ho Hd Hl Hdec. unfold gen_decode_AggregatedFrame_with, dec_agf. rewrite bridge_decode_header_f.
  destruct (decode_header data off size) as [[d s]| | |]; cbn [bind]; try reflexivity.
  destruct (negb (d =? 0) || negb (s =? 0)); [reflexivity|].
  rewrite (loop_agf_f dec data Hd Hdec) by lia.
  destruct (agf_loop (Z.to_nat (size - 2)) data (off + 2) (size - 2) []); reflexivity.
Qed.

Lemma decode_gen_slot agf1 agf2 data off size :
  (size < 2 \/ exists a b, rd data off = Some a /\ rd data (off + 1) = Some b /\ Z.land (Z.shiftr (a * 256 + b) 6) 15 <> 2) ->
  decode_gen agf1 data off size = decode_gen agf2 data off size.
Proof.
  intros [H|(a & b & Ha & Hb & Hp)]; unfold decode_gen, rdc.
  - destruct (off + size >? len data); [reflexivity|]. replace (size <? 2) with true by lia. reflexivity.
  - rewrite Ha, Hb. cbn [bind]. cbv zeta. replace (Z.land (Z.shiftr (a * 256 + b) 6) 15 =? 2) with false by lia. reflexivity.
Qed.

Lemma fuel_member_ok d data : bytes_ok data -> member_dec_ok (gen_decode_fuel (S d)) data.
Proof.
  intros Hd moff n Ho Hc. cbn [gen_decode_fuel].
  rewrite (decode_with_f _ (gen_decode_AggregatedFrame_with (gen_decode_fuel d)) data moff n Ho Hd (fun _ _ => eq_refl)).
  unfold decode_sub. apply decode_gen_slot, Hc.
Qed.

Theorem bridge_decode_fuel d data off size : 0 <= off -> bytes_ok data ->
  gen_decode_fuel (S (S d)) data off size = decode data off size.
Proof.
  intros Ho Hd. cbn [gen_decode_fuel]. unfold decode. apply decode_with_f; [exact Ho | exact Hd |].
  intros Hl Hs. apply bridge_decode_AggregatedFrame_with; try assumption. apply fuel_member_ok, Hd.
Qed.

Theorem bridge_decode data off size : 0 <= off -> bytes_ok data -> gen_decode data off size = decode data off size.
Proof.
  intros. unfold gen_decode.
  (* Gen/PduF.v sets gen_recursion_depth to 400; bridge_decode_fuel needs it in the form S (S d) *)
  change gen_recursion_depth with (S (S 398)). apply bridge_decode_fuel; assumption.
Qed.
Theorem bridge_decode_AggregatedFrame data off size : 0 <= off -> bytes_ok data -> off + size <= len data ->
  gen_decode_AggregatedFrame data off size = dec_agf data off size.
Proof.
  intros Ho Hd Hl. unfold gen_decode_AggregatedFrame. change (pred gen_recursion_depth) with (S 398).
  apply bridge_decode_AggregatedFrame_with; try assumption. apply fuel_member_ok, Hd.
Qed.

Lemma efor_param {A} (mk : A -> tlv) l : forall data,
  g_efor (fun x => gen_param_encode (mk x)) l data = edo a <- econcat (emapM (fun x => param_encode (mk x)) l); EOk (data ++ a).
Proof.
  unfold econcat. induction l as [|x r IH]; intro data.
  - cbn. rewrite app_nil_r. reflexivity.
  - cbn [g_efor]. rewrite emapM_cons, bridge_param_encode_f. destruct (param_encode (mk x)) as [b| |]; cbn [ebind]; try reflexivity.
    rewrite IH. destruct (emapM _ r) as [bs| |]; cbn [ebind concat]; try reflexivity. rewrite app_assoc. reflexivity.
Qed.
Lemma efor_agf encs : forall data,
  g_efor (fun e => edo l_ <- g_pack_raw [(2, len e)]; EOk (l_ ++ e)) encs data = edo b <- agf_body encs; EOk (data ++ b).
Proof.
  induction encs as [|e r IH]; intro data.
  - cbn. rewrite app_nil_r. reflexivity.
  - cbn [g_efor agf_body]. unfold g_pack_raw. cbn [g_packs Z.eqb Pos.eqb]. destruct (in_range 0 65535 (len e)); cbn [ebind]; [|reflexivity].
    rewrite IH. destruct (agf_body r); cbn [ebind]; try reflexivity. rewrite <- !app_assoc. reflexivity.
Qed.

(* `if c: data += Parameter.encode(t)` followed by the rest [k] of the method, against the model, which encodes the
   optional part [r] on its own and appends everything at the end *)
Lemma step_append (c : bool) t r data (k k' : list Z -> eres (list Z)) :
  r = (if c then param_encode t else EOk []) -> (forall a, k (data ++ a) = k' a) ->
  (edo d <- (if c then edo x <- gen_param_encode t; EOk (data ++ x) else EOk data); k d) = edo a <- r; k' a.
Proof.
  intros -> Hk. destruct c; cbn [ebind].
  - rewrite bridge_param_encode_f. destruct (param_encode t); cbn [ebind]; [apply Hk | reflexivity..].
  - rewrite <- Hk, app_nil_r. reflexivity.
Qed.

Theorem bridge_encode : forall p, gen_encode p = encode p.
Proof.
  induction p as [d s ps IH | p Hp] using pdu_ind'.
  - (* AGF *)
    cbn [gen_encode encode]. destruct (negb (d =? 0) || negb (s =? 0)); [reflexivity|].
    rewrite bridge_encode_header_f. destruct (encode_header 2 d s); cbn [ebind]; try reflexivity.
    rewrite (emapM_ext gen_encode encode) by (rewrite Forall_forall in IH; exact IH).
    destruct (emapM encode ps); cbn [ebind]; try reflexivity. rewrite efor_agf.
    destruct (agf_body a0); reflexivity.
  - destruct p; try discriminate Hp; cbn [gen_encode encode];
      rewrite ?bridge_encode_header_f, ?bridge_encode_nheader_f;
      try (destruct (encode_header _ _ _); reflexivity); try (destruct (encode_nheader _ _ _ _ _); reflexivity).
    + (* PAX *) destruct (negb (dsap =? 0) || negb (ssap =? 0)); [reflexivity|].
      destruct (encode_header 1 dsap ssap) as [h| |]; cbn [ebind]; try reflexivity.
      apply step_append; [destruct version; reflexivity | intro a]. apply step_append; [destruct miux; reflexivity | intro b].
      apply step_append; [destruct wks; reflexivity | intro c]. apply step_append; [destruct lto; reflexivity | intro e].
      apply step_append; [destruct opt; reflexivity | intro f]. rewrite <- !app_assoc. reflexivity.
    + (* CONNECT *) destruct (encode_header 4 dsap ssap) as [h| |]; cbn [ebind]; try reflexivity.
      unfold g_true_int. replace (negb (miu =? 0) && (miu >? 128)) with (miu >? 128) by lia.
      apply step_append; [reflexivity | intro a]. apply step_append; [reflexivity | intro b].
      apply step_append; [destruct sn as [[|x l]|]; reflexivity | intro c]. rewrite <- !app_assoc. reflexivity.
    + (* CC *) destruct (encode_header 6 dsap ssap) as [h| |]; cbn [ebind]; try reflexivity.
      unfold g_true_int. replace (negb (miu =? 0) && (miu >? 128)) with (miu >? 128) by lia.
      apply step_append; [reflexivity | intro a]. apply step_append; [reflexivity | intro b].
      rewrite <- !app_assoc. reflexivity.
    + (* DM *) destruct (encode_header 7 dsap ssap); cbn [ebind]; try reflexivity.
      unfold g_pack_raw, rawB. cbn [g_packs Z.eqb Pos.eqb]. destruct (in_range 0 255 reason); reflexivity.
    + (* FRMR *) destruct (encode_header 8 dsap ssap); cbn [ebind]; try reflexivity.
      unfold g_pack_raw, rawB. cbn [g_packs Z.eqb Pos.eqb].
      destruct (in_range 0 255 (Z.lor (Z.shiftl flags 4) ptype)); destruct (in_range 0 255 (Z.lor (Z.shiftl ns 4) nr));
        destruct (in_range 0 255 (Z.lor (Z.shiftl vs 4) vr)); destruct (in_range 0 255 (Z.lor (Z.shiftl vsa 4) vra)); reflexivity.
    + (* SNL *) destruct (encode_header 9 dsap ssap); cbn [ebind]; try reflexivity.
      rewrite (efor_param (fun x => TSdreq (fst x) (snd x))). destruct (econcat _); cbn [ebind]; try reflexivity.
      rewrite (efor_param (fun x => TSdres (fst x) (snd x))). destruct (econcat _); cbn [ebind]; try reflexivity.
      rewrite <- app_assoc. reflexivity.
    + (* DPS *) destruct (negb (dsap =? 0) || negb (ssap =? 0)); [reflexivity|].
      destruct (encode_header 10 dsap ssap) as [h| |]; cbn [ebind]; try reflexivity.
      apply step_append; [destruct ecpk as [[|x l]|]; reflexivity | intro a].
      apply step_append; [destruct rn as [[|x l]|]; reflexivity | intro b]. rewrite <- !app_assoc. reflexivity.
Qed.
