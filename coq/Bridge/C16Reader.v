(* C16 - static tie between the drivers and the tag layer.
   The retry loops of nfc.tag handle TimeoutError, TransmissionError and ProtocolError (Model/Retry.v, Props/C12.v).
   Here: for every driver, the READER side of ContactlessFrontend.exchange (Device.send_cmd_recv_rsp, the function
   called for a RemoteTarget) raises no other CommunicationError class - in particular not BrokenLinkError, which the
   documentation reserves for the card / target side ("the remote device has deactivated the RF field").
   Computed by ExnCheck on the driver skeletons of C13 (Gen/DriverSkel.v, regenerated on this run) at the entries
   of Gen/ReaderSkel.v. *)
From Coq Require Import ZArith List Bool String.
From NV Require Import Skel.ExnSyntax Skel.ExnCheck Gen.DriverSkel Gen.ReaderSkel.
Import ListNotations.
Open Scope Z_scope.
Open Scope string_scope.

(* what the tag layer turns into TagCommandError *)
Definition handled_by_tag_layer : list cls := [C_TimeoutError; C_TransmissionError; C_ProtocolError].
(* not communication errors: no device open (IOError(ENODEV), property C18 / C13) and the visible
   NotImplementedError stub of the PN531 Type 1 path (C13) *)
Definition device_errors : list cls := [C_IOError; C_NotImplementedError].
Definition reader_allowed : list cls := handled_by_tag_layer ++ device_errors.

Fixpoint program_of (ps : list (string * program)) (d : string) : option program :=
  match ps with
  | [] => None
  | (n, p) :: t => if String.eqb n d then Some p else program_of t d
  end.

Definition is_udp (e : string * string) : bool := String.eqb (fst e) "udp".
Definition hardware_readers : list (string * string) := filter (fun e => negb (is_udp e)) reader_entries.
Definition udp_readers : list (string * string) := filter is_udp reader_entries.

Lemma readers_listed : (8 <=? List.length hardware_readers)%nat && (1 <=? List.length udp_readers)%nat = true.
Proof. vm_compute. reflexivity. Qed.

Definition reader_side_stmt (entries : list (string * string)) (allowed : list cls) : Prop :=
  forall d k, In (d, k) entries -> exists P, program_of driver_programs d = Some P /\
  forall c, can_escape P k c -> In c allowed.

(* T: a stable table of the driver's program (Skel/ExnCheck.v) *)
Definition reader_okb (allowed : list cls) (e : string * string) (T : list (list cls)) : bool :=
  match program_of driver_programs (fst e) with
  | Some P => match lookup P (snd e) with
              | Some _ => stableb P T && subsetb (nth (index (key (snd e)) (keys P)) T []) allowed
              | None => false
              end
  | None => false
  end.

Lemma reader_ok_closed allowed entries tables :
  forallb2 (reader_okb allowed) entries tables = true -> reader_side_stmt entries allowed.
Proof.
  intros H d k Hin. destruct (In_nth_error _ _ Hin) as [i Hi].
  pose proof (forallb2_nth_error _ [] _ _ _ _ H Hi) as H1. unfold reader_okb in H1. cbn [fst snd] in H1.
  destruct (program_of driver_programs d) as [P|]; [|discriminate]. exists P. split; [reflexivity|].
  destruct (lookup P k); [|discriminate]. exact (stable_closed _ _ _ _ H1).
Qed.

(* the solutions, found outside the kernel as in closed_by_table (Skel/ExnCheck.v) *)
Definition tables_of (entries : list (string * string)) : list (list (list cls)) :=
  map (fun e => match program_of driver_programs (fst e) with Some P => map snd (solution P) | None => [] end) entries.

Lemma reader_side_lemma : reader_side_stmt hardware_readers reader_allowed.
Proof. let T := eval vm_compute in (tables_of hardware_readers) in apply (reader_ok_closed _ _ T). vm_compute. reflexivity. Qed.

Lemma udp_reader_side_lemma : reader_side_stmt udp_readers (reader_allowed ++ [C_BrokenLinkError]).
Proof. let T := eval vm_compute in (tables_of udp_readers) in apply (reader_ok_closed _ _ T). vm_compute. reflexivity. Qed.

(* open finding (findings/C16.json): the UDP test driver shares _recv_data between both directions, an "RFOFF"
   datagram makes the reader side raise BrokenLinkError: the analysis computes it *)
Lemma udp_reader_raises_brokenlink : mem C_BrokenLinkError (escapes prog_udp "udp.Device.send_cmd_recv_rsp") = true.
Proof. vm_compute. reflexivity. Qed.
