(* C16 - ExnCheck (Skel/ExnCheck.v, proved sound for C13) evaluated on the exception-flow skeletons of
   every public method / property of every tag class under src/nfc/tag/, regenerated on this run
   (Gen/TagSkel.v).  Prim = clf.exchange raising the CommunicationError classes.

   tag_ops_closed: what can leave a public method along explicit raise / handler flow is, per tag type,
     - the TagCommandError subclass of that type,
     - the documented argument / state checks: ValueError (incl. UnicodeError of a non-ascii password),
       RuntimeError ("authentication required", "tag must be authenticated first", and the
       "unexpected <error>" check at the end of the retry loops of Type 1/2/3),
     - AttributeError("tag ndef area is not writeable") for the two NDEF write properties only,
     - the ndeflib DecodeError/EncodeError family for NDEF.records only,
   and never a raw CommunicationError.  No method needs NotImplementedError: every concrete class
   overrides the stubs of Tag.NDEF.
   The statements are closed boolean computations (vm_compute) lifted by stable_sound. *)
From Coq Require Import ZArith List Bool String.
From NV Require Import Skel.ExnSyntax Skel.ExnCheck Gen.TagSkel.
Import ListNotations.
Open Scope Z_scope.
Open Scope string_scope.

Definition type_error (fam : string) : cls :=
  if String.eqb fam "tt1" then C_Type1TagCommandError
  else if String.eqb fam "tt2" then C_Type2TagCommandError
  else if String.eqb fam "tt3" then C_Type3TagCommandError
  else C_Type4TagCommandError.

Definition is_ndef_write (entry : string) : bool :=
  String.eqb entry "NDEF.octets=" || String.eqb entry "NDEF.records=".
Definition is_records (entry : string) : bool :=
  String.eqb entry "NDEF.records" || String.eqb entry "NDEF.records=".

(* allowed escapes of public method `entry` of a class of family fam *)
Definition allowed (fam entry : string) : list cls :=
  type_error fam :: C_ValueError :: C_UnicodeError ::
  (if String.eqb fam "tt4" then [] else [C_RuntimeError]) ++
  (if is_ndef_write entry then [C_AttributeError] else []) ++
  (if is_records entry then [C_NdefError] else []).

Definition tagprog := (string * string * (list cls -> program) * list (string * string))%type.

Definition class_okb (exch : list cls) (p : tagprog) : bool :=
  let '(nm, fam, pr, ents) := p in
  let P := pr exch in
  let sol := solution P in
  summary_okb P sol &&
  forallb (fun ek => match lookup P (snd ek) with Some _ => true | None => false end &&
                     subsetb (slookup sol (snd ek)) (allowed fam (fst ek))) ents.

(* the two parts of class_okb with the names of the program resolved once (Skel/ExnCheck.v), for a table T
   in the place of the computed solution: the forms that are evaluated *)
Definition entries_okb (fam : string) (P : program) (T : list (list cls)) (ents : list (string * string)) : bool :=
  let ks := keys P in
  forallb (fun ek => let i := index (key (snd ek)) ks in
                     match nth_error (map snd P) i with Some _ => true | None => false end &&
                     subsetb (nth i T []) (allowed fam (fst ek))) ents.

Definition class_ok_i (exch : list cls) (p : tagprog) (T : list (list cls)) : bool :=
  let '(nm, fam, pr, ents) := p in stableb (pr exch) T && entries_okb fam (pr exch) T ents.

Definition tag_ops_closed_stmt (exch : list cls) (progs : list tagprog) : Prop :=
  forall nm fam pr ents, In (nm, fam, pr, ents) progs ->
  forall e k, In (e, k) ents ->
  forall c, can_escape (pr exch) k c -> In c (allowed fam e).

Lemma class_ok_closed exch progs tables : forallb2 (class_ok_i exch) progs tables = true -> tag_ops_closed_stmt exch progs.
Proof.
  intros H nm fam pr ents Hin e k Hek c Hc. destruct (In_nth_error _ _ Hin) as [i Hi].
  pose proof (forallb2_nth_error _ [] _ _ _ _ H Hi) as H1. cbn in H1. apply andb_true_iff in H1 as [H1 H2].
  unfold entries_okb in H2. rewrite forallb_forall in H2. specialize (H2 _ Hek). cbn [fst snd] in H2.
  apply andb_true_iff in H2 as [_ H2]. apply (subsetb_incl _ _ H2). exact (stable_sound _ _ H1 k c Hc).
Qed.

(* the solutions as stored tables: what is evaluated about them is class_ok_i, one round for each *)
Definition tables (exch : list cls) (progs : list tagprog) : list (list (list cls)) :=
  map (fun p : tagprog => let '(_, _, pr, _) := p in map snd (solution (pr exch))) progs.
Definition not_tt4 (p : tagprog) : bool := let '(_, fam, _, _) := p in negb (String.eqb fam "tt4").
Definition named_tables := Eval vm_compute in tables exch_named tag_programs.
Definition any_tables := Eval vm_compute in tables exch_any (filter not_tt4 tag_programs).

(* --- the three error classes the property quantifies over: every class, every method *)
Lemma all_classes_ok_named : forallb2 (class_ok_i exch_named) tag_programs named_tables = true.
Proof. vm_compute. reflexivity. Qed.

(* --- any CommunicationError subclass (BrokenLinkError, further subclasses, the base class):
       Type 1/2/3 classes stay closed (RuntimeError "unexpected ..." is in their allowed set) *)
Lemma t123_classes_ok_any : forallb2 (class_ok_i exch_any) (filter not_tt4 tag_programs) any_tables = true.
Proof. vm_compute. reflexivity. Qed.

(* Type 4: IsoDepInitiator.exchange has handlers for the three named classes only; the analysis does
   not exclude that another CommunicationError subclass leaves a Type 4 method (the drivers raise
   BrokenLinkError in listen mode only, property C13) *)
Lemma tt4_not_closed_for_other_classes :
  forallb (fun p => negb (class_okb exch_any p)) (filter (fun p => negb (not_tt4 p)) tag_programs) = true.
Proof. vm_compute. reflexivity. Qed.

Lemma tag_ops_closed_lemma : tag_ops_closed_stmt exch_named tag_programs.
Proof. exact (class_ok_closed _ _ _ all_classes_ok_named). Qed.

Lemma tag_ops_closed_any_lemma : tag_ops_closed_stmt exch_any (filter not_tt4 tag_programs).
Proof. exact (class_ok_closed _ _ _ t123_classes_ok_any). Qed.

(* nfc.tag.activate(): nothing escapes, whatever CommunicationError subclass clf.exchange raises *)
Lemma activate_closed_lemma : forall c, ~ can_escape (prog_activate exch_any) entry_activate c.
Proof.
  change (forall c, can_escape (prog_activate exch_any) entry_activate c -> In c []).
  closed_by_table (prog_activate exch_any).
Qed.

(* no allowed set contains a CommunicationError class *)
Definition comm_classes : list cls :=
  [C_CommunicationError; C_TimeoutError; C_TransmissionError; C_ProtocolError; C_BrokenLinkError; C_OtherCommunicationError].
Lemma allowed_no_comm fam entry : forallb (fun c => negb (mem c (allowed fam entry))) comm_classes = true.
Proof.
  unfold allowed, type_error, is_ndef_write, is_records.
  generalize (String.eqb fam "tt1"), (String.eqb fam "tt2"), (String.eqb fam "tt3"), (String.eqb fam "tt4"),
    (String.eqb entry "NDEF.octets="), (String.eqb entry "NDEF.records="), (String.eqb entry "NDEF.records").
  intros [] [] [] [] [] [] []; reflexivity.
Qed.

Lemma never_raw_commerror_lemma : forall nm fam pr ents, In (nm, fam, pr, ents) tag_programs ->
  forall e k, In (e, k) ents -> forall c, In c comm_classes -> ~ can_escape (pr exch_named) k c.
Proof.
  intros nm fam pr ents Hin e k Hek c Hc Hesc.
  pose proof (tag_ops_closed_lemma nm fam pr ents Hin e k Hek c Hesc) as Ha. apply mem_In in Ha.
  pose proof (allowed_no_comm fam e) as N. rewrite forallb_forall in N. specialize (N _ Hc).
  rewrite Ha in N. discriminate.
Qed.

(* the statements are not vacuous: the table is not empty, every entry names a function of its program
   (checked by entries_okb), and can_escape is inhabited: Type2Tag.write raises ValueError for data
   that is not four bytes long *)
Definition n_classes : nat := List.length tag_programs.
Definition n_entries : nat := fold_left (fun n (p : tagprog) => (n + List.length (snd p))%nat) tag_programs 0%nat.
Lemma table_size : Nat.leb 30 n_classes && Nat.leb 800 n_entries = true.
Proof. vm_compute. reflexivity. Qed.

Lemma type2_write_can_raise_valueerror : can_escape (prog_tt2_Type2Tag exch_named) "tt2.Type2Tag.write" C_ValueError.
Proof.
  unfold can_escape. eexists. exists (mkExn C_ValueError 0). split; [vm_compute; reflexivity|]. split; [|reflexivity].
  apply E_SeqA; [|discriminate]. apply E_ChoiceL. apply E_Raise.
Qed.
